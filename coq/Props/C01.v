(* C01 — At-least-once delivery end to end across upstream faults and restarts.
   Only the property theorems (and the predicate [C01_overflow] two of them are stated with); each is closed by
   [exact] of a lemma from Proofs/, or by a few lines that take such a lemma apart.

   The theorems are about Model/System.v, the labelled transition system of the whole agent for one output
   (records are tokens (connection, sequence, pipeline, filter verdict, body); chunks are immutable groups of
   tokens).  A run is ANY event list accepted by [step] from [init]: every interleaving of the goroutines, every
   batching, spill, quota and I/O outcome, every upstream behaviour per connection attempt (refuse, reset, silent,
   late or wrong ACK are [ESessionEnd] / absence of [ESrvAck] at arbitrary points) and every history of graceful
   stops and restarts.

   Hypotheses, all explicit:
   * [no_timeout es]: the 60 s channel-timeout ("BUG: timeout flushing") branch of channelInputBuffer.Flush is not
     taken, i.e. no pipeline worker is stalled beyond defs.IntermediateChannelTimeout (C01_timeout_hypothesis_needed
     shows the theorem fails without it);
   * the transition rules of the component stages are the guarantees of the component properties: C08/C09 (a
     well-formed record read from a connection is framed and parsed once: EIngest/EFrame), C11 (a chunk is the
     sequence of records written since the last flush: EChunkClose), C03 (bufferer: Accept never blocks, a chunk
     leaves memory only into its file or the dropped counter — including a hand-back that cannot be written:
     EHandback false counts a drop, which is the behaviour after the C03 fix), C02 (the client confirms a chunk only
     after an ACK read on the same session: EAckRead; unconfirmed chunks become leftovers: ESessionEnd);
   * the hybrid buffer saves its window only after its consumers have quit (ESave _ WWindow requires the client to be
     done: the code after fix 9d5f8ee, see C05); this does not matter for at-least-once, only for order;
   * the shutdown waits of bufferer.Destroy / collectLeftovers do not hit their own time-outs (EFeederEnd,
     EClientDone, EStopped are taken only when their loops have drained: C18's subject). *)
From Coq Require Import List NArith Bool.
From SV Require Import Model.Common Model.System Model.SystemAccept Model.SystemConnEnd Model.SystemQuota
  Proofs.SystemLists Proofs.SystemProofs Proofs.SystemAlo Proofs.SystemAcceptProofs Proofs.SystemConnEndProofs Proofs.SystemQuotaProofs.
Import ListNotations.

(* Conservation, in every reachable state: every record read is in at least one location; nothing is anywhere
   that was not read — tokens carry their body, so contents are unaltered; a record that passes the filters is
   never in the "filtered" location (it is in transit, acknowledged, in a queue file, in a counted-dropped chunk,
   or lost by the channel-timeout branch). *)
Theorem C01_conservation :
  forall es s, steps init es = Some s ->
    (forall t, In t (ingested s) -> In t (anywhere s)) /\
    (forall t, In t (anywhere s) -> In t (ingested s)) /\
    (forall t, In t (ingested s) -> t_keep t = true -> In t (live s)).
Proof. exact conservation_lemma. Qed.
Print Assumptions C01_conservation.

(* At every Stopped state nothing is only in memory: all connection buffers, batches, channels, workers,
   current chunks, buffer queues, windows and client holdings are empty (the final flushes of runConnection,
   the orchestrator sink, the worker's onStop, bufferer.Destroy and the client's leftover loop). *)
Theorem C01_stopped_nothing_in_memory :
  forall es s, steps init es = Some s -> phase s = Stopped -> forall t, ~ In t (transit s).
Proof. exact stopped_quiescent. Qed.
Print Assumptions C01_stopped_nothing_in_memory.

(* AT LEAST ONCE: at every Stopped state of every run, each record read from a connection and not dropped by the
   filters is in a chunk acknowledged by the upstream, or in a chunk file of the queue directories, or in a chunk
   counted in the dropped-chunk metric.  Duplicates are allowed. *)
Theorem C01_at_least_once :
  forall es s, steps init es = Some s -> no_timeout es = true -> phase s = Stopped ->
  forall t, In t (ingested s) -> t_keep t = true ->
    In t (toks_of_chunks (acked s)) \/ In t (toks_of_chunks (files s)) \/ In t (toks_of_chunks (dropped s)).
Proof. exact at_least_once_lemma. Qed.
Print Assumptions C01_at_least_once.

(* The same at every quiescent state (nothing in transit), e.g. once a healthy upstream has acknowledged everything. *)
Theorem C01_at_least_once_quiescent :
  forall es s, steps init es = Some s -> no_timeout es = true -> quiescent s ->
  forall t, In t (ingested s) -> t_keep t = true ->
    In t (toks_of_chunks (acked s)) \/ In t (toks_of_chunks (files s)) \/ In t (toks_of_chunks (dropped s)).
Proof. exact at_least_once_quiescent_lemma. Qed.
Print Assumptions C01_at_least_once_quiescent.

(* Without the hypothesis the only additional location is the one fed by the channel-timeout branch. *)
Theorem C01_at_least_once_or_timeout :
  forall es s, steps init es = Some s -> phase s = Stopped ->
  forall t, In t (ingested s) -> t_keep t = true -> In t (safe s) \/ In t (lost s).
Proof. exact at_least_once_or_timeout_lemma. Qed.
Print Assumptions C01_at_least_once_or_timeout.

(* The hypothesis is needed: a run that takes the timeout branch loses the record (witness evaluated by vm_compute). *)
Theorem C01_timeout_hypothesis_needed :
  exists es s t, steps init es = Some s /\ phase s = Stopped /\ In t (ingested s) /\ t_keep t = true /\ ~ In t (safe s).
Proof. exact timeout_witness. Qed.
Print Assumptions C01_timeout_hypothesis_needed.

(* Trace acceptor: an accepted trace is the projection of a run of the LTS (that does not use the timeout branch). *)
Theorem C01_accept_sound :
  forall tr s, accept tr = Some s ->
  exists es os, steps init es = Some s /\ no_timeout es = true /\ order_safe es = true /\
               trace_obs tr = Some os /\ Forall2 obs_equiv (proj_run init es) os.
Proof. exact accept_sound_lemma. Qed.
Print Assumptions C01_accept_sound.

(* ... and the flag alo=1 printed for an accepted trace ending in a Stopped state is a consequence of the theorem. *)
Theorem C01_accepted_stopped_alo :
  forall tr s, accept tr = Some s -> phase s = Stopped -> alo_check s = true.
Proof. exact accepted_stopped_alo_lemma. Qed.
Print Assumptions C01_accepted_stopped_alo.

(* Non-vacuity: a concrete run with a filtered record, an upstream that receives a chunk and never ACKs it, a
   graceful stop (the chunk is handed back and saved), a restart (recovered from its file), a second chunk, ACKs,
   and a final stop satisfies every hypothesis; all three kept records end acknowledged. *)
Theorem C01_example :
  exists es s, steps init es = Some s /\ no_timeout es = true /\ phase s = Stopped /\
    length (ingested s) = 4 /\ length (toks_of_chunks (acked s)) = 3 /\ files s = [] /\ length (filtered s) = 1.
Proof. exact example_run. Qed.
Print Assumptions C01_example.

(* ---------- the end of a connection in the order of the code; graceful stop with OPEN connections ----------
   Model/SystemConnEnd.v: runConnection's ending is a program over three operations on the state of Model/System.v —
   [OpFlushAll] (mlineReader.FlushAll: the line reader's last record is parsed into the sink batch), [OpFlush]
   (recvChan.Flush = sendBuffer: the batch goes to the per-key buffers), [OpClose] (deferred recvChan.Close: the per-key
   buffers go to the pipeline channels; whatever the batch or the reader still hold is DISCARDED) — one program for
   the path "closed by the stop request" ([VConnEndStop]) and one for the peer path (EOF / reset / read error).
   [vsteps v] is the agent with the two programs [v] as parameters. *)

(* Refinement: FlushAll; Flush; Close, in this order, IS the atomic [EConnEnd] of Model/System.v (in every state in
   which the pipelines of the per-key buffers exist, an invariant of all reachable states). *)
Theorem C01_conn_end_refines :
  forall k s, (forall t, In t (key_buf s) -> In (t_pipe t) (pipes s)) -> mem_nat k (open_conns s) = true ->
    step s (EConnEnd k) = Some (run_end faithful_prog k s).
Proof. exact faithful_end_refines. Qed.
Print Assumptions C01_conn_end_refines.

(* In EVERY state: after the code-order ending of connection k nothing of k is left in the line reader, the batch or
   the per-key buffers, everything it held there is in the pipeline channels, other connections are untouched. *)
Theorem C01_conn_end_hands_everything_on :
  forall k s, let s' := run_end faithful_prog k s in
  (forall t, on_conn k t = true -> ~ In t (conn_buf s') /\ ~ In t (sink_batch s') /\ ~ In t (key_buf s')) /\
  (forall t, on_conn k t = true -> In t (conn_buf s ++ sink_batch s ++ key_buf s) -> In t (toks_of_batches (chans s'))) /\
  (forall t, on_conn k t = false ->
     (In t (conn_buf s') <-> In t (conn_buf s)) /\ (In t (sink_batch s') <-> In t (sink_batch s)) /\
     (In t (key_buf s') <-> In t (key_buf s))) /\
  (forall t, In t (toks_of_batches (chans s)) -> In t (toks_of_batches (chans s'))).
Proof. exact faithful_end_local. Qed.
Print Assumptions C01_conn_end_hands_everything_on.

(* Every run of the agent with the code-order endings — connections ended by their peer at any time or still open
   and closed by the stop request, in any interleaving with everything else — is a run of Model/System.v ... *)
Theorem C01_open_conn_runs_are_runs :
  forall ves s, vsteps faithful init ves = Some s -> steps init (map erase ves) = Some s.
Proof. intros ves s. apply vsteps_faithful_steps. exact aux_init. Qed.
Print Assumptions C01_open_conn_runs_are_runs.

(* ... so at every Stopped state the line reader, the batch and the per-key buffers of every connection are empty
   and no connection is open ... *)
Theorem C01_stopped_batches_empty :
  forall ves s, vsteps faithful init ves = Some s -> phase s = Stopped ->
    conn_buf s = [] /\ sink_batch s = [] /\ key_buf s = [] /\ open_conns s = [].
Proof. exact conn_end_stopped_batches_empty. Qed.
Print Assumptions C01_stopped_batches_empty.

(* ... and AT LEAST ONCE holds: every record read — including those of the last burst of a connection that was still
   open at the stop — and not filtered is acknowledged, in a queue file, or in a counted-dropped chunk. *)
Theorem C01_at_least_once_open_conns :
  forall ves s, vsteps faithful init ves = Some s -> vno_timeout ves = true -> phase s = Stopped ->
  forall t, In t (ingested s) -> t_keep t = true ->
    In t (toks_of_chunks (acked s)) \/ In t (toks_of_chunks (files s)) \/ In t (toks_of_chunks (dropped s)).
Proof. exact conn_end_at_least_once. Qed.
Print Assumptions C01_at_least_once_open_conns.

(* The theorem depends on the mechanism.  Without the final Flush on the stop path (`return` after FlushAll, the
   deferred Close still runs — seeded change C01/5) a record read on a connection that is open at the stop is in no
   location at all afterwards: not acknowledged, not in a file, not counted; also when it was already in the batch. *)
Theorem C01_no_flush_on_stop_variant_refuted :
  (exists s t, vsteps no_flush_on_stop init witness_run = Some s /\ vno_timeout witness_run = true /\ phase s = Stopped /\
               In t (ingested s) /\ t_keep t = true /\ ~ In t (safe s) /\ ~ In t (anywhere s)) /\
  (exists s t, vsteps no_flush_on_stop init witness_run2 = Some s /\ vno_timeout witness_run2 = true /\ phase s = Stopped /\
               In t (ingested s) /\ t_keep t = true /\ ~ In t (safe s) /\ ~ In t (anywhere s)).
Proof. exact (conj no_flush_on_stop_loses no_flush_on_stop_loses_batched). Qed.
Print Assumptions C01_no_flush_on_stop_variant_refuted.

(* Likewise without FlushAll on the stop path, and with Flush BEFORE FlushAll (the reader's last record reaches the
   batch after the batch was sent). *)
Theorem C01_misplaced_flush_variants_refuted :
  loses no_flush_all_on_stop witness_run /\ loses flush_before_flush_all witness_run.
Proof. exact (conj no_flush_all_on_stop_loses flush_before_flush_all_loses). Qed.
Print Assumptions C01_misplaced_flush_variants_refuted.

(* Why scenarios without an open connection at the stop cannot see such a change: a variant whose PEER path is the
   faithful program behaves exactly like Model/System.v on every run in which no connection is closed by the stop
   request. *)
Theorem C01_stop_path_variants_need_open_conn :
  forall v, peer_path v = faithful_prog ->
  forall ves s, no_stop_end ves = true -> vsteps v init ves = Some s -> steps init (map erase ves) = Some s.
Proof. intros v HP ves s. apply (peer_faithful_blind v HP ves init s aux_init). Qed.
Print Assumptions C01_stop_path_variants_need_open_conn.

(* The faithful agent on the witness: the record ends in a queue file. *)
Theorem C01_open_conn_example :
  vsteps faithful init witness_run = None /\
  exists s, vsteps faithful init witness_run_faithful = Some s /\ phase s = Stopped /\
            In witness_tok (toks_of_chunks (files s)).
Proof. exact faithful_witness. Qed.
Print Assumptions C01_open_conn_example.

(* Case kind 3 (stop with open connections): the state printed by the model is reached by a run of the agent from
   [init] that never takes the channel-timeout branch, and whenever it is a Stopped state every kept record read is
   in a final location — for every case line. *)
Theorem C01_stop_case_run_sound :
  forall v c, vsteps v init (rev (snd (run_stop_scenario v c))) = Some (fst (run_stop_scenario v c)) /\
              vno_timeout (rev (snd (run_stop_scenario v c))) = true.
Proof. intros v c. split; [apply run_stop_scenario_sound|apply run_stop_scenario_no_timeout]. Qed.
Print Assumptions C01_stop_case_run_sound.

Theorem C01_stop_case_prediction_alo :
  forall c, let s := fst (run_stop_scenario faithful c) in phase s = Stopped ->
  forall t, In t (ingested s) -> t_keep t = true ->
    In t (toks_of_chunks (acked s)) \/ In t (toks_of_chunks (files s)) \/ In t (toks_of_chunks (dropped s)).
Proof. exact stop_scenario_alo. Qed.
Print Assumptions C01_stop_case_prediction_alo.

(* ---------- the only permitted discards are the documented overflows ----------
   Model/SystemQuota.v: [qstep sz lim qmax] is the agent whose spill / drop outcomes are guarded as in
   chunkOperator.UnloadChunk (bytes of the chunk files of the pipeline's queue directory + len(chunk) > maxBufSize ->
   refuse) and bufferer.Accept (queue full -> drop), evaluated on the CURRENT contents of the directory ([files]) and
   of the queue; chunk-file read errors excluded.  [sz] (bytes of a chunk), [lim] (maxBufSize) and [qmax]
   (BufferMaxNumChunksInQueue) are arbitrary. *)
Definition C01_overflow (sz : chunk -> nat) (lim qmax : nat) (s : state) (c : chunk) : Prop :=
  dir_full sz lim s c = true \/ queue_full qmax s (c_pipe c) = true.

(* One step adds at most one chunk to the dropped history, and only if the overflow condition holds for it in the
   state in which the step is taken. *)
Theorem C01_drop_step_only_when_full :
  forall sz lim qmax s e s', qstep sz lim qmax s e = Some s' ->
    dropped s' = dropped s \/ exists c, dropped s' = dropped s ++ [c] /\ C01_overflow sz lim qmax s c.
Proof. exact qstep_drop_only_when_full. Qed.
Print Assumptions C01_drop_step_only_when_full.

(* All runs, all histories of spilling, acknowledging, stopping and restarting: every discarded chunk was discarded
   in a state (reached by a prefix of the run) whose queue directory — with the files it held AT THAT MOMENT, whatever
   was spilled, recovered and removed before — could not take it, or whose queue was full. *)
Theorem C01_drop_only_when_full :
  forall sz lim qmax es s, qsteps sz lim qmax init es = Some s ->
  forall c, In c (dropped s) ->
    exists es1 e es2 s1, es = es1 ++ e :: es2 /\ qsteps sz lim qmax init es1 = Some s1 /\ C01_overflow sz lim qmax s1 c.
Proof.
  intros sz lim qmax es s H c Hc.
  destruct (qsteps_drop_only_when_full sz lim qmax es init s H c Hc) as [[]|X]. exact X.
Qed.
Print Assumptions C01_drop_only_when_full.

(* The guarded agent is a restriction of Model/System.v, so conservation and at-least-once hold for it, and the third
   alternative of at-least-once ("in a counted-dropped chunk") is a documented overflow. *)
Theorem C01_quota_runs_are_runs :
  forall sz lim qmax es s s', qsteps sz lim qmax s es = Some s' -> steps s es = Some s'.
Proof. exact qsteps_steps. Qed.
Print Assumptions C01_quota_runs_are_runs.

Theorem C01_at_least_once_or_overflow :
  forall sz lim qmax es s, qsteps sz lim qmax init es = Some s -> no_timeout es = true -> phase s = Stopped ->
  forall t, In t (ingested s) -> t_keep t = true ->
    In t (toks_of_chunks (acked s)) \/ In t (toks_of_chunks (files s)) \/
    (exists c, In c (dropped s) /\ In t (c_toks c) /\
       exists es1 e es2 s1, es = es1 ++ e :: es2 /\ qsteps sz lim qmax init es1 = Some s1 /\ C01_overflow sz lim qmax s1 c).
Proof. exact quota_at_least_once. Qed.
Print Assumptions C01_at_least_once_or_overflow.

(* The agent whose space check reads a counter that only grows on its side (spills and recovered files are added,
   the removals on ACK happen on another copy — seeded change C01/7): after spill, delivery, ACK and removal the
   directory and the queue are EMPTY, yet the next chunk is discarded; the overflow condition is false for it; the
   guarded agent cannot take that step and spills the chunk instead. *)
Theorem C01_drop_only_when_full_cumulative_counter_variant_refuted :
  exists s1 u1 s2 u2 c,
    csteps qsz 1 64 (init, fun _ => 0) cumulative_history = Some (s1, u1) /\
    qsteps qsz 1 64 init cumulative_history = Some s1 /\
    files s1 = [] /\ queue s1 = [] /\
    cstep qsz 1 64 (s1, u1) cumulative_drop = Some (s2, u2) /\
    dropped s2 = [c] /\ c_toks c = [wt2] /\
    dir_full qsz 1 s1 c = false /\ queue_full 64 s1 (c_pipe c) = false /\
    qstep qsz 1 64 s1 cumulative_drop = None /\
    exists s3, qstep qsz 1 64 s1 (EChunkClose 1 2 ADisk) = Some s3 /\ In wt2 (toks_of_chunks (files s3)).
Proof. exact cumulative_counter_witness. Qed.
Print Assumptions C01_drop_only_when_full_cumulative_counter_variant_refuted.
