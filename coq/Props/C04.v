(* C04 - Spilled chunks survive I/O faults and crashes intact or not at all.
   Only the property theorems; each is closed by [exact] of a lemma from Proofs/, or by a few lines that
   instantiate one.

   PARTIAL in one respect, stated here once: the file system is a model (Model/FileWrite.v).  A write that
   stops - short write, file-size or space limit, process killed at one of the kill points - leaves a prefix
   of the data in the file; renameat is atomic; what a killed process had written stays as it is.  Torn writes
   inside the kernel, power loss and the ordering of data and rename on stable storage (no fsync in the code)
   are outside what a process-level model and a process-level harness can exhibit.

   The quantifier of the property - every chunk size, every offset k at which the write stops, every position
   of the affected chunk in the queue, followed by a restart - is covered by quantifying over ALL runs of the
   LTS of Model/Buffer.v: k and the kind of stop are the write script of the EAccept / ELeftover / ESaveWrite
   event (ws_n = Some k with or without error, ws_kill = 1..4), the position is the history before it. *)
From SV Require Import Model.Common Model.FileWrite Model.Buffer Model.SpillFaults Spec.BufferSpec
     Model.ConcWrite Proofs.FileWriteProofs Proofs.ConcWriteProofs Proofs.BufferInv Proofs.BufferTheorems Proofs.BufferExamples Proofs.DrainProofs.

(* Intact or not at all, for what is sent upstream.  In every reachable state - after any faults, crashes and
   restarts - a chunk offered to a consumer under an ID that was ever given to Accept on this directory carries
   exactly the bytes that were given to Accept. *)
Theorem C04_intact_or_absent :
  forall matchf dirsize, matcher_ok matchf ->
  forall s, reachable matchf dirsize s -> st_up s = true ->
  forall c d, In c (g_offered (st_gh s)) -> In (c_id c, d) (st_ever s) -> c_data c = Some d.
Proof. exact intact_lemma. Qed.
Print Assumptions C04_intact_or_absent.

(* ... and for what is on disk: under the ID of a chunk ever accepted there is no file or the complete chunk,
   in every reachable state, also right after a crash. *)
Theorem C04_files_intact_or_absent :
  forall matchf dirsize, matcher_ok matchf ->
  forall s, reachable matchf dirsize s ->
  forall x d, In (x, d) (st_ever s) -> dir_get (st_dir s) x = None \/ dir_get (st_dir s) x = Some (EFile d).
Proof. exact files_intact_lemma. Qed.
Print Assumptions C04_files_intact_or_absent.

(* "... or is not forwarded at all and is accounted as dropped" when the process survives: the conservation
   theorem of C03 holds for every write script; a chunk whose write failed is in the class dropped (counted in
   dropped_chunks_total) and in no other.  Restated here for the chunks of the current generation. *)
Theorem C04_accounted_when_survived :
  forall matchf dirsize, matcher_ok matchf ->
  forall s, reachable matchf dirsize s -> settled s ->
  let g := st_gh s in
  NoDup (g_confirmed g ++ g_retained g ++ g_dropped g) /\
  (forall x, In x (entered g) <-> In x (g_confirmed g ++ g_retained g ++ g_dropped g)) /\
  m_dropped (st_met s) = Z.of_nat (length (g_dropped g)).
Proof.
  intros matchf dirsize Hm s Hr Hs g.
  destruct (conservation_lemma matchf dirsize Hm s Hr Hs) as (H1 & H2 & _ & _ & _ & H6 & _).
  exact (conj H1 (conj H2 H6)).
Qed.
Print Assumptions C04_accounted_when_survived.

(* One call of util.WriteFileAt, any script: under the chunk's name there is afterwards what was there before
   or the complete data - never a part of it; success means the complete data; a reported failure means the
   name is untouched; no other name than the chunk's and its temporary one is touched. *)
Theorem C04_write_atomic :
  forall ws d n data d' r,
  write_file_at ws d n data = (d', r) ->
  (dir_get d' n = dir_get d n \/ dir_get d' n = Some (EFile data)) /\
  (r = WOk -> dir_get d' n = Some (EFile data) /\ dir_get d' (tmp_name n) = None) /\
  (r = WErr -> dir_get d' n = dir_get d n) /\
  (forall m, m <> n -> m <> tmp_name n -> dir_get d' m = dir_get d m).
Proof.
  intros ws d n data d' r H. split; [eapply write_name_cases; exact H|]. split; [|split].
  - intros E. subst r. apply write_ok in H. exact H.
  - intros E. subst r. eapply write_err. exact H.
  - eapply write_frame. exact H.
Qed.
Print Assumptions C04_write_atomic.

(* A damaged or partial file never blocks the others.
   (1) Start-up enqueues by name only - what is in the files is not looked at - up to the queue capacity. *)
Theorem C04_recovery_enqueues_all :
  forall matchf dirsize s Q M maxb,
  st_queue (restart matchf dirsize Q M maxb true s) =
  firstn Q (map (fun n => {| c_id := n; c_data := None; c_saved := true |})
                (filter (fun n => negb (name_eqb n id_file_name) && matchf n) (dir_names (st_dir s)))).
Proof. exact restart_enqueues_lemma. Qed.
Print Assumptions C04_recovery_enqueues_all.

(* (2) The feeder is never stuck on the chunk it holds: the load step is always enabled, and when the chunk
   cannot be loaded (unreadable, a directory, vanished) or is empty, it is dropped and counted, the feeder is
   back at the queue, and queue and window are as they were; the next chunk is taken by an enabled step. *)
Theorem C04_recovery_not_blocked :
  forall matchf dirsize s c rerr,
  st_up s = true -> st_fpc s = FLoad c ->
  exists s', step matchf dirsize s (EFeedLoad rerr) = Some s' /\
    ((exists c', st_fpc s' = FPush c c' /\ c_id c' = c_id c /\ zero_length c' = false) \/
     (st_fpc s' = FRecv /\ st_queue s' = st_queue s /\ st_win s' = st_win s /\
      g_dropped (st_gh s') = g_dropped (st_gh s) ++ [c_id c] /\
      m_dropped (st_met s') = (m_dropped (st_met s) + 1)%Z)).
Proof. exact damaged_skipped_lemma. Qed.
Print Assumptions C04_recovery_not_blocked.

Theorem C04_feeder_takes_next :
  forall matchf dirsize s c q,
  st_up s = true -> st_fpc s = FRecv -> st_queue s = c :: q ->
  exists s', step matchf dirsize s EFeedTake = Some s' /\ st_fpc s' = FLoad c /\ st_queue s' = q /\ st_win s' = st_win s.
Proof. exact feeder_takes_lemma. Qed.
Print Assumptions C04_feeder_takes_next.

(* (3) Put together: from every reachable state in which no bufferer runs, after a start-up there is a schedule
   (the feeder runs, a consumer takes and confirms one chunk at a time) on which the consumer receives exactly
   the recovered chunks whose file is a non-empty regular file, each with its content, in name order - whatever
   empty files, directories or vanished names lie between them - and queue, window and consumer end empty. *)
Theorem C04_recovery_delivers_good :
  forall matchf dirsize, matcher_ok matchf ->
  forall s Q M maxb, reachable matchf dirsize s -> down s = true -> (1 <= Q)%nat -> (1 <= M)%nat ->
  exists evs s',
    run matchf dirsize s (ERestart Q M maxb true :: ERegister :: evs) = Some s' /\
    st_queue s' = [] /\ st_win s' = [] /\ st_hold s' = [] /\
    received s' = delivered (st_dir s) (recovered_names matchf Q (st_dir s)).
Proof. exact recovery_delivers_good_reachable. Qed.
Print Assumptions C04_recovery_delivers_good.

(* What was wrong before the two fix: commits (write_file_at_v0 = open+truncate the final name, one write whose
   count is ignored, close).  (a) A short write without error is reported as success and leaves a truncated,
   non-empty file under the chunk's ID: UnloadChunk marked it saved and the truncated chunk was forwarded.
   (b) A process killed in the middle of the write leaves a non-empty prefix under the chunk's ID: it was
   recovered at the next start and forwarded.  Both reproduced on the real code by the harness before the fix. *)
Theorem C04_short_write_v0_refuted :
  exists ws d n data d' part,
    write_file_at_v0 ws d n data = (d', WOk) /\ dir_get d' n = Some (EFile part) /\ part <> data /\ part <> [].
Proof. exact v0_short_write_refuted. Qed.
Print Assumptions C04_short_write_v0_refuted.

Theorem C04_crash_mid_write_v0_refuted :
  exists ws d n data d' part,
    write_file_at_v0 ws d n data = (d', WDied) /\ dir_get d' n = Some (EFile part) /\ part <> data /\ part <> [].
Proof. exact v0_crash_mid_write_refuted. Qed.
Print Assumptions C04_crash_mid_write_v0_refuted.

(* The hypothesis on the matcher is needed: with a matcher that accepts every name (the one used by the
   package's unit tests) the temporary file left by a crash is recovered and a truncated chunk - 2 of the 5
   bytes given to Accept for b.ff - is offered to the consumer. *)
Theorem C04_permissive_matcher_refuted :
  exists s h, replay match_all 4096 0 (map ROp crash_ops) None (init []) 0 = inl (s, h) /\
    map (fun c => (c_id c, c_data c)) (g_offered (st_gh s)) = [(n_a, Some [1; 2; 3]); (tmp_name n_b, Some [4; 5])] /\
    In (n_b, [4; 5; 6; 7; 8]) (st_ever s).
Proof. exact ex_permissive_matcher. Qed.
Print Assumptions C04_permissive_matcher_refuted.

(* Non-vacuity / examples on the model (evaluations): a kill after 2 of 5 bytes of the middle chunk - nothing
   under b.ff, the leftover b.ff.tmp is not recovered, a.ff is delivered intact after the restart; a short write
   without error - reported, chunk dropped and counted, the other chunks delivered; an empty file, a directory
   and a stale temporary file among recovered chunks - the good ones are delivered. *)
Theorem C04_example_crash :
  exists s h, replay match_ff 4096 0 (map ROp crash_ops) None (init []) 0 = inl (s, h) /\
    dir_get (st_dir s) n_b = None /\ dir_get (st_dir s) (tmp_name n_b) = Some (EFile [4; 5]) /\
    map (fun c => (c_id c, c_data c)) (g_offered (st_gh s)) = [(n_a, Some [1; 2; 3])] /\
    st_queue s = [] /\ st_fpc s = FRecv.
Proof. exact ex_crash_mid_write. Qed.
Print Assumptions C04_example_crash.

Theorem C04_example_short_write :
  exists s h, replay match_ff 4096 0 (map ROp short_ops) None (init []) 0 = inl (s, h) /\
    g_dropped (st_gh s) = [n_b] /\ m_dropped (st_met s) = 1%Z /\ m_ioerr (st_met s) = 1%Z /\
    map (fun c => (c_id c, c_data c)) (taken (st_gh s)) = [(n_a, Some [1; 2; 3]); (n_c, Some [9])] /\
    dir_get (st_dir s) n_b = None /\ dir_get (st_dir s) (tmp_name n_b) = None.
Proof. exact ex_short_write. Qed.
Print Assumptions C04_example_short_write.

Theorem C04_example_damaged_recovery :
  exists s h, replay match_ff 4096 0 (map ROp damaged_ops) None (init []) 0 = inl (s, h) /\
    map (fun c => (c_id c, c_data c)) (taken (st_gh s)) = [(n_a, Some [1; 2]); (n_d, Some [8])] /\
    g_dropped (st_gh s) = [n_b; n_c] /\ m_dropped (st_met s) = 2%Z /\ st_queue s = [].
Proof. exact ex_damaged_recovery. Qed.
Print Assumptions C04_example_damaged_recovery.

(* ---------- several writers of one queue directory at once (Model/ConcWrite.v) ----------
   Accept (spill), the consumer's OnChunkLeftover and the feeder's saveQueued / saveOutput write chunk files of the
   same directory from different goroutines; one write is open-truncate(tmp); write; close; rename(tmp, id), and the
   system calls of different writes interleave.  For ANY number of chunks with distinct IDs, ANY interleaving of
   their system calls (every schedule; a goroutine writing several chunks in turn, G goroutines, the leftover /
   saveQueued pair at shutdown are particular schedules) and at ANY moment (prefix-closed: [sched] is arbitrary):
   under every chunk's ID there is what was there before or exactly THAT chunk's bytes; a finished write has
   succeeded and its file holds exactly its chunk's bytes; no write fails (nothing is counted as dropped while its
   bytes are on disk).  Required of the temporary name: injective on the IDs and never an ID ([jobs_ok]). *)
Theorem C04_concurrent_writers_intact :
  forall tmpf js d0, jobs_ok tmpf js -> no_dirs tmpf js d0 ->
  forall sched, (forall j, In j sched -> In j js) ->
  forall d p, cw_run tmpf sched (d0, pc0) = (d, p) ->
  forall n data, In (n, data) js ->
    (dir_get d n = dir_get d0 n \/ dir_get d n = Some (EFile data)) /\
    (p n = 4%nat -> dir_get d n = Some (EFile data)) /\
    p n <> 9%nat.
Proof. exact conc_writers_intact_lemma. Qed.
Print Assumptions C04_concurrent_writers_intact.

(* ... and every write that was given its four steps ([occ n sched] = how often chunk n is scheduled) is complete:
   it has succeeded and the file under its ID holds exactly its own bytes - whatever the other writers did meanwhile. *)
Theorem C04_concurrent_writers_complete :
  forall tmpf js d0, jobs_ok tmpf js -> no_dirs tmpf js d0 ->
  forall sched, (forall j, In j sched -> In j js) ->
  forall d p, cw_run tmpf sched (d0, pc0) = (d, p) ->
  forall n data, In (n, data) js -> (4 <= occ n sched)%nat ->
  p n = 4%nat /\ dir_get d n = Some (EFile data).
Proof. exact conc_writers_complete_lemma. Qed.
Print Assumptions C04_concurrent_writers_complete.

(* ... and the temporary names of the tree (id ++ ".tmp") meet the requirement for distinct IDs accepted by a
   matcher that rejects temporary names. *)
Theorem C04_concurrent_writers_tmp_names :
  forall matchf js, matcher_ok matchf ->
  NoDup (map fst js) -> (forall n data, In (n, data) js -> matchf n = true) -> jobs_ok tmp_name js.
Proof. exact tmp_name_jobs_ok. Qed.
Print Assumptions C04_concurrent_writers_tmp_names.

(* The variant with ONE temporary name per directory (".chunk.tmp") violates it: two chunks, the interleaving
   open a; open b; write a; write b; close a; rename a; close b; rename b - a.ff holds b's bytes and is reported
   saved, b's write fails (dropped) and b.ff does not exist. *)
Theorem C04_shared_tmp_name_variant_refuted :
  exists js sched, NoDup (map fst js) /\ (forall j, In j sched -> In j js) /\
  exists n data other, In (n, data) js /\ In other js /\ fst other <> n /\
    let (d, p) := cw_run shared_tmp sched ([], pc0) in
    p n = 4%nat /\ dir_get d n = Some (EFile (snd other)) /\ snd other <> data /\
    p (fst other) = 9%nat /\ dir_get d (fst other) = None.
Proof. exact shared_tmp_refuted_lemma. Qed.
Print Assumptions C04_shared_tmp_name_variant_refuted.

(* Evaluation: the same two chunks and the same interleaving with the names of the tree end with both files intact. *)
Theorem C04_example_concurrent_writers :
  let (d, p) := cw_run tmp_name wit_sched ([], pc0) in
  dir_get d (fst wit_a) = Some (EFile (snd wit_a)) /\ dir_get d (fst wit_b) = Some (EFile (snd wit_b)) /\
  p (fst wit_a) = 4%nat /\ p (fst wit_b) = 4%nat.
Proof. exact own_tmp_witness_lemma. Qed.
Print Assumptions C04_example_concurrent_writers.
