(* C09 — Syslog header parsing is faithful and every message is accounted for.
   Only the property theorems; each is closed by [exact] of a lemma from Proofs/.
   Model: Model/Parser.v (Parse after the two fix: commits), Model/Utf8.v (CleanUTF8, Go's UTF-8 decoder).
   Specification: Spec/SyslogSpec.v (render, PRI, accounting), Spec/Utf8Spec.v (RFC 3629).
   [cfg_ok cfg]: the level mapping has eight names, which NewParser guarantees (C09_new_parser). *)
From SV Require Import Model.Common Model.Utf8 Model.Parser Model.Composite Spec.Utf8Spec Spec.SyslogSpec
  Proofs.Utf8Proofs Proofs.ParserProofs Proofs.CompositeProofs.
From SV Require Model.GoSem Model.GoExt Gen.C09Gen Proofs.C09GenEquiv.
Open Scope N_scope.

(* 1. A well-formed line "<PRI>1 time host app pid msgid sd msg" (PRI 0..191 in its RFC form, the six
   tokens any bytes without space - empty allowed -, the message any bytes within the limit) of at least
   32 bytes is parsed into exactly its parts: facility PRI div 8, the configured level name of PRI mod 8,
   the six substrings and the message; counted once as passed with the line length, no overflow.
   (A record that reaches InputLogMaxRecordBytes may have been cut by the listener; its message is
   delivered unchanged if it is valid UTF-8 - see theorem 6 for the general case.) *)
Theorem C09_parse_render :
  forall cfg cnt pri h msg,
  cfg_ok cfg -> pri <= 191 -> header_ok h ->
  (32 <= length (render pri h msg))%nat ->
  N.of_nat (length msg) <= max_msg cfg ->
  (N.of_nat (length (render pri h msg)) < max_rec cfg \/ valid_utf8 msg) ->
  exists cnt',
    parse cfg cnt (render pri h msg) =
      (Ok (Some (record_of (level_mapping cfg) (Z.of_N pri) h msg (length (render pri h msg)))), cnt') /\
    counted_passed cnt cnt' (length (render pri h msg)) /\ same_overflow cnt cnt'.
Proof. exact parse_render_lemma. Qed.
Print Assumptions C09_parse_render.

(* 1b. Whatever the message (any bytes, any length), the header fields are exactly those of the line and
   the delivered message is never longer than the one sent, nor than the limit. *)
Theorem C09_parse_render_any_message :
  forall cfg cnt pri h msg,
  cfg_ok cfg -> pri <= 191 -> header_ok h ->
  (32 <= length (render pri h msg))%nat ->
  exists log cnt',
    parse cfg cnt (render pri h msg) =
      (Ok (Some (record_of (level_mapping cfg) (Z.of_N pri) h log (length (render pri h msg)))), cnt') /\
    counted_passed cnt cnt' (length (render pri h msg)) /\
    (length log <= length msg)%nat /\
    (max_msg cfg < N.of_nat (length msg) -> N.of_nat (length log) <= max_msg cfg).
Proof. exact parse_render_any_message_lemma. Qed.
Print Assumptions C09_parse_render_any_message.

(* 2. A first token that is not "<" PRI ">1" with PRI an integer denoting 0..191 (no ">1", not a
   number, negative, 192 or more, no "<"): the message is dropped and counted as dropped, once,
   with its length. *)
Theorem C09_pri_rejected :
  forall cfg cnt tok rest,
  cfg_ok cfg -> no_space tok -> ~ pri_token_ok tok ->
  exists cnt',
    parse cfg cnt (tok ++ 32 :: rest) = (Ok None, cnt') /\
    counted_dropped cnt cnt' (length (tok ++ 32 :: rest)).
Proof. exact pri_rejected_lemma. Qed.
Print Assumptions C09_pri_rejected.

Theorem C09_pri_out_of_range_cases :
  forall tok,
  (~ exists body, tok = body ++ [62; 49]) \/
  (exists lit, tok = 60 :: lit ++ [62; 49] /\
     ((forall n, ~ int_literal lit n) \/
      (exists n, int_literal lit n /\ (n < 0 \/ 191 < n)%Z))) \/
  (exists c t, tok = c :: t /\ c <> 60) ->
  ~ pri_token_ok tok.
Proof. exact not_pri_token_cases. Qed.
Print Assumptions C09_pri_out_of_range_cases.

(* 2b. Shorter than 32 bytes, not starting with "<", or fewer than seven spaces: dropped and counted. *)
Theorem C09_malformed_dropped :
  forall cfg cnt input,
  cfg_ok cfg ->
  ((length input < 32)%nat \/ hd 0 input <> 60 \/ (count_occ N.eq_dec input 32%N < 7)%nat) ->
  exists cnt', parse cfg cnt input = (Ok None, cnt') /\ counted_dropped cnt cnt' (length input).
Proof. exact malformed_dropped_lemma. Qed.
Print Assumptions C09_malformed_dropped.

(* 3. A message longer than the limit is delivered with at most InputLogMaxMessageBytes bytes, never
   ending inside a character (the bytes after its last ASCII byte are valid UTF-8), and is counted as
   overflow exactly once with the line length (and as passed). *)
Theorem C09_truncation :
  forall cfg cnt pri h msg,
  cfg_ok cfg -> pri <= 191 -> header_ok h ->
  (32 <= length (render pri h msg))%nat ->
  max_msg cfg < N.of_nat (length msg) ->
  exists log cnt',
    parse cfg cnt (render pri h msg) =
      (Ok (Some (record_of (level_mapping cfg) (Z.of_N pri) h log (length (render pri h msg)))), cnt') /\
    counted_passed cnt cnt' (length (render pri h msg)) /\
    one_overflow cnt cnt' (length (render pri h msg)) /\
    N.of_nat (length log) <= max_msg cfg /\
    ends_on_boundary log.
Proof. exact truncation_lemma. Qed.
Print Assumptions C09_truncation.

(* 3b. If the over-long message is valid UTF-8 (the encoding of the scalar values cs), the delivered
   message is exactly the longest run of whole characters that fits: cs = cs1 ++ c :: cs2, the
   encoding of cs1 is delivered, it fits the limit and the next character c would not. *)
Theorem C09_truncation_valid_utf8 :
  forall cfg cnt pri h cs,
  cfg_ok cfg -> pri <= 191 -> header_ok h -> Forall scalar cs ->
  (32 <= length (render pri h (utf8_encode_all cs)))%nat ->
  max_msg cfg < N.of_nat (length (utf8_encode_all cs)) ->
  exists cs1 c cs2 cnt',
    cs = cs1 ++ c :: cs2 /\
    parse cfg cnt (render pri h (utf8_encode_all cs)) =
      (Ok (Some (record_of (level_mapping cfg) (Z.of_N pri) h (utf8_encode_all cs1)
                   (length (render pri h (utf8_encode_all cs))))), cnt') /\
    N.of_nat (length (utf8_encode_all cs1)) <= max_msg cfg /\
    max_msg cfg < N.of_nat (length (utf8_encode_all cs1) + length (utf8_encode c)) /\
    one_overflow cnt cnt' (length (render pri h (utf8_encode_all cs))).
Proof. exact truncation_valid_utf8_lemma. Qed.
Print Assumptions C09_truncation_valid_utf8.

(* 4. Accounting, for EVERY byte string and every counter state: Parse does not panic; exactly one of
   passed / dropped moves, by one record and the byte length of the input; a record is returned iff
   it is counted as passed; overflow moves only for a passed record, by at most one, with the length. *)
Theorem C09_accounting :
  forall cfg cnt input,
  cfg_ok cfg ->
  exists res cnt',
    parse cfg cnt input = (Ok res, cnt') /\
    match res with
    | Some r => counted_passed cnt cnt' (length input) /\ raw_length r = length input /\
                (same_overflow cnt cnt' \/ one_overflow cnt cnt' (length input))
    | None => counted_dropped cnt cnt' (length input)
    end.
Proof. exact accounting_lemma. Qed.
Print Assumptions C09_accounting.

Theorem C09_no_panic :
  forall cfg cnt input, cfg_ok cfg -> is_panic (fst (parse cfg cnt input)) = false.
Proof. exact no_panic_lemma. Qed.
Print Assumptions C09_no_panic.

(* 4b. Converse of 1: whatever is passed has the accepted form (PRI written as any integer literal
   denoting 0..191) and the record carries exactly the parts of the line. *)
Theorem C09_passed_only_wellformed :
  forall cfg cnt input r cnt',
  cfg_ok cfg -> parse cfg cnt input = (Ok (Some r), cnt') ->
  exists lit n h msg log,
    input = render_with lit h msg /\ int_literal lit n /\ (0 <= n <= 191)%Z /\ header_ok h /\
    (32 <= length input)%nat /\
    r = record_of (level_mapping cfg) n h log (length input) /\
    (length log <= length msg)%nat /\
    (N.of_nat (length msg) <= max_msg cfg -> N.of_nat (length input) < max_rec cfg -> log = msg).
Proof. exact passed_only_wellformed_lemma. Qed.
Print Assumptions C09_passed_only_wellformed.

(* 4c. 1 and 4b together: a message is passed exactly when it has the accepted form. *)
Theorem C09_passed_iff :
  forall cfg cnt input,
  cfg_ok cfg ->
  ((exists r cnt', parse cfg cnt input = (Ok (Some r), cnt')) <->
   ((32 <= length input)%nat /\
    exists lit n h msg, input = render_with lit h msg /\ int_literal lit n /\ (0 <= n <= 191)%Z /\ header_ok h)).
Proof. exact passed_iff_lemma. Qed.
Print Assumptions C09_passed_iff.

(* 5. A sequence of messages through one parser instance (the counters are its only state): no panic,
   the outcome of every message is the one it has on a fresh parser (no dependence on what was parsed
   before), and after n messages passed+dropped has advanced by n records and the sum of their lengths. *)
Theorem C09_stream_accounting :
  forall cfg cnt msgs,
  cfg_ok cfg ->
  Forall (fun r => is_panic (fst r) = false) (parse_stream cfg cnt msgs) /\
  map fst (parse_stream cfg cnt msgs) = map (fun m => fst (parse cfg counters_zero m)) msgs /\
  last (map snd (parse_stream cfg cnt msgs)) cnt = final_counters cfg cnt msgs /\
  total_n (final_counters cfg cnt msgs) = total_n cnt + N.of_nat (length msgs) /\
  total_bytes (final_counters cfg cnt msgs) = total_bytes cnt + sum_lengths msgs.
Proof. exact stream_lemma. Qed.
Print Assumptions C09_stream_accounting.

Theorem C09_history_independent :
  forall cfg cnt input,
  cfg_ok cfg ->
  parse cfg cnt input =
    (fst (parse cfg counters_zero input), counters_add cnt (snd (parse cfg counters_zero input))).
Proof. exact parse_history_independent. Qed.
Print Assumptions C09_history_independent.

(* NewParser: an empty mapping selects the default severity names, otherwise exactly eight names *)
Theorem C09_new_parser :
  forall mm mr mapping cfg, new_parser mm mr mapping = Ok cfg ->
  cfg_ok cfg /\ max_msg cfg = mm /\ max_rec cfg = mr /\
  (mapping = [] -> level_mapping cfg = severity_names) /\ (mapping <> [] -> level_mapping cfg = mapping).
Proof. exact new_parser_levels. Qed.
Print Assumptions C09_new_parser.

(* 5b. sysloginput's composite parser (Model/Composite.v): the parser, then the input's extraction transforms, and
   for a record they drop CountRecordPassToDrop followed by LogAllocator.Release (which zeroes RawLength when the
   reference count reaches 0).  [extract] is ANY extraction step that does not write RawLength; [refs0] the
   allocator's initial reference count (number of outputs). *)

(* every byte string, every counter state, every state of the extraction step: no panic; the message is counted
   exactly once with its byte length - as passed iff a record is returned (RawLength = length), else as dropped,
   be it the parser or an extraction that refuses it; overflow at most once *)
Theorem C09_composite_accounting :
  forall (X : Type) (extract : X -> record -> bool * record * X) refs0 cfg cnt x input,
  cfg_ok cfg -> (1 <= refs0)%Z -> keeps_raw_length extract ->
  exists res cnt' x',
    composite_parse false refs0 extract cfg cnt x input = (Ok res, cnt', x') /\
    match res with
    | Some r => counted_passed cnt cnt' (length input) /\ raw_length r = length input
    | None => counted_dropped_any cnt cnt' (length input)
    end /\
    overflow_ok cnt cnt' (length input).
Proof. exact composite_accounting_lemma. Qed.
Print Assumptions C09_composite_accounting.

(* the instance for the modelled transforms: any list of drop (any match, percentage, label, running totals) and
   delFields transforms, any custom counters *)
Theorem C09_composite_transforms_accounting :
  forall refs0 cfg cnt xs lab input,
  cfg_ok cfg -> (1 <= refs0)%Z ->
  exists res cnt' x',
    composite_parse false refs0 extract_transforms cfg cnt (xs, lab) input = (Ok res, cnt', x') /\
    match res with
    | Some r => counted_passed cnt cnt' (length input) /\ raw_length r = length input
    | None => counted_dropped_any cnt cnt' (length input)
    end /\
    overflow_ok cnt cnt' (length input).
Proof.
  exact (fun refs0 cfg cnt xs lab input Hc Hr =>
           composite_accounting_lemma _ _ refs0 cfg cnt (xs, lab) input Hc Hr extract_transforms_keeps_raw_length).
Qed.
Print Assumptions C09_composite_transforms_accounting.

Theorem C09_transforms_keep_raw_length : keeps_raw_length extract_transforms.
Proof. exact extract_transforms_keeps_raw_length. Qed.
Print Assumptions C09_transforms_keep_raw_length.

(* nil is returned exactly when the parser refuses the message or the extraction drops its record; otherwise the
   parser's record as the extraction leaves it *)
Theorem C09_composite_result :
  forall (X : Type) (extract : X -> record -> bool * record * X) refs0 cfg cnt x input,
  cfg_ok cfg -> (1 <= refs0)%Z ->
  fst (fst (composite_parse false refs0 extract cfg cnt x input)) =
    match fst (parse cfg cnt input) with
    | Ok (Some r) => if fst (fst (extract x r)) then Ok None else Ok (Some (snd (fst (extract x r))))
    | o => o
    end.
Proof. exact composite_result_lemma. Qed.
Print Assumptions C09_composite_result.

(* any sequence of messages through one composite parser (counters, transform totals and custom counters carried
   along): no panic; passed = the messages for which a record was returned, dropped = the others, in number and in
   bytes; together all messages and all their bytes *)
Theorem C09_composite_stream_accounting :
  forall (X : Type) (extract : X -> record -> bool * record * X) refs0 cfg msgs cnt x,
  cfg_ok cfg -> (1 <= refs0)%Z -> keeps_raw_length extract ->
  let rs := composite_stream false refs0 extract cfg cnt x msgs in
  let outs := stream_outs rs in
  let fin := stream_final rs cnt in
  length rs = length msgs /\
  Forall (fun o => is_panic o = false) outs /\
  passed_n fin = passed_n cnt + delivered_n msgs outs /\
  passed_bytes fin = passed_bytes cnt + delivered_bytes msgs outs /\
  dropped_n fin = dropped_n cnt + refused_n msgs outs /\
  dropped_bytes fin = dropped_bytes cnt + refused_bytes msgs outs /\
  delivered_n msgs outs + refused_n msgs outs = N.of_nat (length msgs) /\
  delivered_bytes msgs outs + refused_bytes msgs outs = sum_lengths msgs.
Proof. exact composite_stream_lemma. Qed.
Print Assumptions C09_composite_stream_accounting.

(* Release on a record with [refs] references: never the negative-count panic for refs >= 1; the record is
   cleared (RawLength 0) exactly when the last reference goes *)
Theorem C09_release :
  forall r refs, (1 <= refs)%Z ->
  exists c', release (new_cell refs r) = Ok c' /\ c_refs c' = (refs - 1)%Z /\
             (refs = 1%Z -> c_rec c' = cleared r) /\ ((1 < refs)%Z -> c_rec c' = r).
Proof. exact release_spec. Qed.
Print Assumptions C09_release.

(* the order of the two statements matters: with Release BEFORE CountRecordPassToDrop and one output, for EVERY
   message whose record an extraction drops, the record count moves to dropped but the bytes stay in passed *)
Theorem C09_composite_release_first_variant :
  forall (X : Type) (extract : X -> record -> bool * record * X) cfg cnt x input r c1,
  cfg_ok cfg -> keeps_raw_length extract ->
  parse cfg cnt input = (Ok (Some r), c1) -> fst (fst (extract x r)) = true ->
  exists cnt' x',
    composite_parse true 1 extract cfg cnt x input = (Ok None, cnt', x') /\
    passed_n cnt' = passed_n cnt /\ dropped_n cnt' = dropped_n cnt + 1 /\
    passed_bytes cnt' = passed_bytes cnt + N.of_nat (length input) /\
    dropped_bytes cnt' = dropped_bytes cnt.
Proof. exact release_first_lemma. Qed.
Print Assumptions C09_composite_release_first_variant.

(* ... so the accounting theorem fails for that variant (witness: the unit test's line, drop on app = my-app1) *)
Theorem C09_composite_release_first_variant_refuted :
  exists cfg cnt xs input cnt' x',
    cfg_ok cfg /\
    composite_parse true 1 extract_transforms cfg cnt (xs, []) input = (Ok None, cnt', x') /\
    ~ counted_dropped_any cnt cnt' (length input) /\
    total_bytes cnt' = total_bytes cnt + N.of_nat (length input) /\
    passed_n cnt' = 0 /\ passed_bytes cnt' = N.of_nat (length input).
Proof. exact release_first_refuted_lemma. Qed.
Print Assumptions C09_composite_release_first_variant_refuted.

(* ... while with two or more outputs the first Release does not recycle the record and the variant is the code
   (why the harness runs the family with ONE output as well as with several) *)
Theorem C09_composite_release_first_masked :
  forall (X : Type) (extract : X -> record -> bool * record * X) refs0 cfg cnt x input,
  (2 <= refs0)%Z ->
  composite_parse true refs0 extract cfg cnt x input = composite_parse false refs0 extract cfg cnt x input.
Proof. exact release_first_masked_lemma. Qed.
Print Assumptions C09_composite_release_first_masked.

(* extractions that never drop and keep the record: the composite parser is the parser *)
Theorem C09_composite_passthrough :
  forall (X : Type) (extract : X -> record -> bool * record * X) rf refs0 cfg cnt x input,
  (forall x r, extract x r = (false, r, x)) ->
  composite_parse rf refs0 extract cfg cnt x input = (parse cfg cnt input, x).
Proof. exact composite_passthrough_lemma. Qed.
Print Assumptions C09_composite_passthrough.

(* example: the unit test's line through a composite parser with "drop: app = my-app1, 100 %": nil, dropped 1 / 74 bytes,
   passed 0 / 0, custom counter L1 1 / 74 *)
Theorem C09_example_composite :
  cfg_ok example_cfg /\
  composite_parse false 1 extract_transforms example_cfg counters_zero (example_drop, []) example_line =
    (Ok None, {| passed_n := 0; passed_bytes := 0; dropped_n := 1; dropped_bytes := 74; overflow_n := 0; overflow_bytes := 0 |},
     (example_drop, [([76;49], (1, 74))])).
Proof. exact example_composite_lemma. Qed.
Print Assumptions C09_example_composite.

(* 6. UTF-8 helper theorems (reused by C15 truncate). *)

(* Go's decoder accepts exactly RFC 3629: utf8.Valid <-> concatenation of encoded scalar values *)
Theorem C09_utf8_valid_iff : forall s, valid s = true <-> valid_utf8 s.
Proof. exact valid_iff_lemma. Qed.
Print Assumptions C09_utf8_valid_iff.

Theorem C09_decode_encode :
  forall c rest, scalar c -> decode_rune (utf8_encode c ++ rest) = (c, length (utf8_encode c)).
Proof. exact decode_encode. Qed.
Print Assumptions C09_decode_encode.

(* the encoding is uniquely decodable: the characters of a valid string, hence its character
   boundaries (used in 3b), are determined by the bytes *)
Theorem C09_utf8_encode_injective :
  forall cs cs', Forall scalar cs -> Forall scalar cs' -> utf8_encode_all cs = utf8_encode_all cs' -> cs = cs'.
Proof. exact encode_all_injective. Qed.
Print Assumptions C09_utf8_encode_injective.

(* strings.ToValidUTF8(s, "") is valid UTF-8 and leaves valid UTF-8 alone *)
Theorem C09_to_valid_utf8_valid : forall s, valid_utf8 (to_valid_utf8 s).
Proof. exact to_valid_utf8_valid_lemma. Qed.
Print Assumptions C09_to_valid_utf8_valid.

Theorem C09_to_valid_utf8_id : forall s, valid_utf8 s -> to_valid_utf8 s = s.
Proof. exact to_valid_id. Qed.
Print Assumptions C09_to_valid_utf8_id.

(* CleanUTF8: never longer, never ends inside a character, identity on valid UTF-8, and valid UTF-8
   cut after n bytes is reduced to exactly the whole characters that fit into n bytes *)
Theorem C09_clean_utf8_prefix :
  forall s, (length (clean_utf8 s) <= length s)%nat /\ ends_on_boundary (clean_utf8 s) /\
            (valid_utf8 s -> clean_utf8 s = s).
Proof.
  exact (fun s => conj (clean_utf8_length_lemma s) (conj (clean_utf8_boundary_lemma s) (clean_utf8_valid_id_lemma s))).
Qed.
Print Assumptions C09_clean_utf8_prefix.

Theorem C09_clean_cut_valid :
  forall cs n, Forall scalar cs -> (n < length (utf8_encode_all cs))%nat ->
  exists cs1 c cs2,
    cs = cs1 ++ c :: cs2 /\
    clean_utf8 (firstn n (utf8_encode_all cs)) = utf8_encode_all cs1 /\
    (length (utf8_encode_all cs1) <= n < length (utf8_encode_all cs1) + length (utf8_encode c))%nat.
Proof. exact clean_cut_valid_lemma. Qed.
Print Assumptions C09_clean_cut_valid.

(* Non-vacuity: the hypotheses of theorem 1 are met by the first line of the package's unit test,
   "<163>1 2019-08-15T15:50:46.866915+03:00 local1 my-app1 123 fn1 - Something" (74 bytes),
   which is parsed to facility local4, level err and its parts. *)
Theorem C09_example :
  cfg_ok example_cfg /\ header_ok example_header /\ (32 <= length (render 163 example_header example_msg))%nat /\
  valid_utf8 example_msg /\
  fst (parse example_cfg counters_zero (render 163 example_header example_msg)) =
    Ok (Some (record_of severity_names 163 example_header example_msg 74)) /\
  f_facility (record_of severity_names 163 example_header example_msg 74) = [108;111;99;97;108;52] /\
  f_level (record_of severity_names 163 example_header example_msg 74) = [101;114;114].
Proof. exact example_lemma. Qed.
Print Assumptions C09_example.

(* ---- The tie to the SOURCE: Gen/C09Gen.v is regenerated by tools/go2coq from util/utf8.go and util/strings.go
   on every check.  For every byte string each generated Gallina function returns the value of the hand-written
   model function of Model/Utf8.v (no panic, the loop's fuel suffices).  strings.ToValidUTF8 stays a named
   external function (Model/GoExt.v = the model's to_valid_utf8, compared with the Go library by the
   correspondence run); logger.Errorf is dropped.  A change of behaviour of these Go functions changes the
   generated term and breaks the proof, whether or not a generated test case hits the change. ---- *)
Theorem C09_generated_findLastEndOfASCII_agrees :
  forall s : bytes, C09Gen.findLastEndOfASCII s = GoSem.GOk (Z.of_nat (find_last_end_of_ascii s)).
Proof. exact C09GenEquiv.fle_gen_eq. Qed.
Print Assumptions C09_generated_findLastEndOfASCII_agrees.

Theorem C09_generated_OverwriteNTruncate_agrees :
  forall (main : bytes) (start : nat) (tail : bytes),
    (start <= length main)%nat ->
    C09Gen.OverwriteNTruncate main (Z.of_nat start) tail =
    GoSem.GOk (overwrite_n_truncate main start tail, C09GenEquiv.ont_main main start tail).
Proof. exact C09GenEquiv.ont_gen_eq. Qed.
Print Assumptions C09_generated_OverwriteNTruncate_agrees.

(* CleanUTF8 overwrites its argument in place: the generated function returns (result, final contents of s) *)
Theorem C09_generated_CleanUTF8_agrees :
  forall s : bytes, exists s', C09Gen.CleanUTF8 s = GoSem.GOk (clean_utf8 s, s').
Proof. exact C09GenEquiv.clean_gen_eq. Qed.
Print Assumptions C09_generated_CleanUTF8_agrees.

(* ... hence C09_clean_utf8_prefix holds of the generated CleanUTF8 itself: on every byte string it returns a
   value that is never longer, never ends inside a character, and is the input when that is valid UTF-8. *)
Theorem C09_generated_CleanUTF8_prefix :
  forall s : bytes, exists r s', C09Gen.CleanUTF8 s = GoSem.GOk (r, s') /\
    (length r <= length s)%nat /\ ends_on_boundary r /\ (valid_utf8 s -> r = s).
Proof.
  exact (fun s => match C09GenEquiv.clean_gen_eq s with
                  | ex_intro _ s' E => ex_intro _ (clean_utf8 s) (ex_intro _ s' (conj E
                      (conj (clean_utf8_length_lemma s) (conj (clean_utf8_boundary_lemma s) (clean_utf8_valid_id_lemma s)))))
                  end).
Qed.
Print Assumptions C09_generated_CleanUTF8_prefix.
