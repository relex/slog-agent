(* C14 - Email redaction is complete and touches nothing else.
   Only the property theorems; each is closed by [exact] of a lemma from Proofs/RedactProofs.v,
   Proofs/RedactBoundedProofs.v or Proofs/C14GenEquiv.v.

   [redact_email t] is the model of redactEmail (redactEmailFindFirst + redactEmail1) returning the new
   text and the list of redacted spans; [transform_redact] the model of the transform's Transform.
   [email_at t s a e] (Spec/RedactSpec.v): the text decomposes as  pre ++ local ++ "@" ++ domain ++ post
   with an address of the supported shape at [s,e), its '@' at a.  All theorems are for every text,
   of any length. *)
From SV Require Import Model.Common Model.Redact Spec.RedactSpec Proofs.RedactProofs.
From SV Require Import Model.RedactBounded Proofs.RedactBoundedProofs.
From SV Require Model.GoSem Gen.C14Gen Proofs.C14GenEquiv.
Local Open Scope nat_scope.

(* The redaction never panics (no index or slice out of range) and its loops terminate within their fuel. *)
Theorem C14_never_panics :
  forall t : bytes, exists out spans, redact_email t = Ok (out, spans).
Proof. exact redact_email_total. Qed.
Print Assumptions C14_never_panics.

(* Structure: the spans are non-empty, increasing and disjoint, inside the text, and the output is the
   text with exactly these spans replaced by "REDACTED":  t[0..s1) ++ REDACTED ++ t[e1..s2) ++ ... *)
Theorem C14_structure :
  forall t out spans, redact_email t = Ok (out, spans) ->
  spans_ordered 0 spans (length t) /\ out = splice t 0 spans.
Proof. exact structure_lemma. Qed.
Print Assumptions C14_structure.

(* ... hence every byte outside the spans is preserved: position i of the source is found, unchanged,
   at position [out_index 0 spans i] of the output. *)
Theorem C14_outside_preserved :
  forall t out spans i, redact_email t = Ok (out, spans) ->
  ~ covered spans i -> nth_error out (out_index 0 spans i) = nth_error t i.
Proof. exact outside_preserved_lemma. Qed.
Print Assumptions C14_outside_preserved.

(* ... in the same order, and nothing else is added or removed: the length of the output is the length of
   the text minus the bytes inside the spans plus 8 per span. *)
Theorem C14_order_and_length :
  forall t out spans, redact_email t = Ok (out, spans) ->
  length out + span_bytes spans = length t + 8 * length spans /\
  forall i j, i < j -> ~ covered spans i -> ~ covered spans j -> out_index 0 spans i < out_index 0 spans j.
Proof. exact order_and_length_lemma. Qed.
Print Assumptions C14_order_and_length.

(* Completeness: every occurrence of an address - wherever it sits, whatever surrounds it, overlapping or
   back to back with others, with a domain cut by the end of the text - lies inside the union of the spans. *)
Theorem C14_complete :
  forall t out spans s a e, redact_email t = Ok (out, spans) ->
  email_at t s a e -> forall i, s <= i < e -> covered spans i.
Proof. exact complete_lemma. Qed.
Print Assumptions C14_complete.

(* The same with "not purely numeric" read most literally (some character of the domain is neither a
   digit nor a dot): such addresses are a subset of [email_at]. *)
Theorem C14_complete_literal :
  forall t out spans s a e, redact_email t = Ok (out, spans) ->
  email_at_literal t s a e -> forall i, s <= i < e -> covered spans i.
Proof. exact complete_literal_lemma. Qed.
Print Assumptions C14_complete_literal.

(* Soundness: every span is an address of the supported shape around one '@', ending where the address
   ends and starting where it starts or - for addresses that overlap the previous one - at the end of
   the previous span. *)
Theorem C14_sound :
  forall t out spans es ee, redact_email t = Ok (out, spans) -> In (es, ee) spans ->
  exists s a, s <= es /\ es <= a /\ a < ee /\ email_at t s a ee.
Proof. exact sound_lemma. Qed.
Print Assumptions C14_sound.

(* A span consists of address characters and '@' only, all ASCII: whatever surrounds an address -
   multi-byte characters, escape sequences, stray '@' signs - is outside every span, and no multi-byte
   character is ever cut. *)
Theorem C14_spans_are_ascii :
  forall t out spans es ee i, redact_email t = Ok (out, spans) -> In (es, ee) spans -> es <= i < ee ->
  exists c, nth_error t i = Some c /\ (addr_ch c \/ c = 64%N) /\ (c < 128)%N.
Proof. exact span_chars_lemma. Qed.
Print Assumptions C14_spans_are_ascii.

(* The specification is unambiguous: an '@' belongs to at most one address. *)
Theorem C14_spec_deterministic :
  forall t s a e s' e', email_at t s a e -> email_at t s' a e' -> s = s' /\ e = e'.
Proof. exact email_at_deterministic. Qed.
Print Assumptions C14_spec_deterministic.

(* Text containing no address is unchanged. *)
Theorem C14_no_address_unchanged :
  forall t, no_email t -> redact_email t = Ok (t, []).
Proof. exact no_email_unchanged_lemma. Qed.
Print Assumptions C14_no_address_unchanged.

(* Something is redacted exactly when the text contains an address. *)
Theorem C14_redacts_iff_address :
  forall t out spans, redact_email t = Ok (out, spans) ->
  (spans <> [] <-> exists s a e, email_at t s a e).
Proof. exact changed_iff_email_lemma. Qed.
Print Assumptions C14_redacts_iff_address.

(* The transform (field value of any length, the empty one included): it never panics, the new field
   value is the old one with the spans replaced, the spans cover every address and are addresses, and
   the 'redacted' counter is advanced exactly when the field contains an address; otherwise the field
   is left as it was. *)
Theorem C14_transform :
  forall v, exists r, transform_redact v = Ok r /\
    spans_ordered 0 (tr_spans r) (length v) /\
    tr_value r = splice v 0 (tr_spans r) /\
    (forall s a e, email_at v s a e -> forall i, s <= i < e -> covered (tr_spans r) i) /\
    (forall es ee, In (es, ee) (tr_spans r) -> exists s a, s <= es /\ es <= a /\ a < ee /\ email_at v s a ee) /\
    (tr_counted r = true <-> exists s a e, email_at v s a e) /\
    (tr_counted r = false -> tr_value r = v).
Proof. exact transform_lemma. Qed.
Print Assumptions C14_transform.

(* Non-vacuity: "a@b.c@d.e" contains the two overlapping addresses a@b.c = [0,5) and b.c@d.e = [2,9);
   the model makes the spans [0,5) and [5,9) - the second cut at the end of the first - and the output
   is "REDACTEDREDACTED".  "bob@163.com_2024" (digits at both ends of the domain: the address that
   survived before the fix) is an address and is redacted. *)
Theorem C14_example :
  email_at ex_overlap 0 1 5 /\ email_at ex_overlap 2 5 9 /\
  redact_email ex_overlap = Ok (marker ++ marker, [(0, 5); (5, 9)]) /\
  email_at ex_digit_ends 0 3 16 /\ redact_email ex_digit_ends = Ok (marker, [(0, 16)]).
Proof.
  exact (conj ex_overlap_first (conj ex_overlap_second (conj ex_overlap_result
        (conj ex_digit_ends_email ex_digit_ends_result)))).
Qed.
Print Assumptions C14_example.

(* ---- No bound on the local part (follow-up: wave-4 miss seeded/C14/8).  [C14_complete] above is for texts and
   addresses of any length; the statements below make the dependence on the UNBOUNDED backward scan visible.
   [redact_email_v fs] (Model/RedactBounded.v) is the redaction loop over a parametric start scan [fs];
   [find_start_capped cap] the scan that gives up after [cap] address characters (the seeded change, cap = 64);
   [long_local n] = n+1 letters 'a' followed by "@b.c" (the harness family long-local-sweep). ---- *)

(* the parametric loop instantiated with the model's scan is the model, on every text *)
Theorem C14_parametric_scan_is_model :
  forall t : bytes, redact_email_v find_start t = redact_email t.
Proof. exact redact_email_v_faithful. Qed.
Print Assumptions C14_parametric_scan_is_model.

(* a local part of ANY length makes an address of the specification ... *)
Theorem C14_long_local_is_address :
  forall n : nat, email_at (long_local n) 0 (S n) (n + 5).
Proof. exact long_local_email_at. Qed.
Print Assumptions C14_long_local_is_address.

(* ... and the model redacts all of it, whatever the length *)
Theorem C14_long_local_redacted :
  forall n : nat, exists out spans,
    redact_email (long_local n) = Ok (out, spans) /\ forall i, i < n + 5 -> covered spans i.
Proof. exact long_local_covered. Qed.
Print Assumptions C14_long_local_redacted.

(* the model's scan walks back over a local part of any length; the capped scan does the same up to the cap and
   rejects the candidate ("not email") for EVERY longer local part - for all caps and lengths *)
Theorem C14_scan_unbounded_vs_capped :
  forall (cap n : nat) (rest : bytes),
    find_start (repeat 97%N n ++ 64%N :: rest) n 0 = Ok (Some 0) /\
    (n <= cap -> find_start_capped cap (repeat 97%N n ++ 64%N :: rest) n 0 = Ok (Some 0)) /\
    (cap < n -> find_start_capped cap (repeat 97%N n ++ 64%N :: rest) n 0 = Ok None).
Proof.
  exact (fun cap n rest => conj (find_start_any_length n rest)
          (conj (find_start_capped_within cap n rest) (find_start_capped_gives_up cap n rest))).
Qed.
Print Assumptions C14_scan_unbounded_vs_capped.

(* The seeded variant violates completeness: with the scan capped at 64 the address of 65 letters + "@b.c"
   (an address: C14_long_local_is_address) comes back unchanged, no span, its first byte uncovered.
   Witness by computation; 64 letters are still redacted by the variant, 65 by the model. *)
Theorem C14_bounded_scan_variant_refuted :
  exists t s a e, email_at t s a e /\
    exists out spans, redact_email_v (find_start_capped 64) t = Ok (out, spans) /\ out = t /\ ~ covered spans s.
Proof. exact bounded_scan_variant_refuted. Qed.
Print Assumptions C14_bounded_scan_variant_refuted.

Theorem C14_bounded_scan_variant_example :
  redact_email_v (find_start_capped 64) (long_local 64) = Ok (long_local 64, []) /\
  redact_email (long_local 64) = Ok (marker, [(0, 69)]) /\
  redact_email_v (find_start_capped 64) (long_local 63) = Ok (marker, [(0, 68)]).
Proof. exact bounded_scan_variant_witness. Qed.
Print Assumptions C14_bounded_scan_variant_example.

(* ---- The tie to the SOURCE: Gen/C14Gen.v is regenerated by tools/go2coq from
   transform/tredactemail/redactemail.go on every check (all seven functions and the two lookup tables that
   init() fills).  Proved for every input so far: the generated tables are the model's character classes, and
   the generated redactEmailCheckNumber returns what the model's check_number returns (no panic, fuel
   suffices).  A change of these parts of the Go file changes the generated term and breaks the proof.  The other
   generated functions: see below (redactEmail1 / redactEmail: self-test only so far). ---- *)
Theorem C14_generated_tables_agree :
  forall c : N, (c < 256)%N ->
    GoSem.go_index C14Gen.validWordChars (GoSem.int_of_byte c) = GoSem.GOk (is_word c) /\
    GoSem.go_index C14Gen.validAddressChars (GoSem.int_of_byte c) = GoSem.GOk (is_addr c).
Proof. exact (fun c H => conj (C14GenEquiv.word_table_gen c H) (C14GenEquiv.addr_table_gen c H)). Qed.
Print Assumptions C14_generated_tables_agree.

Theorem C14_generated_redactEmailCheckNumber_agrees :
  forall s : bytes,
    GoSem.same_result (check_number s) (C14Gen.redactEmailCheckNumber s) /\
    GoSem.is_out_of_fuel (C14Gen.redactEmailCheckNumber s) = false.
Proof. exact C14GenEquiv.check_number_gen_agrees. Qed.
Print Assumptions C14_generated_redactEmailCheckNumber_agrees.

(* ... hence the generated function itself decides exactly the documented notion of a numeric domain
   (digits at both ends, only digits and dots in between), on every byte string. *)
Theorem C14_generated_redactEmailCheckNumber_numeric :
  forall d : bytes, exists b, C14Gen.redactEmailCheckNumber d = GoSem.GOk b /\ (b = true <-> numeric d).
Proof. exact C14GenEquiv.check_number_gen_numeric. Qed.
Print Assumptions C14_generated_redactEmailCheckNumber_numeric.

(* The scanning functions.  Go's int against the model's nat / option: -1 is None ([opt_int]); the text consists
   of bytes ([bytes_ok]: every element < 256 - the lookup tables are indexed by a byte) and atIndex is a position
   in the text, as in every call.  Each generated function returns a value (no panic, fuel suffices) and it is the
   model's. *)
Theorem C14_generated_redactFindEmailStart_agrees :
  forall (t : bytes) (atIndex limitStart : nat),
    C14GenEquiv.bytes_ok t -> atIndex <= length t ->
    exists r, find_start t atIndex limitStart = Ok r /\
              C14Gen.redactFindEmailStart t (Z.of_nat atIndex) (Z.of_nat limitStart) = GoSem.GOk (C14GenEquiv.opt_int r).
Proof. exact C14GenEquiv.find_start_gen_eq. Qed.
Print Assumptions C14_generated_redactFindEmailStart_agrees.

Theorem C14_generated_redactFindEmailEnd_agrees :
  forall (t : bytes) (atIndex : nat),
    C14GenEquiv.bytes_ok t -> atIndex < length t ->
    exists r, find_end t atIndex = Ok r /\
              C14Gen.redactFindEmailEnd t (Z.of_nat atIndex) = GoSem.GOk (C14GenEquiv.opt_int r).
Proof. exact C14GenEquiv.find_end_gen_eq. Qed.
Print Assumptions C14_generated_redactFindEmailEnd_agrees.

Theorem C14_generated_redactFindEmailBoundary_agrees :
  forall (t : bytes) (atIndex limitStart : nat),
    C14GenEquiv.bytes_ok t -> atIndex < length t ->
    exists s e, find_boundary t atIndex limitStart = Ok (s, e) /\
                C14Gen.redactFindEmailBoundary t (Z.of_nat atIndex) (Z.of_nat limitStart) =
                GoSem.GOk (C14GenEquiv.opt_int s, C14GenEquiv.opt_int e).
Proof. exact C14GenEquiv.find_boundary_gen_eq. Qed.
Print Assumptions C14_generated_redactFindEmailBoundary_agrees.

Theorem C14_generated_redactEmailFindFirst_agrees :
  forall t : bytes,
    C14GenEquiv.bytes_ok t ->
    exists r, find_first t = Ok r /\ C14Gen.redactEmailFindFirst t = GoSem.GOk (C14GenEquiv.opt_int r).
Proof. exact C14GenEquiv.find_first_gen_eq. Qed.
Print Assumptions C14_generated_redactEmailFindFirst_agrees.
