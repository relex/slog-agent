(* C07 - No input can crash or wedge the agent.
   Only the property theorems; each is closed by lemmas from Proofs/Pipeline*.v ([exact], or [split] and [exact] where
   the parts of a conjunction are lemmas of their own).

   Model: Model/Pipeline.v = the COMPOSITION of the component models of C08 (framing), C09 (parser), C15 (transforms)
   + C13 (parseTime) + C14 (redactEmail), C06 (orchestrator, metric key sets), C10 (serializer; the repaired
   SerializeRecord in Model/PipelineSerializer.v) and C11 (packer), with the Prometheus label rule as the oracle
   [label_ok] = valid UTF-8.  The proofs compose the component theorems (C09_accounting, C15's no_panic_lemma,
   C13_transform_cases, C14_transform, C06's local_goc_spec/total, C10_encode_buf_spec, C09_to_valid_utf8_valid,
   C08_never_full, C08_connection_single_line); nothing about a component is proved again.

   [config_ok O cfg] (Proofs/PipelineProofs.v) = the loader-level side conditions: level mapping of 8 names; every
   locator inside the field array (parser fields, orchestration keys, metric keys, keys of parseTime/redactEmail);
   schema not longer than the field array; the tag template only names orchestration keys; both transform programs
   well-formed in C15's sense (extractor shapes, maxLen >= 0, regexp oracle returns index pairs inside the value);
   every output accepted by fluentdforward VerifyConfig; the two repairs of this property in place.
   [ginv] / [cinv] = the state invariant of the agent / of one connection (hold initially: C07_initial_state). *)
From SV Require Import Model.Common.
From SV Require Model.Utf8 Model.Parser Model.ParseTime Model.Transforms Model.Routing Model.Serializer Model.PipelineSerializer
               Model.Packer Model.Framing Spec.Utf8Spec Spec.SyslogSpec Spec.FramingSpec Spec.SerializerSpec Spec.MsgpackSpec
               Proofs.ParserProofs Proofs.PipelineSerializerProofs Proofs.TagTemplateProofs.
From SV Require Import Model.Pipeline Proofs.PipelineProofs Proofs.PipelineWitnesses.
From SV Require Import Model.PipelineVariants Proofs.PipelineFollowup.
From SV Require Model.PipelinePool Proofs.PipelinePoolProofs.

(* 1. pipeline_total.  For every accepted configuration, every reachable state of the agent and of the connection
   (so: whatever was received before, on this or any other connection) and EVERY byte string presented as a record:
   the per-record pipeline parse -> extract -> route -> select metric key set -> transform -> serialize -> pack
   returns normally - passed (one stream per output; for a fluentdForward output the complete event of C10's
   specification, for a datadog output whatever the json oracle returns) or dropped - never a panic; the invariant is kept; a
   malformed record is counted dropped exactly once, with its length, and changes nothing else; a record dropped by an
   extraction transform is counted dropped (not passed) once and leaves the shared state alone; every other record is
   counted passed exactly once. *)
Theorem C07_pipeline_total :
  forall (O : T.oracles) cfg g c now clk (input : bytes),
  config_ok O cfg -> ginv O cfg g -> cinv O cfg g c ->
  exists g' c' res,
    process_record O cfg g c now clk input = Ok (g', c', res) /\
    ginv O cfg g' /\ cinv O cfg g' c' /\ result_shape cfg res /\
    match res with
    | RDropParse =>
        fst (Ps.parse (c_parser cfg) (cs_input c) input) = Ok None /\
        SyslogSpec.counted_dropped (cs_input c) (cs_input c') (length input) /\
        g' = g /\ cs_extract c' = cs_extract c /\ cs_ecnt c' = cs_ecnt c /\ cs_local c' = cs_local c
    | RDropExtract => counted_dropped_instead (cs_input c) (cs_input c') (length input) /\ g' = g
    | _ => SyslogSpec.counted_passed (cs_input c) (cs_input c') (length input)
    end.
Proof. exact process_record_total. Qed.
Print Assumptions C07_pipeline_total.

(* the invariants hold for a freshly started agent, and a NEW connection can be opened in every reachable state *)
Theorem C07_initial_state :
  forall (O : T.oracles) cfg, config_ok O cfg ->
  ginv O cfg g_init /\ forall g, cinv O cfg g (new_conn cfg).
Proof. exact (fun O cfg H => conj (ginv_init O cfg) (fun g => cinv_new_conn O cfg g H)). Qed.
Print Assumptions C07_initial_state.

(* the tag condition of config_ok is what NewTagBuilder establishes (C06) *)
Theorem C07_accepted_tag_template :
  forall names t parts,
  R.parse_template names t = Some parts -> Forall (TagTemplateProofs.part_wf (length names)) parts.
Proof. exact TagTemplateProofs.parse_template_wf. Qed.
Print Assumptions C07_accepted_tag_template.

(* 1'. ... hence every sequence of records through one long-lived pipeline (repeats, valid/invalid interleaved) *)
Theorem C07_pipeline_total_sequence :
  forall (O : T.oracles) cfg (inputs : list bytes) g c now clk,
  config_ok O cfg -> ginv O cfg g -> cinv O cfg g c ->
  exists g' c' rs,
    process_records O cfg g c now clk inputs = Ok (g', c', rs) /\
    ginv O cfg g' /\ cinv O cfg g' c' /\ length rs = length inputs /\ Forall (result_shape cfg) rs.
Proof. exact process_records_total. Qed.
Print Assumptions C07_pipeline_total_sequence.

(* 2. stream_total.  For every TCP byte stream in every fragmentation and with every read timing (data with or
   without deadline renewal, timeouts, finally an error / EOF - also in the middle of a record): the connection-level
   function runConnection + multiLineReader + the per-record pipeline never panics and never spins (the outcome is
   not OutOfFuel: Read is never called on a full buffer - C08_never_full), and leaves the agent in a state from
   which everything above holds again. *)
Theorem C07_stream_total :
  forall (O : T.oracles) cfg g now clk (evs : list F.event),
  config_ok O cfg -> ginv O cfg g -> (1 <= record_limit cfg)%nat ->
  exists g' c' rs, conn_run O cfg g now clk evs = Ok (g', c', rs) /\ ginv O cfg g' /\ cinv O cfg g' c' /\
                   Forall (result_shape cfg) rs.
Proof. exact conn_run_total. Qed.
Print Assumptions C07_stream_total.

(* the framing layer alone: after everything that can arrive, a record of maximal length still fits the line buffer or the
   buffer is empty - Read is never called with an empty slice (C08_never_full for the listener's parameters) *)
Theorem C07_reader_never_full :
  forall cfg (evs : list F.event), (1 <= record_limit cfg)%nat ->
  exists st' records,
    F.run_ops F.trs (F.conn_ops evs) (F.new_mlr (c_linebuf cfg) (record_limit cfg)) [] = Ok (st', records) /\
    (length (F.m_buf st') <= F.m_cap st')%nat /\
    (F.m_limit st' <= F.m_cap st' - length (F.m_buf st') \/ F.m_buf st' = [])%nat.
Proof. exact conn_reader_never_full. Qed.
Print Assumptions C07_reader_never_full.

(* 2'. ... and so does any number of connections one after the other (bad input, abrupt disconnect, NEW connection) *)
Theorem C07_agent_total :
  forall (O : T.oracles) cfg (conns : list (list F.event)) g now clk,
  config_ok O cfg -> ginv O cfg g -> (1 <= record_limit cfg)%nat ->
  exists g' rss, agent_run O cfg g now clk conns = Ok (g', rss) /\ ginv O cfg g' /\ length rss = length conns.
Proof. exact agent_run_total. Qed.
Print Assumptions C07_agent_total.

(* 3. neighbours_unchanged.  [ls]: the lines of a stream, each a complete single-line record START of at most b bytes
   (C08's side conditions; cap >= 2b+1+limit, production: 4*limit), some of them malformed = rejected by the parser.
   The connection that delivers all of them ([evs1]) and the one that delivers only the well-formed ones ([evs2]) -
   each in ANY fragmentation and timing - leave the agent in the SAME shared state and produce the SAME results for
   the well-formed records (pipeline, serialized bytes per output, chunks); exactly the malformed records are
   answered RDropParse; the input counters differ by one dropped record, with its length, per malformed record. *)
Theorem C07_neighbours_unchanged :
  forall (O : T.oracles) cfg g now clk b (ls : list bytes) evs1 evs2,
  config_ok O cfg -> ginv O cfg g ->
  (1 <= record_limit cfg)%nat ->
  (2 * b + 1 + record_limit cfg <= Nat.max (c_linebuf cfg) (record_limit cfg * 3))%nat ->
  Forall (FramingSpec.valid_line F.trs b) ls ->
  FramingSpec.ops_text (F.conn_ops evs1) = FramingSpec.unlines ls ->
  FramingSpec.ops_text (F.conn_ops evs2) = FramingSpec.unlines (filter (good cfg) ls) ->
  exists g' c1 c2 rs1,
    conn_run O cfg g now clk evs1 = Ok (g', c1, rs1) /\
    conn_run O cfg g now clk evs2 = Ok (g', c2, filter (fun r => negb (is_drop_parse r)) rs1) /\
    map is_drop_parse rs1 = map (malformed cfg) ls /\
    cs_extract c2 = cs_extract c1 /\ cs_ecnt c2 = cs_ecnt c1 /\ cs_local c2 = cs_local c1 /\
    (let bad := filter (malformed cfg) ls in
     Ps.passed_n (cs_input c1) = Ps.passed_n (cs_input c2) /\
     Ps.passed_bytes (cs_input c1) = Ps.passed_bytes (cs_input c2) /\
     Ps.overflow_n (cs_input c1) = Ps.overflow_n (cs_input c2) /\
     Ps.overflow_bytes (cs_input c1) = Ps.overflow_bytes (cs_input c2) /\
     Ps.dropped_n (cs_input c1) = Ps.dropped_n (cs_input c2) + N.of_nat (length bad) /\
     Ps.dropped_bytes (cs_input c1) = Ps.dropped_bytes (cs_input c2) + SyslogSpec.sum_lengths bad)%N.
Proof. exact neighbours_unchanged_lemma. Qed.
Print Assumptions C07_neighbours_unchanged.

(* 3'. the same for record sequences handed to the pipeline directly (no framing side conditions): removing the
   malformed records from ANY sequence changes nothing but the input counters ([cnt_rel k kb A B]: passed and overflow
   equal, A counts k more dropped records and kb more dropped bytes than B) *)
Theorem C07_malformed_records_only_counted :
  forall (O : T.oracles) cfg (inputs : list bytes) g c now clk g1 c1 rs cnt k kb,
  ParserProofs.cfg_ok (c_parser cfg) ->
  process_records O cfg g c now clk inputs = Ok (g1, c1, rs) ->
  cnt_rel k kb (cs_input c) cnt ->
  exists cnt',
    process_records O cfg g (with_input c cnt) now clk (filter (fun x => negb (malformed cfg x)) inputs)
    = Ok (g1, with_input c1 cnt', filter (fun r => negb (is_drop_parse r)) rs) /\
    map is_drop_parse rs = map (malformed cfg) inputs /\
    cnt_rel (k + N.of_nat (length (filter (malformed cfg) inputs)))
            (kb + SyslogSpec.sum_lengths (filter (malformed cfg) inputs)) (cs_input c1) cnt'.
Proof. exact process_records_filter. Qed.
Print Assumptions C07_malformed_records_only_counted.

(* 4. Neighbours inside a chunk: every fluentdForward stream of a passed record is the COMPLETE event (never empty, never cut),
   and C10's independent decoder reads it back as exactly that record's event with nothing left over - so an event
   appended to a chunk cannot change how the events before and after it decode. *)
Theorem C07_passed_streams_decode :
  forall cfg res,
  result_shape cfg res ->
  (N.of_nat (length (c_schema cfg)) < 65535)%N ->
  match res with
  | RPassed _ streams _ =>
      exists rec, Forall2 (fun o stream =>
                     match oc_kind o with
                     | OFluentd sc =>
                       (N.of_nat (length (S.c_env sc)) < 65536)%N ->
                       (N.of_nat (length stream) < 4294967296)%N ->
                       stream <> [] /\
                       MsgpackSpec.decode_all stream = Some (SerializerSpec.event_tree (c_schema cfg) sc rec, [])
                     | ODatadog _ => True
                     end)
                  (c_outputs cfg) streams
  | _ => True
  end.
Proof. exact passed_streams_decode. Qed.
Print Assumptions C07_passed_streams_decode.

(* 5. The repaired SerializeRecord (defect 16): for EVERY record - whatever the size of its fields - no panic and the
   complete event; maxEncodedLength is an upper bound of the event. *)
Theorem C07_serializer_total :
  forall schema cfg rec B ser,
  SerializerSpec.chains_ok schema cfg ->
  (length schema <= length (S.r_fields rec))%nat ->
  S.new_serializer schema cfg B = Ok ser ->
  PipelineSerializer.serialize_record_fixed true ser rec = Ok (SerializerSpec.encode_spec schema cfg rec) /\
  exists m, PipelineSerializer.max_encoded_length ser rec = Ok m /\
            (length (SerializerSpec.encode_spec schema cfg rec) <= m)%nat.
Proof.
  exact (fun schema cfg rec B ser V L H =>
           conj (PipelineSerializerProofs.serialize_fixed_total schema cfg rec B ser V L H)
                (PipelineSerializerProofs.max_encoded_length_bound schema cfg rec B ser V L H)).
Qed.
Print Assumptions C07_serializer_total.

(* 6. The repaired label values (defect 17): whatever bytes the key fields hold, every value handed to the metric
   registry passes its UTF-8 check - no panic in WithLabelValues, and Gather keeps working in every reachable state. *)
Theorem C07_labels_always_accepted :
  (forall vs, forallb label_ok (metric_label_values true vs) = true) /\
  (forall (O : T.oracles) cfg g, ginv O cfg g -> metrics_ok g = true).
Proof. exact (conj labels_ok_fixed ginv_metrics_ok). Qed.
Print Assumptions C07_labels_always_accepted.

(* 7. The ORIGINAL code (the two switches off, everything else accepted): one record with a 0xFF byte in a metric key
   field panics in promext; the same byte in an orchestration key does not panic but breaks Gather; one record with
   a 200-byte host name overruns the 192-byte serializer buffer.  With the repairs the same records are delivered. *)
Theorem C07_original_label_panic_refuted :
  config_ok O (ex_cfg true true) /\
  process_record O (ex_cfg false true) g_init (new_conn (ex_cfg false true)) (1600000000, 0)%Z 0%Z rec_bad_label
  = Panic site_label /\
  match process_record O (ex_cfg true true) g_init (new_conn (ex_cfg true true)) (1600000000, 0)%Z 0%Z rec_bad_label with
  | Ok (g, _, RPassed 0 [s] _) => s <> [] /\ metrics_ok g = true
  | _ => False
  end.
Proof. split; [exact ex_config_ok | split; [exact original_label_panic | exact fixed_label_passes]]. Qed.
Print Assumptions C07_original_label_panic_refuted.

Theorem C07_original_okey_breaks_metrics_refuted :
  match process_record O (ex_cfg false true) g_init (new_conn (ex_cfg false true)) (1600000000, 0)%Z 0%Z rec_bad_okey with
  | Ok (g, _, RPassed 0 _ _) => metrics_ok g = false
  | _ => False
  end.
Proof. exact original_okey_breaks_metrics. Qed.
Print Assumptions C07_original_okey_breaks_metrics_refuted.

Theorem C07_original_overflow_panic_refuted :
  (exists s, process_record O (ex_cfg true false) g_init (new_conn (ex_cfg true false)) (1600000000, 0)%Z 0%Z rec_huge_host
             = Panic s) /\
  match process_record O (ex_cfg true true) g_init (new_conn (ex_cfg true true)) (1600000000, 0)%Z 0%Z rec_huge_host with
  | Ok (_, _, RPassed 0 [s] _) => (192 < length s)%nat
  | _ => False
  end.
Proof. split; [exact original_overflow_panic | exact fixed_overflow_passes]. Qed.
Print Assumptions C07_original_overflow_panic_refuted.

(* 8. Boundary of the property (documentation, not a finding): a garbage line that is not a record start is a
   continuation line of the record before it (multi-line support); the records after it are untouched. *)
Theorem C07_garbage_line_joins_previous_refuted :
  conn_records (ex_cfg true true) [F.EvData (FramingSpec.unlines [rec_good1; garbage_line; rec_good2]) false]
  = Ok [rec_good1 ++ F.NL :: garbage_line; rec_good2] /\
  conn_records (ex_cfg true true) [F.EvData (FramingSpec.unlines [rec_good1; rec_good2]) false]
  = Ok [rec_good1; rec_good2].
Proof. exact garbage_line_joins_previous. Qed.
Print Assumptions C07_garbage_line_joins_previous_refuted.

(* Non-vacuity: a concrete configuration (delFields extraction; parseTime in a block, redactEmail and a 100% drop as
   transformations; byKeySet on app, metric key host; one output with an unescape rewrite; limits 64/96) satisfies
   config_ok; the stream good, malformed, good (NIL timestamp), malformed - read in two fragments cut inside the first
   header, with a timeout in between - satisfies the hypotheses of C07_neighbours_unchanged; the run delivers the two
   well-formed records to two pipelines and counts 2 passed / 2 dropped. *)
Theorem C07_example :
  config_ok O (ex_cfg true true) /\
  Forall (FramingSpec.valid_line F.trs 96) ex_lines /\
  (2 * 96 + 1 + record_limit (ex_cfg true true) <= Nat.max (c_linebuf (ex_cfg true true)) (record_limit (ex_cfg true true) * 3))%nat /\
  FramingSpec.ops_text (F.conn_ops ex_evs1) = FramingSpec.unlines ex_lines /\
  FramingSpec.ops_text (F.conn_ops ex_evs2) = FramingSpec.unlines (filter (good (ex_cfg true true)) ex_lines) /\
  match conn_run O (ex_cfg true true) g_init (1600000000, 0)%Z 0%Z ex_evs1 with
  | Ok (g, c, [RPassed 0 [s1] _; RDropParse; RPassed 1 [s2] _; RDropParse]) =>
      s1 <> [] /\ s2 <> [] /\ length (g_pipes g) = 2%nat /\
      Ps.passed_n (cs_input c) = 2%N /\ Ps.dropped_n (cs_input c) = 2%N /\
      Ps.dropped_bytes (cs_input c) = (2 * N.of_nat (length rec_bad))%N
  | _ => False
  end.
Proof.
  split; [exact ex_config_ok|]. split; [exact ex_lines_valid|]. split; [exact ex_cap|].
  split; [exact (proj1 ex_texts)|]. split; [exact (proj2 ex_texts)|exact ex_run].
Qed.
Print Assumptions C07_example.

(* Non-vacuity for the shape of config_sample.yml - a fluentdForward AND a datadog output (json.Marshal as an oracle):
   the configuration satisfies config_ok and the first example record is delivered to both outputs. *)
Theorem C07_example_two_outputs :
  config_ok O ex_cfg2 /\
  match process_record O ex_cfg2 g_init (new_conn ex_cfg2) (1600000000, 0)%Z 0%Z rec_good1 with
  | Ok (_, _, RPassed 0 [s1; s2] _) =>
      s1 <> [] /\
      (* level=notice; time=2020-01-02T03:04:05Z; source=src; log=hello REDACTED; timestamp=1577934245000; ddtags=t.appB *)
      s2 = toy_json [(n_level, [110;111;116;105;99;101]%N);
                     (n_time, [50;48;50;48;45;48;49;45;48;50;84;48;51;58;48;52;58;48;53;90]%N);
                     (n_source, [115;114;99]%N);
                     (n_log, [104;101;108;108;111;32;82;69;68;65;67;84;69;68]%N);
                     (b_timestamp, [49;53;55;55;57;51;52;50;52;53;48;48;48]%N); (b_ddtags, [116;46;97;112;112;66]%N)]
  | _ => False
  end.
Proof. exact ex2_run. Qed.
Print Assumptions C07_example_two_outputs.

(* Two mechanisms the totality theorems take for granted, each stated on its own, and for each the variant
   (Model/PipelineVariants.v) that a trial change to /repo puts in its place, refuted: the patches seeded/C07/4
   (TestRecordStart) and seeded/C07/5 (MetricLabelValues).  DESIGN.md section 10.3 lists the trial changes. *)

(* 9. Record starts (recordtest.go TestRecordStart, modelled by C08's Framing.test_record_start): EVERY line that
   begins "<" 1-3 digits ">1 " and has at least 32 bytes is a record start - whatever byte follows the header (the
   "-" of a NIL timestamp, a letter, a space, 0xFF ...) and whatever comes after it. *)
Theorem C07_record_start_every_header :
  forall (ds : bytes) (c : N) (rest : bytes),
  (1 <= length ds <= 3)%nat -> Forall (fun d => is_digit d = true) ds ->
  (32 <= length (60%N :: ds ++ 62%N :: 49%N :: 32%N :: c :: rest))%nat ->
  F.trs (60%N :: ds ++ 62%N :: 49%N :: 32%N :: c :: rest) = true.
Proof. exact header_any_byte_is_start. Qed.
Print Assumptions C07_record_start_every_header.

(* 10. Every record SENT is accounted for.  [sent_line b l]: l has the header shape above, no newline, at most b bytes
   - a statement about what the client sends, not about the reader's predicate.  A connection whose text consists of
   such lines (any fragmentation, any read timing): the parser is handed exactly these lines, in order and unaltered
   (none glued onto its neighbour, none lost); one result per line; exactly the malformed ones are rejected; the input
   counters of the connection add up to the number of lines: delivered or counted as dropped, nothing vanishes. *)
Theorem C07_every_sent_record_accounted :
  forall (O : T.oracles) cfg g now clk b (ls : list bytes) evs,
  config_ok O cfg -> ginv O cfg g ->
  (1 <= record_limit cfg)%nat ->
  (2 * b + 1 + record_limit cfg <= Nat.max (c_linebuf cfg) (record_limit cfg * 3))%nat ->
  Forall (sent_line b) ls ->
  FramingSpec.ops_text (F.conn_ops evs) = FramingSpec.unlines ls ->
  conn_records cfg evs = Ok ls /\
  exists g' c rs,
    conn_run O cfg g now clk evs = Ok (g', c, rs) /\
    ginv O cfg g' /\
    length rs = length ls /\
    map is_drop_parse rs = map (malformed cfg) ls /\
    (Ps.passed_n (cs_input c) + Ps.dropped_n (cs_input c) = N.of_nat (length ls))%N /\
    (N.of_nat (length (filter (malformed cfg) ls)) <= Ps.dropped_n (cs_input c))%N.
Proof. exact every_sent_record_accounted. Qed.
Print Assumptions C07_every_sent_record_accounted.

(* 11. The variant of TestRecordStart that additionally wants a digit after "<PRI>1 " (Model/PipelineVariants.v) does
   NOT have this property: the NIL-timestamp record rec_good2 is a [sent_line]; the real reader delivers
   good, NIL, good as three records and the NIL record alone as one; the variant glues the NIL record onto the
   well-formed record before it and loses it altogether when it is alone on the connection. *)
Theorem C07_record_start_digit_variant_refuted :
  sent_line 96 rec_good2 /\
  F.trs rec_good2 = true /\ trs_digit rec_good2 = false /\
  conn_records_with F.trs (ex_cfg true true) [F.EvData (FramingSpec.unlines [rec_good1; rec_good2; rec_good1]) false; F.EvClose]
  = Ok [rec_good1; rec_good2; rec_good1] /\
  conn_records_with F.trs (ex_cfg true true) [F.EvData (FramingSpec.unlines [rec_good2]) false; F.EvClose] = Ok [rec_good2] /\
  conn_records_with trs_digit (ex_cfg true true) [F.EvData (FramingSpec.unlines [rec_good1; rec_good2; rec_good1]) false; F.EvClose]
  = Ok [rec_good1 ++ F.NL :: rec_good2; rec_good1] /\
  conn_records_with trs_digit (ex_cfg true true) [F.EvData (FramingSpec.unlines [rec_good2]) false; F.EvClose] = Ok [].
Proof. exact trs_digit_variant_refuted. Qed.
Print Assumptions C07_record_start_digit_variant_refuted.

(* 12. Label values (base.MetricLabelValues): for EVERY list of key values - any length, any bytes - each label value
   is valid UTF-8, there is one per key, valid values are handed on unchanged, and WithLabelValues does not panic. *)
Theorem C07_label_values_valid_utf8 :
  forall vs : list bytes,
  Forall Utf8Spec.valid_utf8 (metric_label_values true vs) /\
  length (metric_label_values true vs) = length vs /\
  (Forall Utf8Spec.valid_utf8 vs -> metric_label_values true vs = vs) /\
  with_label_values (metric_label_values true vs) = Ok tt.
Proof. exact label_values_spec. Qed.
Print Assumptions C07_label_values_valid_utf8.

(* 13. The variant that cuts the cleaned value to n bytes by byte slicing is refuted for EVERY cap n >= 1: the value
   "h" x (n-1) + "ä" is valid UTF-8 and accepted as it is by the real function, but the variant's label value ends in
   the lone lead byte C3 and WithLabelValues panics.  (n = 200: a 201-byte host name.) *)
Theorem C07_label_cut_variant_refuted :
  forall n, (1 <= n)%nat ->
  Utf8.valid (straddling_value n) = true /\
  metric_label_values true [straddling_value n] = [straddling_value n] /\
  with_label_values (metric_label_values true [straddling_value n]) = Ok tt /\
  with_label_values (metric_label_values_cut n [straddling_value n]) = Panic site_label.
Proof. exact label_cut_variant_refuted. Qed.
Print Assumptions C07_label_cut_variant_refuted.

Theorem C07_label_cut_200_variant_refuted :
  Utf8.valid (straddling_value 200) = true /\ length (straddling_value 200) = 201%nat /\
  with_label_values (metric_label_values_cut 200 [straddling_value 200]) = Panic site_label.
Proof. exact label_cut_200_refuted. Qed.
Print Assumptions C07_label_cut_200_variant_refuted.

(* The parseTime step, through the model of parseFractionNanos; the variant is the trial change seeded/C07/7. *)

(* 14. C07_pipeline_total runs C13's transform_parse_time inside [run_parse_time]; stated on its own: for EVERY byte
   string in the time field (every fraction length, every zone form, truncated, over-long ...) the transform is not a
   panic; for every record whose field array holds the key, the step returns normally and keeps the array; and the
   model of parseFractionNanos itself (a fixed nine-iteration loop, no indexing) never panics. *)
Theorem C07_parse_time_step_total :
  (forall local_off (v : bytes),
     match ParseTime.transform_parse_time local_off v with ParseTime.TpPanic _ => False | _ => True end) /\
  (forall local_off loc label cs (p : prec),
     (loc < length (T.r_fields (fst p)))%nat ->
     exists cs' p', run_parse_time local_off loc label cs p = Ok (cs', p') /\
                    length (T.r_fields (fst p')) = length (T.r_fields (fst p))) /\
  (forall frac, match ParseTime.parse_fraction_nanos frac with Panic _ => False | _ => True end).
Proof. exact (conj parse_time_value_total (conj parse_time_step_total parse_fraction_total)). Qed.
Print Assumptions C07_parse_time_step_total.

(* 15. The variant of parseFractionNanos that scales by a ten-entry table with the guard "len(digits) > len(table)"
   (Model/PipelineVariants.v): it PANICS for every fraction of exactly ten characters, and is the real function for every
   other length - the defect lives in one length class.  Witness through the whole transform and the whole pipeline:
   "2019-08-15T15:50:49.1234567891+03:00" is parsed by the real transform (record delivered) and is an index-out-of-range
   panic in the variant; nine and eleven digits pass in the variant. *)
Theorem C07_fraction_table_variant_refuted :
  (forall c ds, length ds = 10%nat -> parse_fraction_nanos_table (c :: ds) = Panic site_frac_table) /\
  (forall c ds, length ds <> 10%nat -> parse_fraction_nanos_table (c :: ds) = ParseTime.parse_fraction_nanos (c :: ds)) /\
  (forall off t, parse_rfc3339_with ParseTime.parse_fraction_nanos off t = ParseTime.parse_rfc3339 off t) /\
  ParseTime.transform_parse_time 0 (ts_with_fraction ten_digits) = ParseTime.TpSet 1565873449 123456789 /\
  match process_record O (ex_cfg true true) g_init (new_conn (ex_cfg true true)) (1600000000, 0)%Z 0%Z rec_ten_digit_fraction with
  | Ok (_, _, RPassed 0 [s] _) => s <> []
  | _ => False
  end /\
  transform_parse_time_with parse_fraction_nanos_table 0 (ts_with_fraction ten_digits) = ParseTime.TpPanic site_frac_table /\
  transform_parse_time_with parse_fraction_nanos_table 0 (ts_with_fraction (firstn 9 ten_digits)) = ParseTime.TpSet 1565873449 123456789 /\
  transform_parse_time_with parse_fraction_nanos_table 0 (ts_with_fraction (ten_digits ++ [50]%N)) = ParseTime.TpSet 1565873449 123456789.
Proof.
  exact (conj table_variant_panics_at_10 (conj table_variant_agrees_elsewhere (conj parse_rfc3339_with_real fraction_table_variant_refuted))).
Qed.
Print Assumptions C07_fraction_table_variant_refuted.

(* The POOLED LogRecord (Model/PipelinePool.v, Proofs/PipelinePoolProofs.v); the variant is the trial change seeded/C07/8. *)

(* 16. syslogParser.Parse overwrites every field and flag of the LogRecord object the allocator hands it: whatever the
   object carried from its previous use (any field content, any RawLength, Unescaped set by a multi-line record or by the
   unescape transform), the record after Parse is the parser's result and nothing else. *)
Theorem C07_recycled_record_overwritten :
  forall (cell r : Ps.record), PipelinePool.write_record PipelinePool.FlagAssign cell r = r.
Proof. exact PipelinePoolProofs.write_record_assign. Qed.
Print Assumptions C07_recycled_record_overwritten.

(* 17. neighbour independence through the pool.  For every configuration, every sequence of byte strings, every state,
   EVERY initial content of the allocator's pool (objects with arbitrary fields and flags), and EVERY schedule (which
   pooled object sync.Pool.Get returns for each record, or a new one; whether the transforms set record.Unescaped before
   the release): the pipeline that writes each record into a recycled object returns exactly what the pipeline with a
   brand-new record each time returns - states, results, every delivered byte.  No hypothesis on the configuration: it is
   an equality of runs, so it also transports panics; with config_ok the pooled run is total and keeps the invariants. *)
Theorem C07_pooled_neighbour_independent :
  (forall (O : T.oracles) cfg inputs g c (p : PipelinePool.pool) now clk (sch : list PipelinePool.sched_item),
     PipelinePool.drop_pool (PipelinePool.process_records_pooled O PipelinePool.FlagAssign cfg g c p now clk sch inputs) =
     process_records O cfg g c now clk inputs) /\
  (forall (O : T.oracles) cfg inputs g c p now clk sch i,
     PipelinePool.delivered (PipelinePool.drop_pool (PipelinePool.process_records_pooled O PipelinePool.FlagAssign cfg g c p now clk sch inputs)) i =
     PipelinePool.delivered (process_records O cfg g c now clk inputs) i) /\
  (forall (O : T.oracles) cfg (inputs : list bytes) g c p now clk sch,
     config_ok O cfg -> ginv O cfg g -> cinv O cfg g c ->
     exists g' c' p' rs,
       PipelinePool.process_records_pooled O PipelinePool.FlagAssign cfg g c p now clk sch inputs = Ok (g', c', p', rs) /\
       process_records O cfg g c now clk inputs = Ok (g', c', rs) /\
       ginv O cfg g' /\ cinv O cfg g' c' /\ length rs = length inputs).
Proof.
  exact (conj PipelinePoolProofs.process_records_pooled_independent
        (conj PipelinePoolProofs.delivered_pooled PipelinePoolProofs.process_records_pooled_total)).
Qed.
Print Assumptions C07_pooled_neighbour_independent.

(* 18. The variant "if the message holds a newline { record.Unescaped = true }" (FlagSetOnly: seeded/C07/8, not the
   code): for EVERY object and result the flag of the previous use survives (first conjunct); witness on ex_cfg
   (fluentd output with the unescape rewrite of "log"): the multi-line record "... - first LF second", then
   "... - boom\n\tat Foo" written into the SAME object (schedule Some 0) is delivered - one event - with other bytes than
   alone; with a new object for the second record (what single-record tests exercise) there is no difference; the flag
   may also come from a transform of an earlier single-line record; the code (FlagAssign) delivers it as alone. *)
Theorem C07_flag_set_only_variant_refuted :
  (forall cell r, PipelinePool.write_record PipelinePool.FlagSetOnly cell r =
                  PipelinePool.set_flag r (Ps.unescaped r || Ps.unescaped cell)) /\
  PipelinePoolProofs.streams_eqb
    (PipelinePool.delivered (PipelinePoolProofs.pool_run PipelinePool.FlagSetOnly [] [(None, false); (Some 0%nat, false)]
                               [PipelinePoolProofs.rec_multi; PipelinePoolProofs.rec_escaped]) 1)
    (PipelinePool.delivered (PipelinePoolProofs.alone_run PipelinePoolProofs.rec_escaped) 0) = false /\
  PipelinePoolProofs.streams_eqb
    (PipelinePool.delivered (PipelinePoolProofs.pool_run PipelinePool.FlagAssign [] [(None, false); (Some 0%nat, false)]
                               [PipelinePoolProofs.rec_multi; PipelinePoolProofs.rec_escaped]) 1)
    (PipelinePool.delivered (PipelinePoolProofs.alone_run PipelinePoolProofs.rec_escaped) 0) = true /\
  length (PipelinePool.delivered (PipelinePoolProofs.alone_run PipelinePoolProofs.rec_escaped) 0) = 1%nat.
Proof.
  split; [exact PipelinePoolProofs.write_record_set_only|].
  destruct PipelinePoolProofs.flag_set_only_variant_refuted as (H1 & _ & _ & _ & _ & H6 & H7).
  exact (conj H1 (conj H6 H7)).
Qed.
Print Assumptions C07_flag_set_only_variant_refuted.
