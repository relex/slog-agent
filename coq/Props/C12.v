(* C12 -- Records are isolated from each other despite pooling and buffer reuse.
   Only the property theorems; each is closed by [exact] of a lemma from Proofs/, or by a few lines that
   instantiate one; the example evaluates a closed term.

   Model (Model/Memory.v): record structs and backing buffers live in pools; a history is ANY list of events
   EvParse (with an arbitrary choice of which pooled struct / pooled buffer of the class is handed out, or a new
   one) | EvTransform h | EvOutput h, interleaved in any order over any number of records in flight; strings are
   references (provenance Own r | Fresh r k | Shared site | Static site, offset, length) into that memory; the
   in-place writers (CleanUTF8 in the parser, truncate before its repair) write through them.
   [mem_targets_own c]: processing a single record on a fresh pipeline leaves the shared configuration memory
   untouched.  It holds for every configuration once truncate copies (the code after commit "fix: truncate builds
   the shortened value in a new buffer", c_trunc_mode = TruncCopy), and for the configurations accepted by the
   decidable check [mem_static_targets_own] before that repair.
   [mem_ev_ok]: a record is shorter than 2^31 bytes (the stated maximum of the pool arithmetic). *)
(* Model.MemoryRun (the correspondence entry point) is imported so that building this file also rebuilds it *)
From SV Require Import Model.Common Model.Memory Model.MemoryRun Model.MemoryStores Proofs.MemoryProofs Proofs.MemoryStatic Proofs.MemoryWitnesses
  Proofs.MemoryStoresProofs Model.ParseTime Model.MemoryXfState Proofs.MemoryXfStateProofs.
Open Scope nat_scope.

(* ISOLATION.  In every history (any records before, after and in flight, any order, any pool behaviour) the decoded
   output that output k produces for a record equals the output of that record processed alone on a fresh pipeline:
   the single-record history runs to completion, contains that output, and contains no other for k. *)
Theorem C12_isolation :
  forall c evs g input ts rid k d,
    mem_targets_own c -> 1 <= mem_nout c -> Forall mem_ev_ok evs ->
    mem_run c (mem_init c) evs = StepOk g -> In (rid, input, ts) (g_log g) -> In (rid, k, d) (g_out g) ->
    exists g1, mem_run c (mem_init c) (mem_alone_trace c input ts) = StepOk g1 /\ In (0, k, d) (g_out g1) /\
               forall r' d', In (r', k, d') (g_out g1) -> d' = d.
Proof. exact mem_isolation_alone. Qed.
Print Assumptions C12_isolation.

(* The same between any two histories: equal record (bytes, fallback timestamp) => equal output ... *)
Theorem C12_isolation_any_two_histories :
  forall c evs1 evs2 g1 g2 input ts rid1 rid2 k d1 d2,
    mem_targets_own c -> 1 <= mem_nout c -> Forall mem_ev_ok evs1 -> Forall mem_ev_ok evs2 ->
    mem_run c (mem_init c) evs1 = StepOk g1 -> mem_run c (mem_init c) evs2 = StepOk g2 ->
    In (rid1, input, ts) (g_log g1) -> In (rid2, input, ts) (g_log g2) ->
    In (rid1, k, d1) (g_out g1) -> In (rid2, k, d2) (g_out g2) -> d1 = d2.
Proof. exact mem_isolation_two_runs. Qed.
Print Assumptions C12_isolation_any_two_histories.

(* ... and equal fate (malformed / dropped / passed). *)
Theorem C12_isolation_status :
  forall c evs1 evs2 g1 g2 input ts rid1 rid2 s1 s2,
    mem_targets_own c -> 1 <= mem_nout c -> Forall mem_ev_ok evs1 -> Forall mem_ev_ok evs2 ->
    mem_run c (mem_init c) evs1 = StepOk g1 -> mem_run c (mem_init c) evs2 = StepOk g2 ->
    In (rid1, input, ts) (g_log g1) -> In (rid2, input, ts) (g_log g2) ->
    In (rid1, s1) (g_status g1) -> In (rid2, s2) (g_status g2) -> s1 = s2.
Proof. exact mem_isolation_status. Qed.
Print Assumptions C12_isolation_status.

(* The hypothesis holds for EVERY configuration of the repaired code (truncate copies) ... *)
Theorem C12_targets_own_after_repair : forall c, c_trunc_mode c = TruncCopy -> mem_targets_own c.
Proof. exact mem_copy_mode_targets_own. Qed.
Print Assumptions C12_targets_own_after_repair.

(* ... and, for the code before the repair, for every configuration in which no truncate key is a field that the parser
   or a transform may set to a configuration string, a string constant or an alias of another field (decidable). *)
Theorem C12_targets_own_static : forall c, mem_static_targets_own c = true -> mem_targets_own c.
Proof. exact mem_static_targets_own_sound. Qed.
Print Assumptions C12_targets_own_static.

(* NO DANGLING REFERENCE.  No history dereferences a string that points into another record's memory; in every
   reachable state a pooled struct holds no string and no buffer, every string of a live struct points into that
   record's own memory (or configuration / constants), and the buffer of a live or abandoned struct is not in a pool. *)
Theorem C12_no_dangling :
  forall c evs, mem_targets_own c -> 1 <= mem_nout c -> Forall mem_ev_ok evs ->
    mem_run c (mem_init c) evs <> StepStop Dangling /\
    forall g, mem_run c (mem_init c) evs = StepOk g ->
      forall h s, nth_error (g_slots g) h = Some s ->
        match sl_state s with
        | SInPool => (forall f, In f (r_fields (sl_rec s)) -> f = MEmpty) /\ r_backbuf (sl_rec s) = None
        | SLive l =>
            (forall f o, In f (r_fields (sl_rec s)) -> mem_str_owner f = Some o -> o = l_rid l) /\
            (forall b, r_backbuf (sl_rec s) = Some b -> exists bf, nth_error (g_bufs g) b = Some bf /\ b_free bf = false)
        | SAbandoned => forall b, r_backbuf (sl_rec s) = Some b -> exists bf, nth_error (g_bufs g) b = Some bf /\ b_free bf = false
        end.
Proof.
  intros c evs H1 H2 H3. split; [exact (mem_no_dangling_step c evs H1 H2 H3)|].
  intros g Hrun. exact (mem_no_dangling_state c evs g H1 H2 H3 Hrun).
Qed.
Print Assumptions C12_no_dangling.

(* Two structs never share a backing buffer. *)
Theorem C12_buffers_exclusive :
  forall c evs g, mem_targets_own c -> 1 <= mem_nout c -> Forall mem_ev_ok evs -> mem_run c (mem_init c) evs = StepOk g ->
    forall h1 h2 s1 s2 b, h1 <> h2 -> nth_error (g_slots g) h1 = Some s1 -> nth_error (g_slots g) h2 = Some s2 ->
      r_backbuf (sl_rec s1) = Some b -> r_backbuf (sl_rec s2) = Some b -> False.
Proof. exact mem_buffers_exclusive. Qed.
Print Assumptions C12_buffers_exclusive.

(* POOL CLASSES, the bit arithmetic, for ALL lengths below 2^31: Get(n) takes pool c <= 31 whose buffers (2^c bytes)
   are longer than n and at most twice n; Put returns a buffer of pool c to pool c. *)
Theorem C12_pool_class_sound :
  (forall n, (n < 2 ^ 31)%N ->
     exists c, mem_get_class n = Ok c /\ (c <= 31)%N /\ (n < mem_class_size c)%N /\ (n <> 0%N -> mem_class_size c <= 2 * n)%N /\
               mem_put_class (mem_class_size c) = Ok c) /\
  (forall l k, (1 <= l)%N -> (l < mem_two32)%N -> mem_put_class l = Ok k -> (mem_class_size k <= l)%N).
Proof.
  split.
  - intros n H. destruct (mem_get_class_sound n H) as (c & H1 & H2 & H3 & H4). exists c.
    repeat split; auto. apply mem_put_class_pow2. exact H2.
  - intros l k H1 H2 H3. exact (proj1 (mem_put_class_fits l k H1 H2 H3)).
Qed.
Print Assumptions C12_pool_class_sound.

(* The limit is sharp: lengths from 2^31 up to 2^32 panic (index 32 of 32 pools), and above 2^32 the uint32
   conversion wraps - 2^32+5 would be given an 8-byte buffer. *)
Theorem C12_pool_class_limit :
  (forall n, (2 ^ 31 <= n)%N -> (n < mem_two32)%N -> mem_get_class n = Panic 1%N) /\ mem_get_class (mem_two32 + 5) = Ok 3%N.
Proof. exact (conj mem_get_class_limit mem_get_class_wraps). Qed.
Print Assumptions C12_pool_class_limit.

(* ... and in every reachable state: every buffer has the size of its class and would be Put into that class; the
   buffer attached to a live record is at least as long as the record. *)
Theorem C12_pool_state_sound :
  forall c evs g, mem_targets_own c -> 1 <= mem_nout c -> Forall mem_ev_ok evs -> mem_run c (mem_init c) evs = StepOk g ->
    (forall b bf, nth_error (g_bufs g) b = Some bf ->
       (b_class bf <= 31)%N /\ length (b_data bf) = N.to_nat (mem_class_size (b_class bf)) /\
       mem_put_class (N.of_nat (length (b_data bf))) = Ok (b_class bf)) /\
    (forall h r l b, nth_error (g_slots g) h = Some {| sl_rec := r; sl_state := SLive l |} -> r_backbuf r = Some b ->
       exists bf, nth_error (g_bufs g) b = Some bf /\ l_n l <= length (b_data bf)).
Proof. exact mem_pool_state_sound. Qed.
Print Assumptions C12_pool_state_sound.

(* REFERENCE COUNTS.  Release never finds a negative count; a record that has been serialized for k of the N outputs
   holds N - k references and is recycled exactly at the N-th Release; a struct in the pool has count 0 and every
   field, the length and the timestamp cleared (the Unescaped flag is the one thing Release leaves behind). *)
Theorem C12_refcount_balanced :
  forall c evs, mem_targets_own c -> 1 <= mem_nout c -> Forall mem_ev_ok evs ->
    mem_run c (mem_init c) evs <> StepStop NegativeRefCount /\
    forall g, mem_run c (mem_init c) evs = StepOk g ->
      forall h s, nth_error (g_slots g) h = Some s ->
        match sl_state s with
        | SInPool => mem_pooled_clean c (sl_rec s)
        | SLive l => match l_phase l with
                     | PhParsed => r_refc (sl_rec s) = Z.of_nat (mem_nout c)
                     | PhOut k => k < mem_nout c /\ r_refc (sl_rec s) = Z.of_nat (mem_nout c - k)
                     end
        | SAbandoned => True
        end.
Proof.
  intros c evs H1 H2 H3. split; [exact (mem_refcount_never_negative c evs H1 H2 H3)|].
  intros g Hrun h s Hs. pose proof (mem_refcount_balanced c evs g H1 H2 H3 Hrun h s Hs) as Hb.
  destruct (sl_state s) eqn:E; auto. exact (mem_recycled_clean c evs g H1 H2 H3 Hrun h s Hs E).
Qed.
Print Assumptions C12_refcount_balanced.

(* On DROP (and for a malformed record) Release is called once: with one output the record is recycled; with two
   outputs it keeps one reference for ever, is never recycled and its buffer never returns to the pool (left to the
   garbage collector - harmless for isolation, recorded as an observation about the allocator). *)
Theorem C12_drop_released_once :
  (exists g, mem_run (wit_cfg_drop 1) (mem_init (wit_cfg_drop 1)) [EvParse None None wit_input 1000; EvTransform 0] = StepOk g /\
             wit_slot_states g = [(0, 0%Z)] /\ map b_free (g_bufs g) = [true]) /\
  (exists g, mem_run (wit_cfg_drop 2) (mem_init (wit_cfg_drop 2)) [EvParse None None wit_input 1000; EvTransform 0] = StepOk g /\
             wit_slot_states g = [(2, 1%Z)] /\ map b_free (g_bufs g) = [false]).
Proof. exact (conj wit_drop_one_output wit_drop_two_outputs). Qed.
Print Assumptions C12_drop_released_once.

(* The shared configuration memory is never written. *)
Theorem C12_config_memory_constant :
  forall c evs g, mem_targets_own c -> 1 <= mem_nout c -> Forall mem_ev_ok evs -> mem_run c (mem_init c) evs = StepOk g ->
    g_cfg g = c_cfg_init c /\ g_dirty g = false.
Proof. exact mem_config_memory_constant. Qed.
Print Assumptions C12_config_memory_constant.

(* After the repair NO history of ANY configuration ends with a write to read-only memory (the fatal fault that
   truncate on facility / default level names caused). *)
Theorem C12_no_fault_after_repair :
  forall c evs, c_trunc_mode c = TruncCopy -> mem_run c (mem_init c) evs <> StepStop Fault.
Proof. intros c evs H. exact (mem_run_copy_no_fault c evs (mem_init c) H). Qed.
Print Assumptions C12_no_fault_after_repair.

(* No history of any configuration ends with a Go panic inside the parser or a transform: the in-place helpers
   (OverwriteNTruncate, CleanUTF8, truncate in either form) never slice out of range, and the parser's first-token slice
   has been repaired (property C09). *)
Theorem C12_no_go_panic :
  forall c evs g s, mem_run c g evs <> StepStop (GoPanic s).
Proof. exact mem_run_no_gopanic. Qed.
Print Assumptions C12_no_go_panic.

(* LONG-LIVED STORES (pipeline key sets, metric key sets) keep deep copies: a store of copies reads the same in every
   state of the pipeline, whatever happens to records, buffers and pools afterwards; routing a record either finds its
   key bytes or appends exactly these bytes. *)
Theorem C12_stores_keep_copies :
  (forall st g g', mem_store_copied st -> mem_store_view g st = mem_store_view g' st) /\
  (forall g st h keys st' i, mem_store_copied st -> mem_store_route KeepCopy g st h keys = Some (st', i) ->
     mem_store_copied st' /\ exists kf, mem_key_fields g h keys = Some kf /\
       ((st' = st /\ mem_store_find g st (map fst kf) 0 = Some i) \/
        (mem_store_find g st (map fst kf) 0 = None /\ i = length st /\ mem_store_view g st' = mem_store_view g st ++ [map fst kf]))).
Proof. exact (conj mem_store_view_stable mem_store_route_copy). Qed.
Print Assumptions C12_stores_keep_copies.

(* REFUTED for a store that would keep the record's strings instead of copies: record A ("appA") creates key set 0 and is
   released; record B ("appB") is given A's buffer; the stored key now reads "appB", B is routed to A's pipeline and the
   key set "appA" no longer exists.  With copies B gets key set 1 and "appA" stays. *)
Theorem C12_store_reference_refuted :
  wit_route_then KeepCopy = Some ([[[97;112;112;65]%N]], 0, [[[97;112;112;65]%N]; [[97;112;112;66]%N]], 1) /\
  wit_route_then KeepRef  = Some ([[[97;112;112;65]%N]], 0, [[[97;112;112;66]%N]], 0).
Proof. exact wit_store_copy_vs_ref. Qed.
Print Assumptions C12_store_reference_refuted.

(* REFUTED for the code before the repair (truncate in place), without the hypothesis: addFields x1: "abc(EURO)defghijk"
   then truncate x1 to 5 bytes + "..": the same record twice gives "abc.." and then "abc....", and the configuration
   string is modified (replayed on the real code before the fix: corpus/C12). *)
Theorem C12_truncate_shared_refuted :
  exists g, mem_run (wit_cfg TruncInPlace) (mem_init (wit_cfg TruncInPlace)) wit_events = StepOk g /\
            wit_x1_of g 0 = [[97;98;99;46;46]%N] /\ wit_x1_of g 1 = [[97;98;99;46;46;46;46]%N] /\
            g_cfg g <> c_cfg_init (wit_cfg TruncInPlace) /\ g_dirty g = true.
Proof. exact wit_inplace_run. Qed.
Print Assumptions C12_truncate_shared_refuted.

(* REFUTED likewise: truncate on "facility", a Go string constant, is a write to read-only memory: the process dies. *)
Theorem C12_truncate_static_fault_refuted :
  mem_run (wit_cfg_facility TruncInPlace) (mem_init (wit_cfg_facility TruncInPlace))
          [EvParse None None wit_input 1000; EvTransform 0] = StepStop Fault.
Proof. exact wit_facility_fault. Qed.
Print Assumptions C12_truncate_static_fault_refuted.

(* REFUTED for the code BEFORE the repair of the unescape rewriter (commit "fix: the unescape rewriter no longer sets
   record.Unescaped", property C10; model parameter c_rw_sets_flag = true): with two outputs that rewrite "log" with
   unescape the second one was not unescaped ("a\nb" stays) - the bytes of one output depended on the presence of
   another.  The repaired code (c_rw_sets_flag = false, what the correspondence runs against) unescapes both. *)
Theorem C12_unescape_flag_before_repair_refuted :
  (exists g, mem_run (wit_cfg_flag true) (mem_init (wit_cfg_flag true))
                     [EvParse None None wit_escaped 1000; EvTransform 0; EvOutput 0; EvOutput 0] = StepOk g /\
             wit_log_of g 0 = [[97;10;98;32]%N] /\ wit_log_of g 1 = [[97;92;110;98]%N]) /\
  (exists g, mem_run (wit_cfg_flag false) (mem_init (wit_cfg_flag false))
                     [EvParse None None wit_escaped 1000; EvTransform 0; EvOutput 0; EvOutput 0] = StepOk g /\
             wit_log_of g 0 = [[97;10;98;32]%N] /\ wit_log_of g 1 = [[97;10;98;32]%N]).
Proof. exact (conj wit_flag_shared wit_flag_not_shared). Qed.
Print Assumptions C12_unescape_flag_before_repair_refuted.

(* NON-VACUITY.  The hypotheses are met by concrete, non-trivial instances: (1) the repaired code on the very
   configuration that refutes the unrepaired one - the second record reuses struct 0 and buffer 0 of the first and
   both get "abc.."; (2) the unrepaired code on a configuration accepted by the static check, with two records in
   flight, two outputs, and a third record (same bytes as the first) on recycled memory getting the same outputs. *)
Theorem C12_example :
  (mem_targets_own (wit_cfg TruncCopy) /\ 1 <= mem_nout (wit_cfg TruncCopy) /\ Forall mem_ev_ok wit_events /\
   exists g, mem_run (wit_cfg TruncCopy) (mem_init (wit_cfg TruncCopy)) wit_events = StepOk g /\
             wit_x1_of g 0 = [[97;98;99;46;46]%N] /\ wit_x1_of g 1 = [[97;98;99;46;46]%N] /\
             g_cfg g = c_cfg_init (wit_cfg TruncCopy) /\ length (g_slots g) = 1 /\ length (g_bufs g) = 1 /\ g_next_rid g = 2) /\
  (mem_targets_own (wit_cfg_own TruncInPlace) /\ mem_static_targets_own (wit_cfg TruncInPlace) = false /\
   exists g, mem_run (wit_cfg_own TruncInPlace) (mem_init (wit_cfg_own TruncInPlace)) wit_events2 = StepOk g /\
             length (g_out g) = 6 /\ g_next_rid g = 3 /\ length (g_slots g) = 2 /\
             map snd (filter (fun e => Nat.eqb (fst (fst e)) 0) (g_out g)) = map snd (filter (fun e => Nat.eqb (fst (fst e)) 2) (g_out g))).
Proof.
  split.
  - split; [apply mem_copy_mode_targets_own; reflexivity|]. split; [cbn; auto|]. split; [|exact wit_copy_run].
    repeat constructor; vm_compute; reflexivity.
  - split; [apply mem_static_targets_own_sound; exact wit_static_own|]. split; [exact wit_static_shared|exact wit_own_run].
Qed.
Print Assumptions C12_example.

(* ---------------------------------------------------------------------------------------------------------------
   STATE OF A TRANSFORM INSTANCE (Model/MemoryXfState.v).  A transform object lives as long as its pipeline; parseTime
   keeps a cache  zone string -> location  (and a seeded variant keeps the last parsed string and its result).
   [pt_copies cfg]: what the instance keeps are copies - the code after "fix: parseTime keeps its own copy of a timezone
   string used as cache key" (no shortcut), or a shortcut that copies.  [pt_hash cfg] (where a Go map files a key) is
   arbitrary.  Histories: any interleaving of the events of Model/Memory.v (Parse with any choice of pooled struct and
   pooled buffer, the other transformations, outputs, releases) with parseTime calls on live records; the ghost log
   holds (value read from the record's "time" field, result).
   --------------------------------------------------------------------------------------------------------------- *)

(* In EVERY history of EVERY configuration each parseTime call returned what the stateless transform of property C13
   returns for the value it read - equivalently what a NEW instance (fresh pipeline) returns for that record alone, on any
   heap and through any reference: nothing an earlier record left in the instance shows in a later one. *)
Theorem C12_transform_state_isolated :
  forall c cfg key evs s,
    pt_copies cfg -> pt_sys_run c cfg key (pt_sys_init c) evs = Some s ->
    Forall (fun e => snd e = transform_parse_time (pt_local_off cfg) (fst e) /\
                     forall g0 ref0, snd e = snd (pt_apply cfg g0 pt_init (fst e) ref0)) (xs_log s).
Proof. exact pt_history_isolated. Qed.
Print Assumptions C12_transform_state_isolated.

(* One call, in any state an instance of copies can be in ([pt_inv]: reachable states satisfy it, the new instance does),
   on ANY heap g - whatever has happened to records, buffers and pools since the state was built: the result is that of
   the stateless transform, and the instance remains one of copies; the call changes nothing of the pipeline state but the
   record's timestamp. *)
Theorem C12_transform_state_one_call :
  (forall cfg, pt_inv cfg pt_init) /\
  (forall cfg g st v ref st' r, pt_copies cfg -> pt_inv cfg st -> pt_apply cfg g st v ref = (st', r) ->
     r = transform_parse_time (pt_local_off cfg) v /\ pt_inv cfg st') /\
  (forall cfg g st h key st' r v g', pt_transform cfg g st h key = Some (st', r, v, g') ->
     g' = match r with TpSet u n => pt_set_ts g h (pt_ts_code u n) | _ => g end) /\
  (forall g h ts, let g' := pt_set_ts g h ts in
     g_bufs g' = g_bufs g /\ g_cfg g' = g_cfg g /\ g_dirty g' = g_dirty g /\ g_out g' = g_out g /\ g_log g' = g_log g /\
     g_status g' = g_status g /\ g_next_rid g' = g_next_rid g /\ map pt_slot_rest (g_slots g') = map pt_slot_rest (g_slots g)).
Proof. exact (conj pt_inv_init (conj pt_apply_isolated (conj pt_transform_ts pt_set_ts_frame))). Qed.
Print Assumptions C12_transform_state_one_call.

(* REFUTED for an instance that remembers the last parsed string WITHOUT copying it (the seeded change): record A
   ("...15:50:46+03:00", pooled) is parsed, serialized and released; record B ("...15:50:47+05:00") gets A's struct and A's
   buffer; the remembered string now reads B's bytes, the comparison is true and B is given A's instant - in the result and
   in the serialized output.  Alone, B gets 1565866247 (10:50:47Z). *)
Theorem C12_transform_state_last_value_ref_refuted :
  transform_parse_time 0 (firstn 25 (skipn 7 xw_rec_b)) = TpSet 1565866247 0 /\
  xw_run (xw_cfg KeepCopy (Some KeepRef) (fun _ => 0%N)) xw_rec_b
    = Some ([TpSet 1565873446 0; TpSet 1565873446 0], [1565873446000000000; 1565873446000000000]%Z).
Proof. exact (conj (proj2 xw_alone) xw_last_ref_run). Qed.
Print Assumptions C12_transform_state_last_value_ref_refuted.

(* REFUTED for the code BEFORE the fix (timezoneCache[tzStr] with tzStr a substring of the record), when the map files
   "+03:00" and "+05:00" in the same place: the entry of A, whose key now reads "+05:00", is found for B and B's instant is
   computed with A's zone, two hours off.  With a filing function that separates the two strings the stale entry is not
   found: the defect needs a collision (reproduced on the real code: 51 of 3000 pooled records with 1500 distinct zones). *)
Theorem C12_transform_state_zone_key_ref_refuted :
  xw_run (xw_cfg KeepRef None (fun _ => 0%N)) xw_rec_b
    = Some ([TpSet 1565873446 0; TpSet 1565873447 0], [1565873446000000000; 1565873447000000000]%Z) /\
  xw_run (xw_cfg KeepRef None (fun b => N.of_nat (length b) + nth 2 b 0)%N) xw_rec_b
    = Some ([TpSet 1565873446 0; TpSet 1565866247 0], [1565873446000000000; 1565866247000000000]%Z).
Proof. exact (conj xw_zone_ref_run xw_zone_ref_no_collision). Qed.
Print Assumptions C12_transform_state_zone_key_ref_refuted.

(* NON-VACUITY: the hypothesis [pt_copies] is met by the repaired code and by a copying shortcut, even with the worst
   filing function (everything collides); on the same two-record history with struct and buffer reuse both records get
   their own instants, in the results and in the serialized outputs. *)
Theorem C12_transform_state_example :
  pt_copies (xw_cfg KeepCopy None (fun _ => 0%N)) /\ pt_copies (xw_cfg KeepCopy (Some KeepCopy) (fun _ => 0%N)) /\
  xw_run (xw_cfg KeepCopy None (fun _ => 0%N)) xw_rec_b
    = Some ([TpSet 1565873446 0; TpSet 1565866247 0], [1565873446000000000; 1565866247000000000]%Z) /\
  xw_run (xw_cfg KeepCopy (Some KeepCopy) (fun _ => 0%N)) xw_rec_b
    = Some ([TpSet 1565873446 0; TpSet 1565866247 0], [1565873446000000000; 1565866247000000000]%Z).
Proof. exact xw_copy_run. Qed.
Print Assumptions C12_transform_state_example.
