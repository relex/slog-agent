(* C08 - Record framing is independent of TCP segmentation and flush timing.
   Only the property theorems; each is closed by [exact] of lemmas from Proofs/FramingProofs.v,
   Proofs/FramingVariantProofs.v (10, 11) and Proofs/C08GenEquiv.v (12).

   Model:  Model/Framing.v   (multiLineReader Read / processBuffer / checkOverflow / Flush / FlushAll,
                               the runConnection glue conn_ops, TestRecordStart, NetConnWrapper.Read)
   Spec:   Spec/FramingSpec.v (split the stream at newlines, group the lines; no buffers, no reads)

   Notation of the side conditions:
     limit = softRecordLimit (defs.InputLogMaxRecordBytes), cap = max minBufferSize (3*limit) = len(buffer)
     seg_bound test b s : every segment of the stream s (record, or block of garbage lines) has at most b bytes
     2*b + 1 + limit <= cap : room for two such segments, a newline and one more record;
                             with b = limit this is cap >= 3*limit + 1 (production: cap = 4*limit). *)
From SV Require Import Model.Common Model.Framing Spec.FramingSpec Proofs.FramingProofs.
From SV Require Import Model.FramingVariants Proofs.FramingVariantProofs.
From SV Require Model.GoSem Gen.C08Gen Proofs.C08GenEquiv.
Open Scope nat_scope.

(* 1. Fragmentation independence.  For EVERY tester, EVERY stream (newline-terminated or not)
   and EVERY way of cutting it into read fragments (of any size, empty ones included, fragments
   larger than the free room are taken by several Read calls), reading the fragments and closing
   delivers exactly the records of the line-based reference framer: each once, in order. *)
Theorem C08_frag_independent :
  forall (test : bytes -> bool) (min_buf limit b : nat) (fs : list bytes),
  1 <= limit -> 2 * b + 1 + limit <= Nat.max min_buf (limit * 3) ->
  seg_bound test b (concat fs) ->
  exists st', run_ops test (map OpRead fs ++ [OpFlushAll]) (new_mlr min_buf limit) [] =
              Ok (st', frame test (concat fs)).
Proof. exact frag_independent_lemma. Qed.
Print Assumptions C08_frag_independent.

(* the same, said for two fragmentations of one stream *)
Theorem C08_frag_pair :
  forall (test : bytes -> bool) (min_buf limit b : nat) (fs1 fs2 : list bytes),
  1 <= limit -> 2 * b + 1 + limit <= Nat.max min_buf (limit * 3) ->
  concat fs1 = concat fs2 -> seg_bound test b (concat fs1) ->
  exists st1 st2 out,
    run_ops test (map OpRead fs1 ++ [OpFlushAll]) (new_mlr min_buf limit) [] = Ok (st1, out) /\
    run_ops test (map OpRead fs2 ++ [OpFlushAll]) (new_mlr min_buf limit) [] = Ok (st2, out).
Proof. exact frag_pair_lemma. Qed.
Print Assumptions C08_frag_pair.

(* as runConnection drives the reader: a connection whose reads never time out and never renew
   the deadline, then an error / EOF *)
Theorem C08_connection_frag_independent :
  forall (test : bytes -> bool) (min_buf limit b : nat) (fs : list bytes),
  1 <= limit -> 2 * b + 1 + limit <= Nat.max min_buf (limit * 3) ->
  seg_bound test b (concat fs) ->
  exists st', run_ops test (conn_ops (map (fun f => EvData f false) fs)) (new_mlr min_buf limit) [] =
              Ok (st', frame test (concat fs)).
Proof. exact conn_frag_independent_lemma. Qed.
Print Assumptions C08_connection_frag_independent.

(* 2. Every script of reads, flushes and closes (any order, any number) delivers what the
   specification with flushes says: a flush cuts the text received since the last cut at its
   last newline and frames the part before the cut on its own; reads only concatenate.
   [flush_ok]: the tester rejects the empty string (both testers do), or no Flush is used. *)
Theorem C08_script_characterisation :
  forall (test : bytes -> bool) (min_buf limit b : nat) (ops : list op),
  flush_ok test ops -> 1 <= limit -> 2 * b + 1 + limit <= Nat.max min_buf (limit * 3) ->
  bounded_ops test b [] ops ->
  exists st', run_ops test ops (new_mlr min_buf limit) [] = Ok (st', spec_ops test [] ops).
Proof. exact script_lemma. Qed.
Print Assumptions C08_script_characterisation.

(* 2'. The same with the simple side condition: the segments of the stream AS A WHOLE (framed
   without any flush) are at most b bytes - flushes only make segments shorter.  For every
   connection script (reads and flushes in any order, then the close). *)
Theorem C08_script_characterisation_stream :
  forall (test : bytes -> bool) (min_buf limit b : nat) (ops : list op),
  test [] = false -> 1 <= limit -> 2 * b + 1 + limit <= Nat.max min_buf (limit * 3) ->
  no_flush_all ops -> seg_bound test b (ops_text ops) ->
  exists st', run_ops test (ops ++ [OpFlushAll]) (new_mlr min_buf limit) [] =
              Ok (st', spec_ops test [] (ops ++ [OpFlushAll])).
Proof. exact script_stream_lemma. Qed.
Print Assumptions C08_script_characterisation_stream.

(* 2''. Fragmentation independence with flush ticks at any positions: the same text between the
   same ticks (fss = the runs of reads between consecutive flushes, last = the reads before the
   close), cut into reads in any two ways, gives the same records. *)
Theorem C08_frag_independent_between_ticks :
  forall (test : bytes -> bool) (min_buf limit b : nat) (fss1 fss2 : list (list bytes)) (last1 last2 : list bytes),
  test [] = false -> 1 <= limit -> 2 * b + 1 + limit <= Nat.max min_buf (limit * 3) ->
  map (@concat N) fss1 = map (@concat N) fss2 -> concat last1 = concat last2 ->
  seg_bound test b (concat (map (@concat N) fss1) ++ concat last1) ->
  exists st1 st2 out,
    run_ops test (script_of fss1 ++ map OpRead last1 ++ [OpFlushAll]) (new_mlr min_buf limit) [] = Ok (st1, out) /\
    run_ops test (script_of fss2 ++ map OpRead last2 ++ [OpFlushAll]) (new_mlr min_buf limit) [] = Ok (st2, out).
Proof. exact frag_independent_ticks_lemma. Qed.
Print Assumptions C08_frag_independent_between_ticks.

(* 3. Flush-timing independence for streams of single-line records: if every line is a
   non-empty record start of at most b bytes, then EVERY interleaving of reads (any
   fragmentation) and flushes (any positions, any number), followed by the close, delivers
   exactly the lines. *)
Theorem C08_single_line_flush_independent :
  forall (test : bytes -> bool) (min_buf limit b : nat) (ls : list bytes) (ops : list op),
  test [] = false -> 1 <= limit -> 2 * b + 1 + limit <= Nat.max min_buf (limit * 3) ->
  Forall (valid_line test b) ls -> no_flush_all ops -> ops_text ops = unlines ls ->
  exists st', run_ops test (ops ++ [OpFlushAll]) (new_mlr min_buf limit) [] = Ok (st', ls).
Proof. exact single_line_lemma. Qed.
Print Assumptions C08_single_line_flush_independent.

(* 3'. As runConnection drives the reader, for EVERY sequence of read results (data with or
   without a deadline renewal, timeouts, finally an error): the records are those of the
   specification with flushes; and for a stream of single-line records they are the lines,
   whatever the timing.  [ops_text (conn_ops evs)] is the text received before the close. *)
Theorem C08_connection_characterisation :
  forall (test : bytes -> bool) (min_buf limit b : nat) (evs : list event),
  test [] = false -> 1 <= limit -> 2 * b + 1 + limit <= Nat.max min_buf (limit * 3) ->
  seg_bound test b (ops_text (conn_ops evs)) ->
  exists st', run_ops test (conn_ops evs) (new_mlr min_buf limit) [] =
              Ok (st', spec_ops test [] (conn_ops evs)).
Proof. exact conn_characterisation_lemma. Qed.
Print Assumptions C08_connection_characterisation.

Theorem C08_connection_single_line :
  forall (test : bytes -> bool) (min_buf limit b : nat) (ls : list bytes) (evs : list event),
  test [] = false -> 1 <= limit -> 2 * b + 1 + limit <= Nat.max min_buf (limit * 3) ->
  Forall (valid_line test b) ls -> ops_text (conn_ops evs) = unlines ls ->
  exists st', run_ops test (conn_ops evs) (new_mlr min_buf limit) [] = Ok (st', ls).
Proof. exact conn_single_line_lemma. Qed.
Print Assumptions C08_connection_single_line.

(* 4. Continuation lines: a line c that is no record start and directly follows a record
   start line l comes out in the same record as l, whatever the fragmentation, when no flush
   occurs (the tester only looks at the head of a record: test a -> test (a ++ z)). *)
Theorem C08_continuation_attached :
  forall (test : bytes -> bool) (min_buf limit b : nat) (fs : list bytes) (x l c y : bytes),
  1 <= limit -> 2 * b + 1 + limit <= Nat.max min_buf (limit * 3) ->
  (forall a z, test a = true -> test (a ++ z) = true) ->
  concat fs = x ++ l ++ NL :: c ++ NL :: y ->
  seg_bound test b (concat fs) ->
  (x = [] \/ exists x', x = x' ++ [NL]) ->
  nonl l -> is_start test l = true -> nonl c -> is_start test c = false ->
  exists st' out more,
    run_ops test (map OpRead fs ++ [OpFlushAll]) (new_mlr min_buf limit) [] = Ok (st', out) /\
    In (l ++ NL :: c ++ more) out.
Proof. exact continuation_attached_lemma. Qed.
Print Assumptions C08_continuation_attached.

(* 4'. The third sentence of the property at full strength: flushes may fall anywhere EXCEPT
   between the arrival of the end of the start line l = l1 ++ l2 and the end of the continuation
   line c (the reads fs, any fragmentation, bring the rest of l, c and whatever follows without
   a flush in between; ops1 - reads and flushes - ends somewhere inside or just before l,
   ops2 is arbitrary, then the connection closes): l and c come out in one record. *)
Theorem C08_continuation_attached_flushes :
  forall (test : bytes -> bool) (min_buf limit b : nat) (ops1 : list op) (fs : list bytes) (ops2 : list op)
         (x l1 l2 c z : bytes),
  test [] = false -> (forall a y, test a = true -> test (a ++ y) = true) ->
  1 <= limit -> 2 * b + 1 + limit <= Nat.max min_buf (limit * 3) ->
  no_flush_all ops1 -> no_flush_all ops2 ->
  seg_bound test b (ops_text (ops1 ++ map OpRead fs ++ ops2)) ->
  ops_text ops1 = x ++ l1 -> (x = [] \/ exists x', x = x' ++ [NL]) ->
  concat fs = l2 ++ NL :: c ++ NL :: z ->
  nonl (l1 ++ l2) -> is_start test (l1 ++ l2) = true -> nonl c -> is_start test c = false ->
  exists st' out more,
    run_ops test (ops1 ++ map OpRead fs ++ ops2 ++ [OpFlushAll]) (new_mlr min_buf limit) [] = Ok (st', out) /\
    In ((l1 ++ l2) ++ NL :: c ++ more) out.
Proof. exact continuation_flushes_stream_lemma. Qed.
Print Assumptions C08_continuation_attached_flushes.

(* ... and theorem 4 needs its "no flush" (documentation of the boundary of the property, not a
   finding): a flush between a record and its continuation line detaches the line. *)
Theorem C08_flush_splits_refuted :
  exists min_buf limit b f1 f2,
    1 <= limit /\ 2 * b + 1 + limit <= Nat.max min_buf (limit * 3) /\ seg_bound gt_test b (f1 ++ f2) /\
    exists st out,
      run_ops gt_test [OpRead f1; OpFlush; OpRead f2; OpFlushAll] (new_mlr min_buf limit) [] = Ok (st, out) /\
      out <> frame gt_test (f1 ++ f2).
Proof. exact flush_splits_lemma. Qed.
Print Assumptions C08_flush_splits_refuted.

(* 5. Never full, no panic, no busy loop - for ALL testers, ALL streams (overflowing ones
   included), ALL scripts: every operation returns normally (no slice/index panic, the read
   loop never finds the buffer full), and afterwards either at least [limit] bytes are free
   or the buffer is empty.  (Stated for every script, hence after every operation.) *)
Theorem C08_never_full :
  forall (test : bytes -> bool) (min_buf limit : nat) (ops : list op),
  1 <= limit ->
  exists st' out, run_ops test ops (new_mlr min_buf limit) [] = Ok (st', out) /\
    length (m_buf st') <= m_cap st' /\
    (m_limit st' <= m_cap st' - length (m_buf st') \/ m_buf st' = []) /\
    m_cap st' = Nat.max min_buf (limit * 3) /\ m_limit st' = limit.
Proof. exact total_lemma. Qed.
Print Assumptions C08_never_full.

(* 6. The hypotheses are needed (stated boundaries, not findings).
   (a) With the smallest buffer the constructor allows, cap = 3*limit, records of exactly
       [limit] bytes make checkOverflow fire and a spurious empty record appears: the theorems
       ask for cap >= 2*b+1+limit (production has cap = 4*limit). *)
Theorem C08_cap3_boundary_refuted :
  exists min_buf limit fs,
    1 <= limit /\ Nat.max min_buf (limit * 3) = limit * 3 /\ seg_bound gt_test limit (concat fs) /\
    exists st out,
      run_ops gt_test (map OpRead fs ++ [OpFlushAll]) (new_mlr min_buf limit) [] = Ok (st, out) /\
      out <> frame gt_test (concat fs).
Proof. exact cap3_boundary_lemma. Qed.
Print Assumptions C08_cap3_boundary_refuted.

(* (b) A segment above the bound: the records do depend on the fragmentation (soft limit). *)
Theorem C08_oversize_frag_dependent_refuted :
  exists min_buf limit fs1 fs2,
    1 <= limit /\ concat fs1 = concat fs2 /\
    exists st1 out1 st2 out2,
      run_ops gt_test (map OpRead fs1 ++ [OpFlushAll]) (new_mlr min_buf limit) [] = Ok (st1, out1) /\
      run_ops gt_test (map OpRead fs2 ++ [OpFlushAll]) (new_mlr min_buf limit) [] = Ok (st2, out2) /\
      out1 <> out2.
Proof. exact oversize_lemma. Qed.
Print Assumptions C08_oversize_frag_dependent_refuted.

(* 7. TestRecordStart: total (no index panic on any byte string) and exactly the documented
   shape: "<" 1-3 digits ">1 " in a string of at least 32 bytes; it only looks at the head. *)
Theorem C08_test_record_start_total : forall s : bytes, exists b, test_record_start s = Ok b.
Proof. exact trs_total_lemma. Qed.
Print Assumptions C08_test_record_start_total.

Theorem C08_test_record_start_shape : forall s : bytes, test_record_start s = Ok true <-> start_shape s.
Proof. exact trs_shape_lemma. Qed.
Print Assumptions C08_test_record_start_shape.

Theorem C08_test_record_start_prefix :
  trs [] = false /\ forall a z : bytes, trs a = true -> trs (a ++ z) = true.
Proof. exact (conj trs_nil trs_prefix_lemma). Qed.
Print Assumptions C08_test_record_start_prefix.

(* 8. NetConnWrapper: after a renewal at t0 (deadline t0 + 2*readTimeout) no Read within the
   next readTimeout renews the deadline, so runConnection makes no deadline-update Flush in
   that time (times in ms, gaps >= 0 between consecutive reads). *)
Theorem C08_deadline_renewals_spaced :
  forall (gaps : list Z) (w : ncw) (t0 now : Z),
  (0 < w_min w)%Z -> w_max w = (w_min w * 2)%Z -> w_deadline w = Some (t0 + w_max w)%Z ->
  (t0 <= now)%Z -> Forall (fun g => (0 <= g)%Z) gaps ->
  (now + fold_right Z.add 0%Z gaps <= t0 + w_min w)%Z ->
  ncw_run w now gaps = map (fun _ => false) gaps.
Proof. exact ncw_quiet_lemma. Qed.
Print Assumptions C08_deadline_renewals_spaced.

(* 9. The run compared with the Go code step by step (run_ops_tr) is the run of the theorems. *)
Theorem C08_traced_run_is_run :
  forall (test : bytes -> bool) (ops : list op) (st : mlr) (out : list bytes) (tr : list (nat * nat * nat)),
  forget_trace (run_ops_tr test ops st out tr) = run_ops test ops st out.
Proof. exact run_ops_tr_lemma. Qed.
Print Assumptions C08_traced_run_is_run.

(* Non-vacuity: two syslog records, the first with a continuation line, limit 64 and a buffer
   of 256 bytes (production ratio 4:1), cut inside the header, just before and just after a
   newline, inside the relocated tail, with an empty read: the hypotheses of theorem 1 hold and
   the records are the multi-line record and the single-line one. *)
Theorem C08_example :
  concat ex_frags = ex_stream /\ seg_bound trs 64 ex_stream /\ 2 * 64 + 1 + 64 <= Nat.max 256 (64 * 3) /\
  frame trs ex_stream = [ex_r1 ++ NL :: ex_c1; ex_r2] /\
  exists st, run_ops trs (map OpRead ex_frags ++ [OpFlushAll]) (new_mlr 256 64) [] =
             Ok (st, [ex_r1 ++ NL :: ex_c1; ex_r2]).
Proof. exact example_lemma. Qed.
Print Assumptions C08_example.

(* ... and the hypotheses of theorems 2' and 4' (scripts with flushes): the same stream with a
   flush inside the first header and another one after the head of the second record. *)
Theorem C08_example_flushes :
  trs [] = false /\ no_flush_all ex_ops1 /\ no_flush_all ex_ops2 /\
  seg_bound trs 64 (ops_text (ex_ops1 ++ map OpRead ex_fs ++ ex_ops2)) /\
  ops_text ex_ops1 = [] ++ firstn 3 ex_r1 /\
  concat ex_fs = skipn 3 ex_r1 ++ NL :: ex_c1 ++ NL :: firstn 9 ex_r2 /\
  nonl (firstn 3 ex_r1 ++ skipn 3 ex_r1) /\ is_start trs (firstn 3 ex_r1 ++ skipn 3 ex_r1) = true /\
  nonl ex_c1 /\ is_start trs ex_c1 = false /\
  exists st, run_ops trs (ex_ops1 ++ map OpRead ex_fs ++ ex_ops2 ++ [OpFlushAll]) (new_mlr 256 64) [] =
             Ok (st, [ex_r1 ++ NL :: ex_c1; ex_r2]).
Proof. exact example_flush_lemma. Qed.
Print Assumptions C08_example_flushes.

(* 10. Byte-exactness: the ONLY bytes of the stream that are not handed to the consumer are the
   newlines separating the records (and the bytes of a trailing segment that is no record).
   (a) the reference framer: its records - plus, possibly, the one segment still open at the end of the
       stream that the tester rejects - each followed by one newline, ARE the stream (plus the newline a
       missing final terminator would have been).  No CR, NUL, blank ... is trimmed anywhere. *)
Theorem C08_reference_framer_byte_exact :
  forall (test : bytes -> bool) (s : bytes),
  exists dropped pad,
    (dropped = [] \/ exists x, dropped = [x] /\ test x = false) /\ (pad = [] \/ pad = [NL]) /\
    unlines (frame test s ++ dropped) = s ++ pad.
Proof. exact frame_cover. Qed.
Print Assumptions C08_reference_framer_byte_exact.

(* (b) the reader, for every tester, stream and fragmentation (side conditions of theorem 1) *)
Theorem C08_records_byte_exact :
  forall (test : bytes -> bool) (min_buf limit b : nat) (fs : list bytes),
  1 <= limit -> 2 * b + 1 + limit <= Nat.max min_buf (limit * 3) ->
  seg_bound test b (concat fs) ->
  exists st' out dropped pad,
    run_ops test (map OpRead fs ++ [OpFlushAll]) (new_mlr min_buf limit) [] = Ok (st', out) /\
    (dropped = [] \/ exists x, dropped = [x] /\ test x = false) /\ (pad = [] \/ pad = [NL]) /\
    unlines (out ++ dropped) = concat fs ++ pad.
Proof. exact records_byte_exact_lemma. Qed.
Print Assumptions C08_records_byte_exact.

(* 11. The emission sites.  A record reaches the consumer from processBuffer (next record start seen),
   Flush (tick), FlushAll (close) or checkOverflow; WHICH one is decided by segmentation and flush timing.
   Model/FramingVariants.v is the reader with a switch per site for trimming one trailing CR.
   (a) with every switch off it is the model of all theorems above, for every script; *)
Theorem C08_emission_sites_variant_is_model :
  forall (test : bytes -> bool) (ops : list op) (st : mlr) (out : list bytes),
  run_ops_v test no_trim ops st out = run_ops test ops st out.
Proof. exact variant_none_is_model. Qed.
Print Assumptions C08_emission_sites_variant_is_model.

(* (b) the variant trimming in processBuffer and FlushAll but not in Flush ("CRLF tolerance" added at the
       two places where the trailing newline is cut) violates theorem 3: a stream of valid single-line
       records, the same text, two flush schedules, different records - and not the lines; *)
Theorem C08_cr_trim_variant_refuted :
  exists (min_buf limit b : nat) (ls : list bytes) (ops1 ops2 : list op),
    1 <= limit /\ 2 * b + 1 + limit <= Nat.max min_buf (limit * 3) /\
    Forall (valid_line gt_test b) ls /\ no_flush_all ops1 /\ no_flush_all ops2 /\
    ops_text ops1 = unlines ls /\ ops_text ops2 = unlines ls /\
    exists st1 out1 st2 out2,
      run_ops_v gt_test seeded_trim (ops1 ++ [OpFlushAll]) (new_mlr min_buf limit) [] = Ok (st1, out1) /\
      run_ops_v gt_test seeded_trim (ops2 ++ [OpFlushAll]) (new_mlr min_buf limit) [] = Ok (st2, out2) /\
      out1 <> out2 /\ out2 <> ls.
Proof. exact cr_trim_variant_lemma. Qed.
Print Assumptions C08_cr_trim_variant_refuted.

(* (c) and trimming at all three sites violates 10(b): a byte of the stream is lost. *)
Theorem C08_cr_trim_all_sites_refuted :
  exists (min_buf limit b : nat) (fs : list bytes),
    1 <= limit /\ 2 * b + 1 + limit <= Nat.max min_buf (limit * 3) /\ seg_bound gt_test b (concat fs) /\
    exists st out,
      run_ops_v gt_test all_trim (map OpRead fs ++ [OpFlushAll]) (new_mlr min_buf limit) [] = Ok (st, out) /\
      forall dropped pad, unlines (out ++ dropped) <> concat fs ++ pad.
Proof. exact cr_trim_all_not_exact_lemma. Qed.
Print Assumptions C08_cr_trim_all_sites_refuted.

(* 12. The tie to the SOURCE: Gen/C08Gen.v is regenerated by tools/go2coq from
   input/syslogprotocol/recordtest.go on every check.  For every byte string the generated Gallina
   function returns what the hand-written model [test_record_start] returns (panics included), and the
   fuel it supplies to its loop is never exhausted.  A change of TestRecordStart's behaviour changes the
   generated term and breaks this proof, whether or not a generated test case hits the change. *)
Theorem C08_generated_TestRecordStart_agrees :
  forall s : bytes,
    GoSem.same_result (test_record_start s) (C08Gen.TestRecordStart s) /\
    GoSem.is_out_of_fuel (C08Gen.TestRecordStart s) = false.
Proof. exact (fun s => conj (C08GenEquiv.trs_gen_agrees s) (C08GenEquiv.trs_gen_fuel s)). Qed.
Print Assumptions C08_generated_TestRecordStart_agrees.

(* ... hence theorem 7 holds of the generated function itself: on every byte string it returns a value
   (no index panic, fuel suffices), and it says true exactly on the documented header shape. *)
Theorem C08_generated_TestRecordStart_shape :
  forall s : bytes,
    (exists b, C08Gen.TestRecordStart s = GoSem.GOk b) /\
    (C08Gen.TestRecordStart s = GoSem.GOk true <-> start_shape s).
Proof. exact (fun s => conj (C08GenEquiv.trs_gen_total s) (C08GenEquiv.trs_gen_shape s)). Qed.
Print Assumptions C08_generated_TestRecordStart_shape.
