(* C11 — Chunks are complete, ordered, self-describing batches.
   Only the property theorems; each is closed by [exact] of a lemma from Proofs/.

   Model: Model/Packer.v (messagePacker + chunk factory + the two intermediateChunk types + the fields
   EncodeChunk transmits) and Model/ChunkId.v (chunkIDGenerator).  Records are of an abstract type R with a
   length [rlen]; gzip and the msgpack wrapper are section variables (oracles) with their round-trip
   property as explicit hypotheses; the wall clock is an input of every Write op. *)
From SV Require Import Model.Common Model.ChunkId Model.Packer Spec.ChunkSpec
                       Proofs.ChunkIdProofs Proofs.PackerProofs Proofs.FeedProofs.
From Coq Require Import Sorted.
Open Scope Z_scope.

(* 1. conservation_order.  For EVERY list of ops (Write now r | Flush), every configuration (three Forward
   modes, Datadog, any limits): the records of the emitted chunks, concatenated in emission order, followed
   by the records still buffered, are exactly the written records in order (nothing lost, duplicated or
   reordered, at roll-over or at flush); and every emitted chunk is non-empty, its body is exactly the
   canonical rendering of its records (records back to back / JSON array with "[" "," "]"), its count field
   equals the number of its records, option.chunk equals the storage name, tag and mode flags as configured. *)
Theorem C11_conservation_order :
  forall (R : Type) (rlen : R -> Z) (cfg : config) (ops : list (op R)),
  let (st', em) := run R rlen cfg pstate_init ops in
  concat (map e_records em) ++ cur_records st' = written_of ops /\
  Forall (fun e => chunk_holds cfg e (e_records e)) em.
Proof. exact conservation_order_lemma. Qed.
Print Assumptions C11_conservation_order.

(* 1b. After a flush nothing is buffered: all records written so far are in the emitted chunks. *)
Theorem C11_flush_completes :
  forall (R : Type) (rlen : R -> Z) (cfg : config) (ops : list (op R)),
  let (st', em) := run R rlen cfg pstate_init (ops ++ [OFlush]) in
  pk_cur st' = None /\ concat (map e_records em) = written_of ops.
Proof. exact flush_completes_lemma. Qed.
Print Assumptions C11_flush_completes.

(* 2. limits.  Every emitted chunk has at most maxRecords records (when the limit is > 0) and an uncompressed
   body of at most maxBytes (when > 0) unless it holds a single record.  [pieces_len] counts the records'
   lengths plus one byte for each of "[" "," "]" (Datadog). *)
Theorem C11_limits :
  forall (R : Type) (rlen : R -> Z) (cfg : config) (ops : list (op R)),
  let (st', em) := run R rlen cfg pstate_init ops in
  Forall (fun e => let g := e_records e in
                   (cf_max_records cfg > 0 -> Z.of_nat (length g) <= cf_max_records cfg) /\
                   (cf_max_bytes cfg > 0 -> pieces_len R rlen (e_body e) <= cf_max_bytes cfg \/ length g = 1%nat)) em.
Proof. exact limits_lemma. Qed.
Print Assumptions C11_limits.

(* 2b. the same bound on the real uncompressed bytes, for any serialization whose length is [rlen] *)
Theorem C11_limits_bytes :
  forall (R : Type) (rlen : R -> Z) (rbytes : R -> bytes),
  (forall r, rlen r = Z.of_nat (length (rbytes r))) ->
  forall (cfg : config) (ops : list (op R)),
  let (st', em) := run R rlen cfg pstate_init ops in
  Forall (fun e => cf_max_bytes cfg > 0 ->
                   Z.of_nat (length (render R rbytes (e_body e))) <= cf_max_bytes cfg \/
                   length (e_records e) = 1%nat) em.
Proof. exact limits_bytes_lemma. Qed.
Print Assumptions C11_limits_bytes.

(* 2b'. the byte counter handed to the encoder (encodeChunkParams.NumBytes, not transmitted): the exact body size
   in the Forward modes; for Datadog one more than the body "[r1,...,rn]" (the first record is counted with a
   comma it does not have) - the limit check nevertheless bounds the real body, see C11_limits. *)
Theorem C11_num_bytes_accounting :
  forall (R : Type) (rlen : R -> Z) (cfg : config) (ops : list (op R)),
  let (st', em) := run R rlen cfg pstate_init ops in
  Forall (fun e => e_num_bytes e =
                   match cf_kind cfg with
                   | KForward => body_size R rlen KForward (e_records e)
                   | KDatadog => body_size R rlen KDatadog (e_records e) + 1
                   end) em.
Proof. exact num_bytes_lemma. Qed.
Print Assumptions C11_num_bytes_accounting.

(* 2c. roll-over exactly before the record that does not fit: in every reachable state, WriteStream emits a
   chunk iff something is buffered and the buffer plus the new record would exceed a limit ([fits] is the
   specification's notion, over the specified body size); the emitted chunk is the whole buffer and the new
   record starts the next chunk; otherwise the record is appended. *)
Theorem C11_rollover_exactly_when_full :
  forall (R : Type) (rlen : R -> Z) (cfg : config) (ops : list (op R)) (now : Z) (r : R),
  let (st, _) := run R rlen cfg pstate_init ops in
  let (st', out) := write_stream R rlen cfg now st r in
  (out = None <-> (cur_records st = [] \/ fits R rlen cfg (cur_records st ++ [r]))) /\
  (forall e, out = Some e -> e_records e = cur_records st /\ cur_records st' = [r]) /\
  (out = None -> cur_records st' = cur_records st ++ [r]).
Proof. exact rollover_lemma. Qed.
Print Assumptions C11_rollover_exactly_when_full.

(* 2d. FlushBuffer emits iff something is buffered, emits all of it, and leaves nothing. *)
Theorem C11_flush_emits_iff_buffered :
  forall (R : Type) (rlen : R -> Z) (cfg : config) (ops : list (op R)),
  let (st, _) := run R rlen cfg pstate_init ops in
  let (st', out) := flush_buffer R cfg st in
  pk_cur st' = None /\ (out = None <-> cur_records st = []) /\
  match out with Some e => e_records e | None => [] end = cur_records st.
Proof. exact flush_lemma. Qed.
Print Assumptions C11_flush_emits_iff_buffered.

(* 3a. THE general lemma: fixed-width decimal formatting is order-preserving (and reflecting): on numbers
   below 10^w the byte-wise order of the w-digit strings is the order of the numbers; and the digits denote
   the number. *)
Theorem C11_fixed_width_order :
  forall (w : nat) (n m : N),
  (n < 10 ^ N.of_nat w)%N -> (m < 10 ^ N.of_nat w)%N ->
  (lex_lt (fixed_dec w n) (fixed_dec w m) <-> (n < m)%N).
Proof. exact (fun w => lex_lt_reflects N N.lt _ (fixed_dec w) N.lt_trichotomy (fixed_dec_lt w)). Qed.
Print Assumptions C11_fixed_width_order.

Theorem C11_fixed_width_value :
  forall (w : nat) (n : N), (n < 10 ^ N.of_nat w)%N ->
  length (fixed_dec w n) = w /\ dec_value (fixed_dec w n) = Some n.
Proof. exact (fun w n H => conj (fixed_dec_length w n) (fixed_dec_value w n H)). Qed.
Print Assumptions C11_fixed_width_value.

(* 3b. the id format "%019d-%08d"+suffix: byte-wise order of ids = lexicographic order of (time, sequence),
   for 0 <= time < 10^19 and 0 <= sequence < 10^8; and the id has the documented shape *)
Theorem C11_id_format_order :
  forall (suffix : bytes) (t1 s1 t2 s2 : Z),
  0 <= t1 < 10 ^ 19 -> 0 <= s1 < 10 ^ 8 -> 0 <= t2 < 10 ^ 19 -> 0 <= s2 < 10 ^ 8 ->
  (lex_lt (format_id suffix (t1, s1)) (format_id suffix (t2, s2)) <-> (t1 < t2 \/ (t1 = t2 /\ s1 < s2))) /\
  id_shape_ok suffix (format_id suffix (t1, s1)) = true.
Proof.
  exact (fun suffix t1 s1 t2 s2 Ht1 Hs1 Ht2 Hs2 =>
           conj (format_id_lt_iff suffix (t1, s1) (t2, s2) (conj Ht1 Hs1) (conj Ht2 Hs2))
                (format_id_shape suffix (t1, s1) (conj Ht1 Hs1))).
Qed.
Print Assumptions C11_id_format_order.

(* 3c. ids_unique_ordered (generator): under clock readings that never go back (each >= the previous one,
   the first >= 0), all < 10^19, and as long as the sequence numbers stay within 8 digits, the ids are
   strictly increasing as byte strings in generation order - hence pairwise distinct. *)
Theorem C11_ids_unique_ordered :
  forall (suffix : bytes) (nows : list Z),
  nondecreasing 0 nows ->
  Forall (fun t => t < 10 ^ 19) nows ->
  Forall (fun p => 0 <= snd p < 10 ^ 8) (gen_pairs idgen_init nows) ->
  StronglySorted lex_lt (gen_ids suffix idgen_init nows) /\ NoDup (gen_ids suffix idgen_init nows).
Proof. exact ids_unique_ordered_lemma. Qed.
Print Assumptions C11_ids_unique_ordered.

(* ... in particular for fewer than 10^8 ids (a condition on the inputs only), where moreover
   "id i sorts before id j" is equivalent to "i was generated before j" *)
Theorem C11_ids_order_is_generation_order :
  forall (suffix : bytes) (nows : list Z) (i j : nat),
  nondecreasing 0 nows ->
  Forall (fun t => t < 10 ^ 19) nows ->
  Z.of_nat (length nows) < 10 ^ 8 ->
  (i < length nows)%nat -> (j < length nows)%nat ->
  (lex_lt (nth i (gen_ids suffix idgen_init nows) []) (nth j (gen_ids suffix idgen_init nows) []) <-> (i < j)%nat).
Proof. exact ids_order_is_generation_order_lemma. Qed.
Print Assumptions C11_ids_order_is_generation_order.

(* 3d. the same for the chunks of a packer run: the ids of the emitted chunks, followed by the id of the chunk
   being filled, are strictly increasing byte strings (emission order = string order), pairwise distinct and
   of the documented shape. *)
Theorem C11_packer_ids_unique_ordered :
  forall (R : Type) (rlen : R -> Z) (cfg : config) (ops : list (op R)),
  nondecreasing 0 (nows_of ops) ->
  Forall (fun t => t < 10 ^ 19) (nows_of ops) ->
  Z.of_nat (length ops) < 10 ^ 8 ->
  let (st', em) := run R rlen cfg pstate_init ops in
  StronglySorted lex_lt (map e_id em ++ cur_ids st') /\
  NoDup (map e_id em ++ cur_ids st') /\
  Forall (fun id => id_shape_ok (cf_suffix cfg) id = true) (map e_id em ++ cur_ids st').
Proof. exact packer_ids_lemma. Qed.
Print Assumptions C11_packer_ids_unique_ordered.

(* 3d'. the 8-digit bound on the sequence number is needed for the ORDER: with sequence 10^8 (nine digits) the id
   sorts before the id with sequence 10^8 - 1 generated earlier at the same reading. *)
Theorem C11_sequence_width_refuted :
  exists t s1 s2 : Z, (0 <= t < 10 ^ 19 /\ 0 <= s1 < s2 /\ s2 = 10 ^ 8) /\
    ~ lex_lt (format_id suffix_ff (t, s1)) (format_id suffix_ff (t, s2)) /\
    lex_lt (format_id suffix_ff (t, s2)) (format_id suffix_ff (t, s1)).
Proof. exact sequence_width_refuted_lemma. Qed.
Print Assumptions C11_sequence_width_refuted.

(* 3e. clock_backwards_refuted: the monotone-clock hypothesis is needed.  Readings 100, 100, 101, 100 (all
   valid, but the last one steps back) make the generator return the id 100-00000001 twice.  The wall clock
   (time.Now().UnixNano()) is therefore an ASSUMPTION of C11, listed in the trusted base; it cannot be
   replayed on the real code without a clock hook. *)
Theorem C11_clock_backwards_refuted :
  exists nows : list Z,
  ~ nondecreasing 0 nows /\ Forall (fun t => 0 <= t < 10 ^ 19) nows /\
  ~ NoDup (gen_ids suffix_ff idgen_init nows).
Proof. exact clock_backwards_refuted_lemma. Qed.
Print Assumptions C11_clock_backwards_refuted.

(* 4. self-describing.  If gunzip inverts gzip and the msgpack decoder inverts EncodeChunk's wrapper (the two
   library assumptions), every emitted chunk's data decodes to: the pipeline's tag, the mode, a count equal
   to the number of its records, the chunk id equal to its storage name, the compressed flag, and a payload
   that is the concatenation of its records (Forward modes) / the JSON array of its records (Datadog). *)
Theorem C11_chunks_decode :
  forall (R : Type) (rlen : R -> Z) (rbytes : R -> bytes)
         (gz gunz : bytes -> bytes)
         (mp_wrap : bytes -> bool -> Z -> bytes -> bool -> bytes -> bytes)
         (mp_unwrap : bytes -> option (bytes * bool * Z * bytes * bool * bytes)),
  (forall b, gunz (gz b) = b) ->
  (forall tag arr n id c d, mp_unwrap (mp_wrap tag arr n id c d) = Some (tag, arr, n, id, c, d)) ->
  forall (cfg : config) (ops : list (op R)),
  let (st', em) := run R rlen cfg pstate_init ops in
  Forall (fun e =>
    match cf_kind cfg with
    | KForward =>
        exists payload,
          mp_unwrap (chunk_data R rbytes gz mp_wrap cfg e) =
            Some (cf_tag cfg, cf_as_array cfg, Z.of_nat (length (e_records e)), e_id e, cf_compress cfg, payload) /\
          (if cf_compress cfg then gunz payload else payload) = concat (map rbytes (e_records e))
    | KDatadog => gunz (chunk_data R rbytes gz mp_wrap cfg e) = json_array_bytes (map rbytes (e_records e))
    end) em.
Proof. exact run_decodes. Qed.
Print Assumptions C11_chunks_decode.

(* 4b. end to end on bytes: a receiver that decodes the chunks emitted up to a flush, in emission order (unwrap,
   gunzip when flagged, split into records; the four decoders are parameters assumed to invert the encoders and
   the record splitters to recover self-delimiting records) obtains exactly the written records, in order. *)
Theorem C11_receiver_reconstructs :
  forall (R : Type) (rlen : R -> Z) (rbytes : R -> bytes)
         (gz gunz : bytes -> bytes)
         (mp_wrap : bytes -> bool -> Z -> bytes -> bool -> bytes -> bytes)
         (mp_unwrap : bytes -> option (bytes * bool * Z * bytes * bool * bytes)),
  (forall b, gunz (gz b) = b) ->
  (forall tag arr n id c d, mp_unwrap (mp_wrap tag arr n id c d) = Some (tag, arr, n, id, c, d)) ->
  forall parse_forward parse_json_array : bytes -> option (list R),
  (forall g, parse_forward (concat (map rbytes g)) = Some g) ->
  (forall g, parse_json_array (json_array_bytes (map rbytes g)) = Some g) ->
  forall (cfg : config) (ops : list (op R)),
  let (st', em) := run R rlen cfg pstate_init (ops ++ [OFlush]) in
  all_received R
    (map (fun e => receive R gunz mp_unwrap parse_forward parse_json_array cfg
                     (chunk_data R rbytes gz mp_wrap cfg e)) em)
  = Some (written_of ops).
Proof. exact receiver_reconstructs_lemma. Qed.
Print Assumptions C11_receiver_reconstructs.

(* 5. order WITHIN a chunk: how Write feeds the chunk's sink (gzip writer / write buffer; Model/Packer.v, Section
   Feed).  Follow-up to the wave-4 miss seeded/C11/8.

   5a. The real mechanism (every Write goes to the sink at once): for every list of records, of every length,
   the sink holds exactly the written records in write order when the chunk is finalized. *)
Theorem C11_sink_receives_write_order :
  forall (R : Type) (rlen : R -> Z) (rs : list R), feed_all R rlen FeedDirect rs = rs.
Proof. exact feed_direct_in_order. Qed.
Print Assumptions C11_sink_receives_write_order.

(* 5b. the same on bytes and through the compressor: un-gzipping what the compressor produced from its feed gives
   the concatenation of the records in write order (compressed path: decompress(payload)) *)
Theorem C11_payload_is_concat :
  forall (R : Type) (rlen : R -> Z) (rbytes : R -> bytes) (gz gunz : bytes -> bytes),
  (forall b, gunz (gz b) = b) ->
  forall rs : list R,
  gunz (gz (concat (map rbytes (feed_all R rlen FeedDirect rs)))) = concat (map rbytes rs).
Proof. exact feed_payload_is_concat. Qed.
Print Assumptions C11_payload_is_concat.

(* 5c. general form, for any batching in front of the sink (capacity [cap], large records bypass the batch
   buffer): write order is kept for ALL inputs if the buffer is handed over before the bypass, and otherwise
   for exactly those inputs in which no record reaches the bypass ([bypass_safe]) *)
Theorem C11_staged_feed_in_order :
  forall (R : Type) (rlen : R -> Z) (m : feed_mode) (rs : list R),
  Forall (bypass_safe R rlen m) rs -> feed_all R rlen m rs = rs.
Proof. exact feed_all_in_order. Qed.
Print Assumptions C11_staged_feed_in_order.

Theorem C11_staged_flush_first_in_order :
  forall (R : Type) (rlen : R -> Z) (cap : Z) (rs : list R), feed_all R rlen (FeedStaged cap true) rs = rs.
Proof. exact feed_staged_flush_first_in_order. Qed.
Print Assumptions C11_staged_flush_first_in_order.

(* why records below the buffer size never show the seeded variant *)
Theorem C11_bypass_invisible_below_cap :
  forall (R : Type) (rlen : R -> Z) (cap : Z) (rs : list R),
  Forall (fun r => rlen r < cap) rs -> feed_all R rlen (FeedStaged cap false) rs = rs.
Proof. exact feed_bypass_invisible_below_cap. Qed.
Print Assumptions C11_bypass_invisible_below_cap.

(* 5d. the seeded variant (64 KiB batch buffer, a record of >= 64 KiB goes to the compressor WITHOUT handing over
   the smaller records waiting): records of 10 and 65536 bytes reach the sink in reverse order. *)
Theorem C11_large_record_bypass_variant_refuted :
  exists rs : list Z,
    Forall (fun r => 0 <= r) rs /\
    feed_all Z (fun n => n) (FeedStaged 65536 false) rs = rev rs /\
    feed_all Z (fun n => n) (FeedStaged 65536 false) rs <> rs.
Proof. exact feed_bypass_variant_refuted. Qed.
Print Assumptions C11_large_record_bypass_variant_refuted.

(* Non-vacuity: a concrete run (CompressedPackedForward, 2 records / 100 bytes per chunk; three writes at the
   same clock reading, two flushes, one more write) satisfies the hypotheses of 3d and gives two chunks
   [r1 r2] [r3] with counts 2, 1, ids ...01-00000000.ff, ...01-00000001.ff, and [r4] still buffered. *)
Theorem C11_example :
  nondecreasing 0 (nows_of example_ops) /\
  Forall (fun t => t < 10 ^ 19) (nows_of example_ops) /\
  Z.of_nat (length example_ops) < 10 ^ 8 /\
  let (st', em) := run bytes blen example_cfg pstate_init example_ops in
  map e_records em = [ [[1; 2; 3]; [4; 5]]; [[6]] ]%N /\
  map e_size em = [2; 1] /\
  map e_id em = [ [49;55;48;48;48;48;48;48;48;48;48;48;48;48;48;48;48;48;49;45;48;48;48;48;48;48;48;48;46;102;102];
                  [49;55;48;48;48;48;48;48;48;48;48;48;48;48;48;48;48;48;49;45;48;48;48;48;48;48;48;49;46;102;102] ]%N /\
  cur_records st' = [[7]]%N.
Proof. exact example_run. Qed.
Print Assumptions C11_example.
