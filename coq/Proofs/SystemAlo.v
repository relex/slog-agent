(* Conservation and at-least-once for all runs of Model/System.v. *)
From Coq Require Import List Arith Bool Lia PeanoNat NArith.
From SV Require Import Model.Common Model.System Proofs.SystemLists Proofs.SystemProofs.
Import ListNotations.
Open Scope nat_scope.

Record cons_inv (s : state) : Prop := mkCons {
  cI1 : forall t, In t (ingested s) -> In t (anywhere s);
  cI2 : forall t, In t (anywhere s) -> In t (ingested s);
  cI3 : forall t, In t (filtered s) -> t_keep t = false
}.

Lemma cons_init : cons_inv init.
Proof. constructor; cbn; intros; contradiction. Qed.

Lemma cons_step : forall s e s', aux s -> cons_inv s -> step s e = Some s' -> cons_inv s'.
Proof.
  intros s e s' Ha [I1 I2 I3] H. pose proof (step_Step _ _ _ H) as S. constructor.
  - intros t Ht. apply (step_anywhere _ _ _ Ha S). apply (step_ingested_in _ _ _ S) in Ht. destruct Ht; auto.
  - intros t Ht. apply (step_ingested_in _ _ _ S). apply (step_anywhere _ _ _ Ha S) in Ht. destruct Ht; auto.
  - eapply step_filtered; eauto.
Qed.

Lemma run_invariants : forall es s s', aux s -> cons_inv s -> steps s es = Some s' -> aux s' /\ cons_inv s'.
Proof.
  intros es s s' Ha Hc H.
  refine (steps_inv (fun _ => True) (fun s => aux s /\ cons_inv s) _ es s s' (conj Ha Hc) (fun _ _ => I) H).
  intros s0 e s1 [Ha0 Hc0] _ E. split; [exact (aux_step _ _ _ Ha0 E)|exact (cons_step _ _ _ Ha0 Hc0 E)].
Qed.

Lemma run_lost : forall es s s', steps s es = Some s' -> no_timeout es = true -> lost s' = lost s.
Proof.
  intros es s s' H N.
  refine (steps_inv (fun e => negb (is_flush_timeout e) = true) (fun s1 => lost s1 = lost s) _ es s s' eq_refl
            (proj1 (forallb_forall _ _) N) H).
  intros s0 e s1 E0 G E. rewrite <- E0. apply negb_true_iff in G. exact (step_lost _ _ _ E G).
Qed.

(* conservation: every record read is somewhere, nothing is anywhere that was not read (tokens carry
   connection, sequence, pipeline, filter verdict and body: contents unaltered), records that pass the
   filters are never in the "filtered" location *)
Lemma conservation_lemma : forall es s, steps init es = Some s ->
  (forall t, In t (ingested s) -> In t (anywhere s)) /\
  (forall t, In t (anywhere s) -> In t (ingested s)) /\
  (forall t, In t (ingested s) -> t_keep t = true -> In t (live s)).
Proof.
  intros es s H. destruct (run_invariants es init s aux_init cons_init H) as [Ha [I1 I2 I3]].
  repeat split; auto.
  intros t Ht Hk. specialize (I1 t Ht). unfold anywhere in I1. apply in_app_iff in I1.
  destruct I1 as [I1|I1]; [assumption|]. rewrite (I3 t I1) in Hk. discriminate.
Qed.

Definition quiescent (s : state) : Prop := forall t, ~ In t (transit s).

Lemma at_least_once_quiescent_lemma : forall es s, steps init es = Some s -> no_timeout es = true -> quiescent s ->
  forall t, In t (ingested s) -> t_keep t = true ->
  In t (toks_of_chunks (acked s)) \/ In t (toks_of_chunks (files s)) \/ In t (toks_of_chunks (dropped s)).
Proof.
  intros es s H N Q t Ht Hk. destruct (conservation_lemma es s H) as [_ [_ I]].
  specialize (I t Ht Hk). unfold live in I. rewrite (run_lost _ _ _ H N) in I. cbn in I. rewrite app_nil_r in I.
  apply in_app_iff in I. destruct I as [I|I]; [destruct (Q t I)|].
  unfold safe in I. rewrite !in_app_iff in I. exact I.
Qed.

Lemma stopped_quiescent : forall es s, steps init es = Some s -> phase s = Stopped -> quiescent s.
Proof.
  intros es s H Hp. destruct (run_invariants es init s aux_init cons_init H) as [Ha _]. exact (proj1 (aJ _ Ha Hp)).
Qed.

Lemma at_least_once_lemma : forall es s, steps init es = Some s -> no_timeout es = true -> phase s = Stopped ->
  forall t, In t (ingested s) -> t_keep t = true ->
  In t (toks_of_chunks (acked s)) \/ In t (toks_of_chunks (files s)) \/ In t (toks_of_chunks (dropped s)).
Proof.
  intros es s H N Hp. apply (at_least_once_quiescent_lemma es s H N). eapply stopped_quiescent; eauto.
Qed.

(* without the "no channel timeout" hypothesis the conclusion weakens to: ... or lost by that branch *)
Lemma at_least_once_or_timeout_lemma : forall es s, steps init es = Some s -> phase s = Stopped ->
  forall t, In t (ingested s) -> t_keep t = true -> In t (safe s) \/ In t (lost s).
Proof.
  intros es s H Hp t Ht Hk. destruct (conservation_lemma es s H) as [_ [_ I]]. specialize (I t Ht Hk).
  unfold live in I. rewrite !in_app_iff in I. destruct I as [I|I]; [|tauto].
  destruct (stopped_quiescent es s H Hp t I).
Qed.
