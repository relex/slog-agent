(* Every event of the hybrid-buffer LTS preserves the invariant (Proofs/BufferInv.v). *)
From SV Require Import Model.Common Model.FileWrite Model.Buffer Spec.BufferSpec Proofs.CommonFacts Proofs.FileWriteProofs Proofs.BufferInv.
From Coq Require Import Lia ZifyBool ZifyN ZifyNat Sorting.Sorted.
Ltac Zify.zify_post_hook ::= Z.div_mod_to_equations.

Ltac simp_state :=
  unfold inflight, tracked, entered, acc_ids, enq_ids, offered_ids in *;
  cbn [st_dir st_ever st_gen st_up st_dirok st_Q st_M st_max st_queue st_closed st_fpc st_win st_hold st_cons st_met st_gh
       set_dir set_ever set_gen set_up set_dirok set_Q set_M set_max set_queue set_closed set_fpc set_win set_hold set_cons set_met set_gh
       gh crash_with
       g_acc g_rec g_init g_proc g_offered g_out g_confirmed g_dropped g_retained g_initbytes g_maxfw
       gset_acc gset_rec gset_init gset_proc gset_offered gset_out gset_confirmed gset_dropped gset_retained gset_initbytes gset_maxfw
       g_accept g_drop g_retain g_confirm g_process g_offer g_outadd
       m_pbytes m_pchunks m_ioerr m_pending m_in_t m_in_p m_consumed m_leftover m_dropped m_q_t m_q_p
       add_pbytes add_pchunks add_ioerr add_pending add_in_t add_in_p add_consumed add_leftover add_dropped add_q_t add_q_p
       man_on_dropped man_on_input
       hand hand_all main_loop feeder_ids after_queue saving writing_pc] in *.

Ltac simp_goal :=
  unfold inflight, tracked, entered, acc_ids, enq_ids, offered_ids;
  cbn [st_dir st_ever st_gen st_up st_dirok st_Q st_M st_max st_queue st_closed st_fpc st_win st_hold st_cons st_met st_gh
       set_dir set_ever set_gen set_up set_dirok set_Q set_M set_max set_queue set_closed set_fpc set_win set_hold set_cons set_met set_gh
       gh crash_with
       g_acc g_rec g_init g_proc g_offered g_out g_confirmed g_dropped g_retained g_initbytes g_maxfw
       gset_acc gset_rec gset_init gset_proc gset_offered gset_out gset_confirmed gset_dropped gset_retained gset_initbytes gset_maxfw
       g_accept g_drop g_retain g_confirm g_process g_offer g_outadd
       m_pbytes m_pchunks m_ioerr m_pending m_in_t m_in_p m_consumed m_leftover m_dropped m_q_t m_q_p
       add_pbytes add_pchunks add_ioerr add_pending add_in_t add_in_p add_consumed add_leftover add_dropped add_q_t add_q_p
       man_on_dropped man_on_input
       hand hand_all main_loop feeder_ids after_queue saving writing_pc].

(* goals that are an unchanged field, or vacuous because the program counter is another one *)
Ltac field_trivial :=
  first [ assumption
        | solve [intros; discriminate]
        | solve [intros ? ? HH; inversion HH]
        | solve [intros [HH|HH]; inversion HH]
        | solve [intros HH; inversion HH]
        | solve [intros; assumption]
        | solve [split; first [assumption | intros; discriminate | intros HH; inversion HH | intros; assumption]] ].

Ltac cnt_cons_all :=
  repeat match goal with
         | |- context [cnt ?x (?y :: ?l)] => lazymatch l with nil => fail | _ => rewrite (cnt_cons x y l) end
         | H : context [cnt ?x (?y :: ?l)] |- _ => lazymatch l with nil => fail | _ => rewrite (cnt_cons x y l) in H end
         end.

Ltac cnt_norm :=
  unfold ids in *; rewrite ?map_app in *; cbn [map] in *; rewrite ?cnt_app in *; cnt_cons_all; rewrite ?cnt_nil in *.

(* i_count after an event that only moves chunks around *)
Ltac count_move Hc :=
  lazymatch goal with |- forall x, (_ = cnt x _)%nat => idtac end;
  let x := fresh "x" in intros x; specialize (Hc x); clear - Hc; cnt_norm; lia.

Ltac in_norm := rewrite ?in_app_iff in *; cbn [In] in *.

(* wf_chunk of a chunk that was tracked before, when the event leaves its file and the history alone *)
Ltac wf_same Hch :=
  lazymatch goal with |- forall c, In c _ -> wf_chunk _ c => idtac end;
  let c0 := fresh "c0" in let Hc0 := fresh "Hc0" in
  intros c0 Hc0; eapply wf_chunk_frame; [| | | | | apply Hch];
  [reflexivity | apply incl_refl | reflexivity | reflexivity | reflexivity | clear - Hc0; in_norm; tauto].

Lemma unload_check_yes : forall dirok maxb m c, unload_check dirok maxb m c = UYes -> c_saved c = true.
Proof.
  intros dirok maxb m c H. unfold unload_check in H. destruct (c_saved c); [reflexivity|].
  destruct (c_data c); [|discriminate]. destruct (negb dirok); [discriminate|].
  destruct (_ >? _)%Z; discriminate.
Qed.

Lemma unload_check_no : forall dirok maxb m c, unload_check dirok maxb m c = UNo -> c_saved c = false.
Proof.
  intros dirok maxb m c H. unfold unload_check in H. destruct (c_saved c); [discriminate|reflexivity].
Qed.

Lemma unload_check_write : forall dirok maxb m c data,
  unload_check dirok maxb m c = UWrite data ->
  c_saved c = false /\ c_data c = Some data /\ dirok = true /\ (m_pbytes m + Z.of_nat (length data) <= maxb)%Z.
Proof.
  intros dirok maxb m c data H. unfold unload_check in H. destruct (c_saved c); [discriminate|].
  destruct (c_data c) as [d|]; [|discriminate]. destruct dirok; cbn [negb] in H; [|discriminate].
  destruct (_ >? _)%Z eqn:E; [discriminate|]. inversion H; subst. repeat split. lia.
Qed.

Lemma op_on_dropped_pbytes_unsaved : forall m c, c_saved c = false -> op_on_dropped m c = m.
Proof. intros m c H. unfold op_on_dropped. rewrite H. reflexivity. Qed.

Lemma unload_write_ret : forall ws d m c data d' m' c' ok,
  unload_write ws d m c data = URet d' m' c' ok ->
  frame d d' (c_id c) /\ (dir_sorted d -> dir_sorted d') /\
  (ok = true -> c' = unloaded c /\ dir_get d' (c_id c) = Some (EFile data) /\
                m' = add_pbytes (Z.of_nat (length data)) (add_pchunks 1 m)) /\
  (ok = false -> c' = c /\ dir_get d' (c_id c) = dir_get d (c_id c) /\ m' = add_ioerr 1 m).
Proof.
  intros ws d m c data d' m' c' ok H. unfold unload_write in H.
  destruct (write_file_at ws d (c_id c) data) as [d1 r] eqn:W.
  pose proof (write_frame _ _ _ _ _ _ W) as Hf. pose proof (write_sorted _ _ _ _ _ _ W) as Hs.
  destruct r; inversion H; subst; clear H; repeat split; try assumption; try discriminate.
  - apply write_ok in W. tauto.
  - eapply write_err. eassumption.
Qed.

Lemma unload_write_died : forall ws d m c data d',
  unload_write ws d m c data = UDied d' ->
  frame d d' (c_id c) /\ (dir_sorted d -> dir_sorted d') /\
  (dir_get d' (c_id c) = dir_get d (c_id c) \/ dir_get d' (c_id c) = Some (EFile data)).
Proof.
  intros ws d m c data d' H. unfold unload_write in H.
  destruct (write_file_at ws d (c_id c) data) as [d1 r] eqn:W.
  pose proof (write_frame _ _ _ _ _ _ W) as Hf. pose proof (write_sorted _ _ _ _ _ _ W) as Hs.
  destruct r; inversion H; subst; clear H. repeat split; try assumption.
  eapply write_died. eassumption.
Qed.

Lemma unload_cases : forall dirok maxb ws d m c,
  (unload_check dirok maxb m c = UYes /\ unload dirok maxb ws d m c = URet d m c true) \/
  (unload_check dirok maxb m c = UNo /\ unload dirok maxb ws d m c = URet d m c false) \/
  (exists data, unload_check dirok maxb m c = UWrite data /\
                unload dirok maxb ws d m c = unload_write ws d m c data).
Proof.
  intros. unfold unload. destruct (unload_check dirok maxb m c) as [| |data].
  - left. split; reflexivity.
  - right. left. split; reflexivity.
  - right. right. exists data. split; reflexivity.
Qed.

Lemma state_ext : forall a b : state,
  st_dir a = st_dir b -> st_ever a = st_ever b -> st_gen a = st_gen b -> st_up a = st_up b -> st_dirok a = st_dirok b ->
  st_Q a = st_Q b -> st_M a = st_M b -> st_max a = st_max b -> st_queue a = st_queue b -> st_closed a = st_closed b ->
  st_fpc a = st_fpc b -> st_win a = st_win b -> st_hold a = st_hold b -> st_cons a = st_cons b -> st_met a = st_met b ->
  st_gh a = st_gh b -> a = b.
Proof. intros [] []; cbn; intros; subst; reflexivity. Qed.

Section Proofs.
Variable matchf : name -> bool.
Variable dirsize : Z.
Hypothesis match_tmp : forall n, matchf n = true -> matchf (tmp_name n) = false.
Hypothesis match_nonempty : matchf [] = false.

Notation PInv := (PInv matchf).
Notation Inv := (Inv matchf dirsize).
Notation Good := (Good matchf dirsize).

Lemma pinv_same : forall s s', st_dir s' = st_dir s -> st_ever s' = st_ever s -> PInv s -> PInv s'.
Proof. intros s s' Hd He [H1 H2 H3 H4]. constructor; rewrite ?Hd, ?He; assumption. Qed.

(* a directory change that leaves alone every name of the chunk namespace except x, and under x there is what there was,
   the complete chunk, or nothing *)
Lemma pinv_write : forall s s' x,
  PInv s -> st_ever s' = st_ever s -> dir_sorted (st_dir s') ->
  (forall y, matchf y = true -> y <> x -> dir_get (st_dir s') y = dir_get (st_dir s) y) ->
  (dir_get (st_dir s') x = dir_get (st_dir s) x \/
   (exists data, In (x, data) (st_ever s) /\ dir_get (st_dir s') x = Some (EFile data)) \/
   dir_get (st_dir s') x = None) ->
  PInv s'.
Proof.
  intros s s' x [H1 H2 H3 H4] He Hs Hfr Hx. constructor; rewrite ?He; try assumption.
  intros y d Hy. destruct (name_eq_dec y x) as [E|E].
  - subst y. destruct Hx as [Hx|[(data & Hin & Hx)|Hx]]; [rewrite Hx; apply H2; exact Hy| |left; exact Hx].
    injection (NoDup_map_inj fst _ _ _ H3 Hy Hin eq_refl) as ->. right. exact Hx.
  - rewrite Hfr; [apply H2; exact Hy| |exact E]. apply H4. change y with (fst (y, d)). apply in_map. exact Hy.
Qed.

(* The preservation proofs below have one shape.  [destruct Hinv] names the fields of the invariant before the event
   i_nodup ... i_rec_def; [constructor] leaves one goal per field of the invariant after it, in the order of the record;
   [field_trivial] closes the fields the event does not touch.  What remains is taken in that order; a goal that does
   not start from the hypothesis of its own field carries the field's name in a comment. *)
Lemma inv_feed_take : forall s s', Inv [] s -> do_feed_take s = Some s' -> Inv [] s'.
Proof using match_tmp.
  intros s s' Hinv H. unfold do_feed_take in H.
  destruct (st_fpc s) eqn:Ef; try discriminate. destruct (st_queue s) as [|c q] eqn:Eq; [discriminate|].
  inversion H; subst s'; clear H.
  destruct Hinv; simp_state; rewrite ?Ef, ?Eq in *; simp_state.
  destruct (c_data c); constructor; simp_goal; rewrite ?Ef, ?Eq; simp_goal; try field_trivial.
  all: try (count_move i_count).
  all: try (wf_same i_chunk).
  all: try (cbn [length] in *; lia). (* i_qbound *)
Qed.

Lemma inv_feed_push : forall s s', Inv [] s -> do_feed_push s = Some s' -> Inv [] s'.
Proof using.
  intros s s' Hinv H. unfold do_feed_push in H.
  destruct (st_fpc s) as [| |c c'| | | | | |] eqn:Ef; try discriminate.
  destruct (Nat.ltb (length (st_win s)) (st_M s)) eqn:Elt; [|discriminate].
  inversion H; subst s'; clear H. apply Nat.ltb_lt in Elt.
  destruct Hinv; simp_state; rewrite ?Ef in *; simp_state. constructor; simp_goal; rewrite ?Ef; simp_goal; try field_trivial.
  all: try (count_move i_count).
  all: try (wf_same i_chunk).
  - (* i_fifo *)
    destruct i_fifo as (rest & Hr & Hm). specialize (Hm eq_refl). subst rest.
    exists (ids (st_queue s)). split; [|intros _; reflexivity].
    rewrite Hr. rewrite map_app. cbn [map fst]. rewrite <- app_assoc. reflexivity.
  - (* i_offered_ids *)
    destruct (i_push _ _ eq_refl) as [Hid _].
    rewrite ids_app, filter_app, map_app. cbn [filter snd map fst ids]. rewrite i_offered_ids, Hid. reflexivity.
  - (* i_offered_orig *)
    intros c0 Hc0. apply in_app_or in Hc0. destruct Hc0 as [Hc0|[Hc0|[]]]; [apply i_offered_orig; exact Hc0|].
    subst c0. destruct (i_push _ _ eq_refl) as [_ Hz].
    assert (Hwf : wf_chunk s c') by (apply i_chunk; in_norm; tauto).
    unfold wf_chunk in Hwf. unfold zero_length in Hz.
    destruct (c_data c') as [d|]; [|discriminate]. exists d. split; [reflexivity|].
    destruct (c_saved c').
    + tauto.
    + destruct Hwf as ((b & Hb) & _). left. exists d, b. split; [exact Hb|reflexivity].
  - rewrite i_win. rewrite app_assoc. reflexivity.
  - intros c0 Hc0. apply in_or_app. left. apply i_hold. exact Hc0.
  - (* i_winbound *) rewrite app_length. cbn [length]. lia.
Qed.

Lemma ids_of_tracked_lists : forall p q w h c,
  (forall c1 c2, p = FPush c1 c2 -> c_id c2 = c_id c1) ->
  In c (q ++ hand_all p ++ w ++ h) -> In (c_id c) (ids (q ++ hand p ++ w ++ h)).
Proof.
  intros p q w h c Hp Hc. rewrite !ids_app. in_norm.
  destruct Hc as [Hc|[Hc|[Hc|Hc]]]; try (apply ids_in in Hc; tauto).
  right. left. destruct p as [|c1|c1 c2|[l|]|[l|] c1| | |c1|] eqn:Ef; cbn [hand hand_all ids map In] in *; try tauto.
  all: try (destruct Hc as [Hc|Hc]; [subst; tauto|try contradiction]).
  - specialize (Hp _ _ eq_refl). destruct Hc as [Hc|[Hc|[]]]; subst; [left; exact Hp|tauto].
  - destruct Hc as [Hc|[]]. subst. tauto.
Qed.

Lemma tracked_inflight : forall s l c,
  (forall c1 c2, st_fpc s = FPush c1 c2 -> c_id c2 = c_id c1) ->
  In c (tracked s ++ l) -> In (c_id c) (ids (inflight s ++ l)).
Proof.
  intros s l c Hp Hc. rewrite ids_app. apply in_or_app. apply in_app_or in Hc.
  destruct Hc as [Hc|Hc]; [left; apply ids_of_tracked_lists; assumption|right; apply ids_in; exact Hc].
Qed.

(* a tracked chunk's ID is one of the chunks in flight, hence entered and accepted by the matcher *)
Lemma tracked_entered : forall l s c, Inv l s -> In c (tracked s ++ l) -> In (c_id c) (entered (st_gh s)).
Proof using.
  intros l s c Hinv Hc. apply cnt_in. rewrite <- (i_count _ _ _ _ Hinv).
  apply tracked_inflight in Hc; [|intros c1 c2 Ef; apply (i_push _ _ _ _ Hinv _ _ Ef)].
  apply cnt_in in Hc. lia.
Qed.

Lemma class_entered : forall l s y, Inv l s ->
  In y (g_retained (st_gh s)) \/ In y (g_confirmed (st_gh s)) \/ In y (g_dropped (st_gh s)) ->
  In y (entered (st_gh s)).
Proof using match_tmp.
  intros l s y Hinv H. apply cnt_in. rewrite <- (i_count _ _ _ _ Hinv).
  destruct H as [H|[H|H]]; apply cnt_in in H; lia.
Qed.

Lemma class_match : forall l s y, Inv l s ->
  In y (g_retained (st_gh s)) \/ In y (g_confirmed (st_gh s)) \/ In y (g_dropped (st_gh s)) ->
  matchf y = true.
Proof. intros l s y Hinv H. apply (i_match _ _ _ _ Hinv). eapply class_entered; eassumption. Qed.

Lemma tracked_match : forall l s c, Inv l s -> In c (tracked s ++ l) -> matchf (c_id c) = true.
Proof. intros l s c Hinv H. apply (i_match _ _ _ _ Hinv). eapply tracked_entered; eassumption. Qed.

Lemma tracked_nonempty_id : forall l s c, Inv l s -> In c (tracked s ++ l) -> c_id c <> [].
Proof.
  intros l s c Hinv Hc E. apply (tracked_match _ _ _ Hinv) in Hc. rewrite E, match_nonempty in Hc. discriminate.
Qed.

Lemma inv_feed_stop : forall s s', Inv [] s -> do_feed_stop s = Some s' -> Inv [] s'.
Proof using match_nonempty.
  intros s s' Hinv H. unfold do_feed_stop in H.
  destruct (st_fpc s) as [| |c c'| | | | | |] eqn:Ef; try discriminate.
  - destruct (st_queue s) eqn:Eq; [|discriminate]. destruct (st_closed s) eqn:Ec; [|discriminate].
    inversion H; subst s'; clear H.
    destruct Hinv; simp_state; rewrite ?Ef, ?Eq in *; simp_state. constructor; simp_goal; rewrite ?Ef, ?Eq; simp_goal; try field_trivial.
    destruct i_fifo as (rest & Hr & _). exists rest. split; [exact Hr|intros; discriminate].
  - destruct (st_closed s) eqn:Ec; [|discriminate].
    assert (Hne : c_id c <> []).
    { apply (tracked_nonempty_id _ s c Hinv). unfold tracked. rewrite Ef. cbn [hand_all]. clear. in_norm. tauto. }
    destruct (c_id c) as [|b0 idr] eqn:Eid; [congruence|].
    inversion H; subst s'; clear H.
    destruct Hinv; simp_state; rewrite ?Ef in *; simp_state. destruct (i_push _ _ eq_refl) as [Hid _].
    constructor; simp_goal; rewrite ?Ef; simp_goal; try field_trivial.
    all: try (wf_same i_chunk).
    + intros x. specialize (i_count x). clear - i_count Hid Eid. cnt_norm. rewrite Hid, Eid in i_count. rewrite Eid. lia.
    + destruct i_fifo as (rest & Hr & _). exists rest. split; [exact Hr|intros; discriminate].
Qed.

Lemma inv_save_end : forall s s', Inv [] s -> do_save_end s = Some s' -> Inv [] s'.
Proof.
  intros s s' Hinv H. unfold do_save_end in H.
  destruct (st_fpc s) as [| | |[l|]| | | | |] eqn:Ef; try discriminate.
  - (* saveQueued returns *)
    destruct (st_queue s) eqn:Eq; [|discriminate].
    inversion H; subst s'; clear H.
    destruct Hinv; simp_state; rewrite ?Ef, ?Eq in *; simp_state. constructor; simp_goal; rewrite ?Ef, ?Eq; simp_goal; try field_trivial.
    all: try (split; [intros; reflexivity|intros HH; inversion HH]). (* i_empty *)
  - (* saveOutput returns *)
    destruct (st_win s) eqn:Ew; [|discriminate].
    inversion H; subst s'; clear H.
    destruct Hinv; simp_state; rewrite ?Ef, ?Ew in *; simp_state. constructor; simp_goal; rewrite ?Ef, ?Ew; simp_goal; try field_trivial.
    all: try (destruct i_empty as [Hq _]; split; [intros; apply Hq; reflexivity|intros; reflexivity]).
Qed.

Lemma inv_feed_stopped : forall s s', Inv [] s -> do_feed_stopped s = Some s' -> Inv [] s'.
Proof.
  intros s s' Hinv H. unfold do_feed_stopped in H.
  destruct (st_fpc s) eqn:Ef; try discriminate. destruct (st_cons s) eqn:Ec; [|discriminate].
  inversion H; subst s'; clear H.
  destruct Hinv; simp_state; rewrite ?Ef in *; simp_state. constructor; simp_goal; rewrite ?Ef; simp_goal; try field_trivial.
  all: try (destruct i_empty as [Hq _]; split; [intros; apply Hq; reflexivity|intros HH; inversion HH]).
Qed.

(* events that touch neither chunks nor files *)
Lemma inv_set_cons : forall s n, Inv [] s -> Inv [] (set_cons n s).
Proof.
  intros s n Hinv. destruct Hinv; simp_state. constructor; simp_goal; try field_trivial.
Qed.

Lemma inv_set_closed : forall s, Inv [] s -> Inv [] (set_closed true s).
Proof.
  intros s Hinv. destruct Hinv; simp_state. constructor; simp_goal; try field_trivial.
Qed.

Lemma inv_cons_take : forall s s', Inv [] s -> do_cons_take s = Some s' -> Inv [] s'.
Proof using.
  intros s s' Hinv H. unfold do_cons_take in H.
  destruct (st_win s) as [|c w] eqn:Ew; [discriminate|].
  destruct (Nat.ltb 0 (st_cons s)); [|discriminate].
  inversion H; subst s'; clear H.
  destruct Hinv; simp_state; rewrite ?Ew in *; simp_state. constructor; simp_goal; rewrite ?Ew; simp_goal; try field_trivial.
  all: try (count_move i_count).
  all: try (wf_same i_chunk).
  - rewrite i_win, map_app. cbn [map fst]. rewrite <- app_assoc. reflexivity.
  - intros c0 Hc0. apply in_app_or in Hc0. destruct Hc0 as [Hc0|[Hc0|[]]]; [apply i_hold; exact Hc0|].
    subst c0. rewrite i_win. apply in_or_app. right. left. reflexivity.
  - (* i_winbound *) cbn [length] in *. lia.
  - destruct i_empty as [Hq Hw]. split; [exact Hq|]. intros Hp. apply Hw in Hp. discriminate.
Qed.

(* a directory change at (the temporary name of) x: what it leaves alone *)
Lemma frame_matching : forall d d' x,
  frame d d' x -> matchf x = true ->
  forall y, matchf y = true -> y <> x -> dir_get d' y = dir_get d y.
Proof.
  intros d d' x Hf Hx y Hy Hne. apply Hf; [exact Hne|]. intros E. subst y. rewrite (match_tmp _ Hx) in Hy. discriminate.
Qed.

Lemma dir_update_frame : forall l s d' x,
  Inv l s ->
  (forall y, matchf y = true -> y <> x -> dir_get d' y = dir_get (st_dir s) y) ->
  (forall c0, In c0 (tracked s ++ l) -> c_id c0 <> x -> wf_chunk (set_dir d' s) c0) /\
  (forall y, In y (g_retained (st_gh s)) -> y <> x -> exists e, dir_get d' y = Some e /\ is_orig (st_gh s) y e) /\
  (forall y, In y (g_confirmed (st_gh s)) -> y <> x -> dir_get d' y = None) /\
  (In x (entered (st_gh s)) ->
     owned_sum dirsize d' (entered (st_gh s)) =
     (owned_sum dirsize (st_dir s) (entered (st_gh s)) - esize dirsize (dir_get (st_dir s) x) + esize dirsize (dir_get d' x))%Z) /\
  (~ In x (entered (st_gh s)) ->
     owned_sum dirsize d' (entered (st_gh s)) = owned_sum dirsize (st_dir s) (entered (st_gh s))).
Proof.
  intros l s d' x Hinv Hfr. repeat split.
  - intros c0 Hc0 Hne. eapply wf_chunk_frame with (s := s); simp_state;
      [|apply incl_refl|reflexivity|reflexivity|reflexivity|apply (i_chunk _ _ _ _ Hinv); exact Hc0].
    apply Hfr; [|exact Hne]. apply tracked_match with (l := l) (s := s); assumption.
  - intros y Hy Hne. rewrite Hfr; [apply (i_ret _ _ _ _ Hinv); exact Hy| |exact Hne].
    apply class_match with (l := l) (s := s); tauto.
  - intros y Hy Hne. rewrite Hfr; [apply (i_conf _ _ _ _ Hinv); exact Hy| |exact Hne].
    apply class_match with (l := l) (s := s); tauto.
  - intros Hin. apply owned_sum_change; [apply (i_nodup _ _ _ _ Hinv)|exact Hin|].
    intros y Hy Hne. apply Hfr; [apply (i_match _ _ _ _ Hinv); exact Hy|exact Hne].
  - intros Hnin. apply owned_sum_ext. intros y Hy. apply Hfr; [apply (i_match _ _ _ _ Hinv); exact Hy|].
    intros E. subst y. contradiction.
Qed.

(* ... at a name that is not the ID of any chunk of this generation *)
Lemma dir_update_fresh : forall l s d' x,
  Inv l s -> ~ In x (entered (st_gh s)) ->
  (forall y, matchf y = true -> y <> x -> dir_get d' y = dir_get (st_dir s) y) ->
  (forall c0, In c0 (tracked s ++ l) -> wf_chunk (set_dir d' s) c0) /\
  (forall y, In y (g_retained (st_gh s)) -> exists e, dir_get d' y = Some e /\ is_orig (st_gh s) y e) /\
  (forall y, In y (g_confirmed (st_gh s)) -> dir_get d' y = None) /\
  owned_sum dirsize d' (entered (st_gh s)) = owned_sum dirsize (st_dir s) (entered (st_gh s)).
Proof.
  intros l s d' x Hinv Hnent Hfr. destruct (dir_update_frame _ s d' x Hinv Hfr) as (F1 & F2 & F3 & _ & F5).
  assert (Hncl : forall y, In y (g_retained (st_gh s)) \/ In y (g_confirmed (st_gh s)) \/ In y (g_dropped (st_gh s)) -> y <> x).
  { intros y Hy E. subst y. apply Hnent. eapply class_entered; eassumption. }
  repeat split; [|intros y Hy; apply F2; [exact Hy|apply Hncl; tauto]|intros y Hy; apply F3; [exact Hy|apply Hncl; tauto]|exact (F5 Hnent)].
  intros c0 Hc0. apply F1; [exact Hc0|]. intros E. apply Hnent. rewrite <- E. eapply tracked_entered; eassumption.
Qed.

(* A chunk leaves the buffer's lists ... *)

(* from the chunks a consumer holds *)
Lemma detach_hold : forall s i c, Inv [] s -> nth_error (st_hold s) i = Some c ->
  Inv [c] (set_hold (remove_nth i (st_hold s)) s).
Proof.
  intros s i c Hinv En. destruct (nth_error_split_remove _ _ _ En) as (l1 & l2 & Hl & Hrm). rewrite Hrm. clear En Hrm.
  destruct Hinv; simp_state; rewrite ?Hl in *. constructor; simp_goal; rewrite ?Hl; try field_trivial.
  - count_move i_count.
  - wf_same i_chunk.
  - intros c0 Hc0. apply i_hold. clear - Hc0. in_norm. tauto.
Qed.

(* what is known about the program counter the feeder returns to after a chunk *)
Lemma saving_back : forall p c back, saving p = Some (c, back) ->
  hand p = c :: hand back /\ hand_all p = c :: hand_all back /\
  main_loop p = false /\ main_loop back = false /\ saving back = None /\
  (forall c1 c2, back <> FPush c1 c2) /\ after_queue back = after_queue p /\ back <> FStopped.
Proof.
  intros p c back H. destruct p as [| | |l|[l|] c0| | |c0|]; cbn [saving] in H; try discriminate;
    inversion H; subst; cbn [hand hand_all main_loop saving after_queue];
    repeat split; try (intros; discriminate).
Qed.

(* from the feeder, which was about to write it *)
Lemma detach_saving : forall s c back, Inv [] s -> saving (st_fpc s) = Some (c, back) -> Inv [c] (set_fpc back s).
Proof.
  intros s c back Hinv Esv.
  destruct (saving_back _ _ _ Esv) as (Hhand & Hhall & Hml & Hmlb & Hsb & Hnp & Haq & Hnst).
  destruct Hinv; simp_state; rewrite ?Hhand, ?Hhall, ?Hml in *. constructor; simp_goal; rewrite ?Hhand, ?Hhall, ?Hsb, ?Hmlb; try field_trivial.
  - count_move i_count.
  - wf_same i_chunk.
  - (* i_push *) intros c1 c2 E. exfalso. eapply Hnp. exact E.
  - destruct i_fifo as (rest & Hr & _). exists rest. split; [exact Hr|intros; discriminate].
  - destruct i_empty as [Hq _]. split; [rewrite Haq; exact Hq|intros E; contradiction].
Qed.

(* from the feeder, which could not load it or found it empty *)
Lemma detach_load : forall s c, Inv [] s -> st_fpc s = FLoad c ->
  Inv [c] (gh (g_process (c_id c) false) (set_fpc FRecv s)).
Proof.
  intros s c Hinv Ef. destruct Hinv; simp_state; rewrite ?Ef in *; simp_state. constructor; simp_goal; rewrite ?Ef; simp_goal; try field_trivial.
  - count_move i_count.
  - wf_same i_chunk.
  - destruct i_fifo as (rest & Hr & Hm'). specialize (Hm' eq_refl). subst rest.
    exists (ids (st_queue s)). split; [|intros _; reflexivity].
    rewrite Hr, map_app. cbn [map fst]. rewrite <- app_assoc. reflexivity.
  - rewrite filter_app. cbn [filter snd]. rewrite app_nil_r. exact i_offered_ids.
Qed.

(* by saveQueued / saveOutput: the rest of the queue, then the last chunk of the main loop; the window *)
Definition save_pc (back : fpc) : Prop := (exists l, back = FSave l) \/ back = FSaveOut.

Lemma detach_save_next : forall s c back s1, PInv s -> Inv [] s -> save_next s = Some (c, back, s1) ->
  PInv (set_fpc back s1) /\ Inv [c] (set_fpc back s1) /\ save_pc back.
Proof using.
  intros s c back s1 Hp Hinv En. unfold save_next in En.
  destruct (st_fpc s) as [| | |l0| | | | |] eqn:Ef; try discriminate.
  - destruct l0 as [cl|]; destruct (st_queue s) as [|cq q] eqn:Eq; try discriminate;
      inversion En; subst c back s1; clear En;
      (split; [eapply pinv_same; [| |exact Hp]; reflexivity|]); (split; [|left; eexists; reflexivity]);
      destruct Hinv; simp_state; rewrite ?Ef, ?Eq in *; simp_state; constructor; simp_goal; rewrite ?Ef, ?Eq; simp_goal; try field_trivial.
    all: try count_move i_count.
    all: try wf_same i_chunk.
    all: try (cbn [length] in i_qbound; lia).
    all: destruct i_fifo as (rest & Hr & _); exists rest; split; [exact Hr|intros; discriminate].
  - destruct (st_win s) as [|cw w] eqn:Ew; [discriminate|].
    inversion En; subst c back s1; clear En.
    split; [eapply pinv_same; [| |exact Hp]; reflexivity|]. split; [|right; reflexivity].
    destruct Hinv; simp_state; rewrite ?Ef, ?Ew in *; simp_state. constructor; simp_goal; rewrite ?Ef, ?Ew; simp_goal; try field_trivial.
    + count_move i_count.
    + wf_same i_chunk.
    + rewrite i_win, map_app. cbn [map fst]. rewrite <- app_assoc. reflexivity.
    + cbn [length] in i_winbound. lia.
    + destruct i_empty as [Hq _]. split; [exact Hq|intros E; discriminate].
Qed.

Lemma save_pc_facts : forall back c, save_pc back ->
  main_loop back = false /\ saving back = None /\
  hand (writing_pc back c) = c :: hand back /\ hand_all (writing_pc back c) = c :: hand_all back /\
  main_loop (writing_pc back c) = false /\ saving (writing_pc back c) = Some (c, back) /\
  after_queue (writing_pc back c) = after_queue back /\ writing_pc back c <> FStopped /\
  (forall c1 c2, writing_pc back c <> FPush c1 c2).
Proof.
  intros back c [[l E]|E]; subst back; [destruct l|]; cbn [main_loop saving writing_pc hand hand_all after_queue];
    repeat split; try (intros; discriminate).
Qed.

(* ... and goes back to the feeder: the space check has passed, the write comes next *)
Lemma attach_saving : forall s c data,
  Inv [c] s -> save_pc (st_fpc s) -> c_saved c = false -> c_data c = Some data ->
  (m_pbytes (st_met s) + Z.of_nat (length data) <= st_max s)%Z ->
  Inv [] (gh (fun g => gset_maxfw (Z.max (g_maxfw g) (dlen c)) g) (set_fpc (writing_pc (st_fpc s) c) s)).
Proof using match_tmp.
  intros s c data Hinv Hsp Hs Hd Hquota.
  destruct (save_pc_facts _ c Hsp) as (Hmlb & Hsb & Whand & Whall & Wml & Wsv & Waq & Wnst & Wnp).
  assert (Hdl : dlen c = Z.of_nat (length data)) by (unfold dlen; rewrite Hd; reflexivity).
  destruct Hinv; simp_state; rewrite ?Hmlb in *. constructor; simp_goal; rewrite ?Whand, ?Whall, ?Wml, ?Wsv, ?Waq, ?Hmlb; try field_trivial.
  - count_move i_count.
  - wf_same i_chunk.
  - destruct i_bound. split; lia.
  - (* i_savew *) intros c0 back0 Ec. inversion Ec; subst c0 back0. repeat split; try lia; try assumption. exists data. exact Hd.
  - (* i_push *) intros c1 c2 E. exfalso. eapply Wnp. exact E.
  - destruct i_fifo as (rest & Hr & _). exists rest. split; [exact Hr|intros; discriminate].
  - destruct i_empty as [Hq _]. split; [exact Hq|intros E; contradiction].
Qed.

(* ... and is settled: confirmed by the consumer, retained as a file holding its original content, or
   dropped and counted.  [d], [m]: the directory and the metrics afterwards *)
Inductive fate := Retained | Dropped | Confirmed.

Definition g_fate (f : fate) : name -> ghost -> ghost :=
  match f with Retained => g_retain | Dropped => g_drop | Confirmed => g_confirm end.

Lemma settle : forall s c f d m,
  PInv s -> Inv [c] s ->
  dir_sorted d ->
  (forall y, matchf y = true -> y <> c_id c -> dir_get d y = dir_get (st_dir s) y) ->
  match f with
  | Retained => exists e, dir_get d (c_id c) = Some e /\ is_orig (st_gh s) (c_id c) e
  | Dropped => True
  | Confirmed => dir_get d (c_id c) = None
  end ->
  (dir_get d (c_id c) = dir_get (st_dir s) (c_id c) \/
   (exists data, In (c_id c, data) (st_ever s) /\ dir_get d (c_id c) = Some (EFile data)) \/
   dir_get d (c_id c) = None) ->
  m_pbytes m = (m_pbytes (st_met s) - esize dirsize (dir_get (st_dir s) (c_id c)) + esize dirsize (dir_get d (c_id c)))%Z ->
  m_dropped m = (m_dropped (st_met s) + match f with Dropped => 1 | _ => 0 end)%Z ->
  m_consumed m = (m_consumed (st_met s) + match f with Confirmed => 1 | _ => 0 end)%Z ->
  (* the space gauge does not grow, or stays within the quota (within quota plus slack while no save is going on) *)
  ((m_pbytes m <= m_pbytes (st_met s))%Z \/
   ((m_pbytes m <= Z.max (g_initbytes (st_gh s)) (st_max s) + g_maxfw (st_gh s))%Z /\
    (saving (st_fpc s) = None \/ (m_pbytes m <= st_max s)%Z))) ->
  PInv (gh (g_fate f (c_id c)) (set_met m (set_dir d s))) /\ Inv [] (gh (g_fate f (c_id c)) (set_met m (set_dir d s))).
Proof using match_tmp.
  intros s c f d m Hp Hinv Hsorted Hfr Hfate Hev Hpb Hdr Hco Hbd.
  assert (Hc : In c (tracked s ++ [c])) by (apply in_or_app; right; left; reflexivity).
  assert (Hent : In (c_id c) (entered (st_gh s))) by (eapply tracked_entered; eassumption).
  pose proof (i_count _ _ _ _ Hinv (c_id c)) as Hc1. rewrite ids_app, cnt_app in Hc1. cbn [ids map] in Hc1.
  rewrite cnt_single_same in Hc1.
  pose proof (proj1 (nodup_cnt _) (i_nodup _ _ _ _ Hinv) (c_id c)) as Hle.
  destruct (dir_update_frame _ s d (c_id c) Hinv Hfr) as (F1 & F2 & F3 & F4 & _).
  assert (Hother : forall c0, In c0 (tracked s) -> c_id c0 <> c_id c).
  { intros c0 Hc0 E. unfold tracked in Hc0.
    apply ids_of_tracked_lists in Hc0; [|intros c1 c2 Ef; apply (i_push _ _ _ _ Hinv _ _ Ef)].
    fold (inflight s) in Hc0. rewrite E in Hc0. apply cnt_in in Hc0. lia. }
  split.
  { eapply pinv_write with (s := s) (x := c_id c); simp_state; [exact Hp|reflexivity|exact Hsorted|exact Hfr|exact Hev]. }
  destruct Hinv; unfold is_orig in *; simp_state.
  destruct f; cbn [g_fate]; (constructor; unfold is_orig; simp_goal; try field_trivial;
  [ intros x; specialize (i_count x); clear - i_count; cnt_norm; lia
  | (* i_chunk *) intros c0 Hc0; apply F1; [|apply Hother]; clear - Hc0; in_norm; tauto
  | (* i_ret: the files of the retained chunks *)
    intros x Hx; try (apply in_app_or in Hx; destruct Hx as [Hx|[Hx|[]]]; [|subst x; exact Hfate]);
    apply F2; [exact Hx|]; intros E; subst x; apply cnt_in in Hx; clear - Hx Hc1 Hle; lia
  | (* i_conf: no files of confirmed chunks *)
    intros x Hx; try (apply in_app_or in Hx; destruct Hx as [Hx|[Hx|[]]]; [|subst x; exact Hfate]);
    apply F3; [exact Hx|]; intros E; subst x; apply cnt_in in Hx; clear - Hx Hc1 Hle; lia
  | rewrite Hpb, i_space, (F4 Hent); reflexivity
  | destruct i_bound as [B1 B2]; split; [clear - B1 Hbd; lia|exact B2]
  | intros c0 back0 Esv; destruct (i_savew c0 back0 Esv) as (H1 & H2); split; [|exact H2];
    destruct Hbd as [Hbd|[_ [Hbd|Hbd]]]; [clear - H1 Hbd; lia|congruence|exact Hbd]
  | rewrite ?app_length; cbn [length]; clear - Hdr i_dropped; lia
  | rewrite ?app_length; cbn [length]; clear - Hco i_consumed; lia ]).
Qed.

(* the unsaved, loaded chunk: facts from wf_chunk *)
Lemma wf_unsaved : forall s c data,
  wf_chunk s c -> c_saved c = false -> c_data c = Some data ->
  (exists b, In (c_id c, data, b) (g_acc (st_gh s))) /\ dir_get (st_dir s) (c_id c) = None.
Proof. intros s c data Hwf Hs Hd. unfold wf_chunk in Hwf. rewrite Hs, Hd in Hwf. exact Hwf. Qed.

Lemma wf_saved_orig : forall s c,
  wf_chunk s c -> c_saved c = true ->
  exists e, dir_get (st_dir s) (c_id c) = Some e /\ is_orig (st_gh s) (c_id c) e.
Proof.
  intros s c Hwf Hs. unfold wf_chunk in Hwf. rewrite Hs in Hwf. destruct (c_data c) as [d|].
  - exists (EFile d). tauto.
  - tauto.
Qed.

(* RemoveChunk on a loaded chunk *)
Lemma op_remove_spec : forall s m c dat d m',
  wf_chunk s c -> c_data c = Some dat -> dir_sorted (st_dir s) ->
  op_remove (st_dirok s) (st_dir s) m c = (d, m') ->
  dir_sorted d /\ (forall y, y <> c_id c -> dir_get d y = dir_get (st_dir s) y) /\ dir_get d (c_id c) = None /\
  m_pbytes m' = (m_pbytes m - esize dirsize (dir_get (st_dir s) (c_id c)))%Z /\ (m_pbytes m' <= m_pbytes m)%Z /\
  m_dropped m' = m_dropped m /\ m_consumed m' = m_consumed m.
Proof using match_tmp.
  intros s m c dat d m' Hwf Hdat Hsrt Er. unfold op_remove in Er. unfold wf_chunk in Hwf. rewrite Hdat in Hwf.
  destruct (c_saved c); cbn [negb] in Er.
  - destruct Hwf as (Hd & _ & Hok). rewrite Hok in Er. cbn [negb] in Er.
    unfold unlink_file_at in Er. rewrite Hd in Er. inversion Er; subst d m'; clear Er.
    rewrite Hd. cbn [esize]. unfold dlen. rewrite Hdat. simp_state.
    repeat split; try lia; [apply dir_sorted_del; exact Hsrt|intros y Hy; apply dir_get_del_other; exact Hy|apply dir_get_del_same].
  - destruct Hwf as (_ & Hd). inversion Er; subst d m'; clear Er. rewrite Hd. cbn [esize].
    repeat split; try lia; assumption.
Qed.

(* LoadChunk *)
Lemma op_load_spec : forall s c rerr m c' ok, wf_chunk s c ->
  op_load (st_dirok s) rerr (st_dir s) (st_met s) c = (m, c', ok) ->
  m_pbytes m = m_pbytes (st_met s) /\ m_dropped m = m_dropped (st_met s) /\ m_consumed m = m_consumed (st_met s) /\
  (ok = false -> c' = c /\ c_data c = None) /\
  (ok = true -> c_id c' = c_id c /\ wf_chunk s c' /\ c_data c' <> None).
Proof.
  intros s c rerr m c' ok Hwf Hl. unfold op_load in Hl. unfold wf_chunk in Hwf.
  destruct (c_data c) as [dat|] eqn:Ed.
  - inversion Hl; subst. repeat split; try discriminate; [|congruence]. unfold wf_chunk. rewrite Ed. exact Hwf.
  - destruct (c_saved c) eqn:Es; [|contradiction]. cbn [negb] in Hl.
    destruct Hwf as ((e & He1 & He2) & Hok). rewrite Hok in Hl. cbn [negb] in Hl.
    unfold read_file_at in Hl. destruct rerr.
    + inversion Hl; subst. repeat split; try discriminate.
    + rewrite He1 in Hl. destruct e as [content|].
      * inversion Hl; subst. repeat split; try discriminate. all: cbn [c_id]; assumption.
      * inversion Hl; subst. repeat split; try discriminate.
Qed.

(* UnloadChunk, the write, on a chunk that is not yet on disk: the chunk is settled either way.  [M]: the metrics
   after the caller's own bookkeeping *)
Lemma settle_written : forall s c data ws d m c' ok M,
  PInv s -> Inv [c] s -> c_saved c = false -> c_data c = Some data ->
  unload_write ws (st_dir s) (st_met s) c data = URet d m c' ok ->
  m_pbytes M = m_pbytes m -> m_dropped M = (m_dropped m + if ok then 0 else 1)%Z -> m_consumed M = m_consumed m ->
  ((m_pbytes (st_met s) + Z.of_nat (length data) <= Z.max (g_initbytes (st_gh s)) (st_max s) + g_maxfw (st_gh s))%Z /\
   (saving (st_fpc s) = None \/ (m_pbytes (st_met s) + Z.of_nat (length data) <= st_max s)%Z)) ->
  let f := if ok then Retained else Dropped in
  PInv (gh (g_fate f (c_id c)) (set_met M (set_dir d s))) /\ Inv [] (gh (g_fate f (c_id c)) (set_met M (set_dir d s))).
Proof using match_tmp.
  intros s c data ws d m c' ok M Hp Hinv Hs Hd Ew Mpb Mdr Mco Hbd f.
  assert (Hc : In c (tracked s ++ [c])) by (apply in_or_app; right; left; reflexivity).
  destruct (wf_unsaved _ _ _ (i_chunk _ _ _ _ Hinv c Hc) Hs Hd) as ((b & Hacc) & Hnone).
  destruct (unload_write_ret _ _ _ _ _ _ _ _ _ Ew) as (Hf & Hsrt & Hyes & Hno).
  pose proof (frame_matching _ _ _ Hf (tracked_match _ _ _ Hinv Hc)) as Hfm.
  apply settle; try assumption; [apply Hsrt; apply (p_sorted _ _ Hp)| | | | | | ]; subst f; destruct ok.
  all: try (destruct (Hyes eq_refl) as (_ & Hdir & Hmet)); try (destruct (Hno eq_refl) as (_ & Hdir & Hmet)); subst m;
    rewrite ?Mpb, ?Mdr, ?Mco, ?Hdir, ?Hnone; simp_state; cbn [esize]; try lia.
  - exists (EFile data). split; [reflexivity|]. left. exists data, b. split; [exact Hacc|reflexivity].
  - right. left. exists data. split; [eapply (i_acc_ever _ _ _ _ Hinv); exact Hacc|reflexivity].
  - left. reflexivity.
  - right. split; [lia|]. destruct Hbd as [_ [Hbd|Hbd]]; [left; exact Hbd|right; lia].
Qed.

(* the process is killed inside that write: the file is as before or complete *)
Lemma pinv_killed : forall l s s' c data ws m d,
  PInv s -> Inv l s -> In c (tracked s ++ l) -> c_saved c = false -> c_data c = Some data ->
  unload_write ws (st_dir s) m c data = UDied d -> st_ever s' = st_ever s -> st_dir s' = d -> PInv s'.
Proof.
  intros l s s' c data ws m d Hp Hinv Hc Hs Hd Ew Eever Edir.
  destruct (unload_write_died _ _ _ _ _ _ Ew) as (Hf & Hsrt & Hcases).
  destruct (wf_unsaved _ _ _ (i_chunk _ _ _ _ Hinv c Hc) Hs Hd) as ((b & Hacc) & _).
  apply pinv_write with (s := s) (x := c_id c); rewrite ?Edir;
    [exact Hp|exact Eever|apply Hsrt; apply (p_sorted _ _ Hp)|apply (frame_matching _ _ _ Hf (tracked_match _ _ _ Hinv Hc))|].
  destruct Hcases as [E|E]; [left; exact E|right; left; exists data; split; [|exact E]].
  eapply (i_acc_ever _ _ _ _ Hinv); exact Hacc.
Qed.

Lemma good_and : forall s, PInv s /\ Inv [] s -> Good s.
Proof. intros s [A B]. split; [exact A|intros _; exact B]. Qed.

Lemma inv_consumed : forall s s' i, PInv s -> Inv [] s -> do_consumed i s = Some s' -> PInv s' /\ Inv [] s'.
Proof using match_tmp.
  intros s s' i Hp Hinv H. unfold do_consumed in H.
  destruct (nth_error (st_hold s) i) as [c|] eqn:En; [|discriminate].
  destruct (Nat.ltb 0 (st_cons s)); [|discriminate].
  destruct (op_remove (st_dirok s) (st_dir s) (st_met s) c) as [d m] eqn:Er.
  inversion H; subst s'; clear H.
  assert (Hin : In c (st_hold s)) by (eapply nth_error_In; exact En).
  destruct (i_offered_orig _ _ _ _ Hinv c (i_hold _ _ _ _ Hinv c Hin)) as (dat & Hdat & _).
  assert (Hwf : wf_chunk s c) by (apply (i_chunk _ _ _ _ Hinv); unfold tracked; clear - Hin; in_norm; tauto).
  destruct (op_remove_spec _ _ _ _ _ _ Hwf Hdat (p_sorted _ _ Hp) Er) as (Hsrt & Hfr & Hnone & Hpb & Hle & Hdr & Hco).
  pose proof (pinv_same s (set_hold (remove_nth i (st_hold s)) s) eq_refl eq_refl Hp) as Hp1.
  apply (settle _ c Confirmed d _ Hp1 (detach_hold _ _ _ Hinv En)); simp_state;
    rewrite ?Hnone; cbn [esize]; try lia; try assumption; try reflexivity.
  - intros y _ Hy. apply Hfr. exact Hy.
  - right. right. reflexivity.
Qed.

Lemma good_leftover : forall s s' i ws,
  PInv s -> Inv [] s -> do_leftover i ws s = Some s' -> Good s'.
Proof using match_tmp.
  intros s s' i ws Hp Hinv H. unfold do_leftover in H.
  destruct (nth_error (st_hold s) i) as [c|] eqn:En; [|discriminate].
  destruct (Nat.ltb 0 (st_cons s)); [|discriminate].
  pose proof (detach_hold _ _ _ Hinv En) as Hinv1.
  pose proof (pinv_same s (set_hold (remove_nth i (st_hold s)) s) eq_refl eq_refl Hp) as Hp1.
  assert (Hc : In c (tracked s)) by (unfold tracked; apply nth_error_In in En; clear - En; in_norm; tauto).
  assert (Hwf : wf_chunk s c) by (apply (i_chunk _ _ _ _ Hinv); apply in_or_app; left; exact Hc).
  destruct (unload_cases (st_dirok s) (st_max s) ws (st_dir s) (st_met s) c) as [[Hck Hu]|[[Hck Hu]|(data & Hck & Hu)]];
    rewrite Hu in H; clear Hu.
  - (* already saved: the file is there *)
    inversion H; subst s'; clear H. apply unload_check_yes in Hck. apply good_and.
    apply (settle _ c Retained (st_dir s) _ Hp1 Hinv1); simp_state; try lia; try (intros; reflexivity).
    + apply (p_sorted _ _ Hp).
    + apply wf_saved_orig; assumption.
    + left. reflexivity.
  - (* cannot be saved (no directory, space limit): dropped *)
    inversion H; subst s'; clear H. apply unload_check_no in Hck. apply good_and.
    apply (settle _ c Dropped (st_dir s) _ Hp1 Hinv1); simp_state; rewrite ?(op_on_dropped_pbytes_unsaved _ _ Hck);
      try lia; try (intros; reflexivity).
    + apply (p_sorted _ _ Hp).
    + left. reflexivity.
  - (* the write *)
    destruct (unload_check_write _ _ _ _ _ Hck) as (Hs & Hd & Hok & Hquota).
    pose proof (i_bound _ _ _ _ Hinv) as [_ Hfw].
    destruct (unload_write ws (st_dir s) (st_met s) c data) as [d m c' ok|d] eqn:Ew.
    + destruct ok; inversion H; subst s'; clear H; apply good_and;
        apply (settle_written _ c data ws d m c' _ _ Hp1 Hinv1 Hs Hd Ew); simp_state;
        rewrite ?(op_on_dropped_pbytes_unsaved _ _ Hs); first [reflexivity|lia].
    + (* killed during the write *)
      inversion H; subst s'; clear H. split; [|simp_state; intros; discriminate].
      apply (pinv_killed [] s _ c data ws _ d Hp Hinv (in_or_app _ _ _ (or_introl Hc)) Hs Hd Ew); reflexivity.
Qed.

Lemma good_save_write : forall s s' ws,
  PInv s -> Inv [] s -> do_save_write ws s = Some s' -> Good s'.
Proof using match_tmp.
  intros s s' ws Hp Hinv H. unfold do_save_write in H.
  destruct (saving (st_fpc s)) as [[c back]|] eqn:Esv; [|discriminate].
  destruct (i_savew _ _ _ _ Hinv _ _ Esv) as (Hle_max & Hle_fw & Hs & (data & Hd)).
  pose proof (detach_saving _ _ _ Hinv Esv) as Hinv1.
  pose proof (pinv_same s (set_fpc back s) eq_refl eq_refl Hp) as Hp1.
  destruct (saving_back _ _ _ Esv) as (_ & Hhall & _ & _ & Hsb & _).
  assert (Hc : In c (tracked s)) by (unfold tracked; rewrite Hhall; clear; in_norm; tauto).
  assert (Hdl : dlen c = Z.of_nat (length data)) by (unfold dlen; rewrite Hd; reflexivity).
  rewrite Hd in H.
  destruct (unload_write ws (st_dir s) (st_met s) c data) as [d m c' ok|d] eqn:Ew.
  - destruct ok; inversion H; subst s'; clear H; apply good_and;
      apply (settle_written _ c data ws d m c' _ _ Hp1 Hinv1 Hs Hd Ew); simp_state;
      rewrite ?(op_on_dropped_pbytes_unsaved _ _ Hs); first [reflexivity|lia|split; [lia|left; exact Hsb]].
  - inversion H; subst s'; clear H. split; [|simp_state; intros; discriminate].
    apply (pinv_killed [] s _ c data ws _ d Hp Hinv (in_or_app _ _ _ (or_introl Hc)) Hs Hd Ew); reflexivity.
Qed.

Lemma good_save_check : forall s s',
  PInv s -> Inv [] s -> do_save_check s = Some s' -> PInv s' /\ Inv [] s'.
Proof using match_tmp.
  intros s s' Hp Hinv H. unfold do_save_check in H.
  destruct (save_next s) as [[[c back] s1]|] eqn:En; [|discriminate].
  destruct (detach_save_next _ _ _ _ Hp Hinv En) as (Hp1 & Hinv1 & Hsp). clear En.
  assert (Hwf : wf_chunk (set_fpc back s1) c) by (apply (i_chunk _ _ _ _ Hinv1); apply in_or_app; right; left; reflexivity).
  destruct (unload_check (st_dirok s1) (st_max s1) (st_met s1) c) as [| |data] eqn:Hck; inversion H; subst s'; clear H.
  - (* already on disk *)
    apply unload_check_yes in Hck.
    apply (settle _ c Retained (st_dir s1) (st_met s1) Hp1 Hinv1); simp_state; try lia; try (intros; reflexivity).
    + apply (p_sorted _ _ Hp1).
    + apply (wf_saved_orig _ _ Hwf Hck).
    + left. reflexivity.
  - (* cannot be saved: dropped *)
    apply unload_check_no in Hck.
    apply (settle _ c Dropped (st_dir s1) _ Hp1 Hinv1); simp_state; rewrite ?(op_on_dropped_pbytes_unsaved _ _ Hck);
      try lia; try (intros; reflexivity).
    + apply (p_sorted _ _ Hp1).
    + left. reflexivity.
  - (* the space check passed: the write comes next; the chunk stays with the feeder *)
    destruct (unload_check_write _ _ _ _ _ Hck) as (Hs & Hd & Hok & Hquota).
    split; [eapply pinv_same; [| |exact Hp1]; reflexivity|].
    apply (attach_saving (set_fpc back s1) c data Hinv1 Hsp Hs Hd Hquota).
Qed.

Lemma good_feed_load : forall s s' rerr,
  PInv s -> Inv [] s -> do_feed_load rerr s = Some s' -> PInv s' /\ Inv [] s'.
Proof using match_tmp.
  intros s s' rerr Hp Hinv H. unfold do_feed_load in H.
  destruct (st_fpc s) as [|c| | | | | | |] eqn:Ef; try discriminate.
  assert (Hwf : wf_chunk s c).
  { apply (i_chunk _ _ _ _ Hinv). unfold tracked. rewrite Ef. cbn [hand_all hand]. clear. in_norm. tauto. }
  pose proof (detach_load _ _ Hinv Ef) as Hinv1.
  pose proof (pinv_same s (gh (g_process (c_id c) false) (set_fpc FRecv s)) eq_refl eq_refl Hp) as Hp1.
  destruct (op_load (st_dirok s) rerr (st_dir s) (st_met s) c) as [[m c'] ok] eqn:El.
  destruct (op_load_spec _ _ _ _ _ _ Hwf El) as (Hpb & Hdr & Hco & Hfail & Hsucc).
  destruct ok.
  - destruct (Hsucc eq_refl) as (Hid & Hwf' & Hsome). clear Hfail Hsucc.
    destruct (zero_length c') eqn:Ez.
    + (* zero-length chunk: removed and counted as dropped *)
      destruct (op_remove (st_dirok s) (st_dir s) m c') as [d m1] eqn:Er.
      inversion H; subst s'; clear H.
      destruct (c_data c') as [dat|] eqn:Ed'; [|congruence].
      destruct (op_remove_spec _ _ _ _ _ _ Hwf' Ed' (p_sorted _ _ Hp) Er) as (Hsrt & Hfr & Hnone & Hpb1 & Hle1 & Hdr1 & Hco1).
      rewrite Hid in *.
      apply (settle _ c Dropped d (add_dropped 1 (add_pending (-1) m1)) Hp1 Hinv1); simp_state;
        rewrite ?Hnone; cbn [esize]; try lia; try assumption.
      * intros y _ Hy. apply Hfr. exact Hy.
      * right. right. reflexivity.
    + (* loaded and not empty: goes to the select *)
      inversion H; subst s'; clear H.
      split; [apply pinv_same with (s := s); simp_state; [reflexivity|reflexivity|exact Hp]|].
      destruct Hinv; simp_state; rewrite ?Ef in *; simp_state. constructor; simp_goal; rewrite ?Ef; simp_goal; rewrite ?Hpb, ?Hdr, ?Hco; try field_trivial.
      * intros x. specialize (i_count x). clear - i_count Hid. cnt_norm. rewrite Hid. lia.
      * (* i_chunk *) intros c0 Hc0. eapply wf_chunk_frame with (s := s); simp_state;
          [reflexivity|apply incl_refl|reflexivity|reflexivity|reflexivity|].
        in_norm. destruct Hc0 as [[Hc0|[[Hc0|[Hc0|[]]]|Hc0]]|[]]; try (subst c0; assumption); apply i_chunk; clear - Hc0; in_norm; tauto.
      * (* i_push *) intros c1 c2 Ec. inversion Ec; subst c1 c2. split; assumption.
  - (* cannot be loaded: dropped *)
    destruct (Hfail eq_refl) as (Hc' & Hnone). subst c'. clear Hfail Hsucc.
    inversion H; subst s'; clear H.
    assert (Hsaved : c_saved c = true).
    { unfold wf_chunk in Hwf. rewrite Hnone in Hwf. destruct (c_saved c); [reflexivity|contradiction]. }
    assert (Hdl : dlen c = 0%Z) by (unfold dlen; rewrite Hnone; reflexivity).
    apply (settle _ c Dropped (st_dir s) (man_on_dropped m c) Hp1 Hinv1); simp_state;
      unfold op_on_dropped; rewrite ?Hsaved; simp_state; try lia; try (intros; reflexivity).
    + apply (p_sorted _ _ Hp).
    + left. reflexivity.
Qed.

Lemma mem_name_false : forall x l, mem_name x l = false -> ~ In x l.
Proof.
  intros x l H Hin. unfold mem_name in H.
  assert (existsb (name_eqb x) l = true).
  { apply existsb_exists. exists x. split; [exact Hin|apply name_eqb_refl]. }
  congruence.
Qed.

Lemma fresh_facts : forall s id, Inv [] s -> fresh matchf id s = true ->
  matchf id = true /\ ~ In id (map fst (st_ever s)) /\ ~ In id (g_rec (st_gh s)) /\
  dir_get (st_dir s) id = None /\ ~ In id (entered (st_gh s)).
Proof.
  intros s id Hinv H. unfold fresh in H.
  apply andb_prop in H. destruct H as [H H4]. apply andb_prop in H. destruct H as [H H3].
  apply andb_prop in H. destruct H as [H1 H2].
  apply Bool.negb_true_iff in H2, H3. apply mem_name_false in H2, H3.
  destruct (dir_get (st_dir s) id) eqn:Ed; [discriminate|].
  repeat split; try assumption.
  intros Hin. unfold entered in Hin. apply in_app_or in Hin. destruct Hin as [Hin|Hin]; [contradiction|].
  unfold acc_ids in Hin. apply in_map_iff in Hin. destruct Hin as ([[x d] b] & Hx & Hin). cbn in Hx. subst x.
  apply H2. apply (i_acc_ever _ _ _ _ Hinv) in Hin. change id with (fst (id, d)). apply in_map. exact Hin.
Qed.

(* the file of the new chunk, and the list of all chunks ever accepted *)
Lemma pinv_accept : forall s s2 id data,
  PInv s -> matchf id = true -> ~ In id (map fst (st_ever s)) ->
  st_ever s2 = st_ever s ++ [(id, data)] -> dir_sorted (st_dir s2) ->
  (forall y, matchf y = true -> y <> id -> dir_get (st_dir s2) y = dir_get (st_dir s) y) ->
  (dir_get (st_dir s2) id = None \/ dir_get (st_dir s2) id = Some (EFile data)) ->
  PInv s2.
Proof.
  intros s s2 id data [P1 P2 P3 P4] Hm Hnever Eever Hsorted Hfr Hidcases. constructor; rewrite ?Eever.
  - exact Hsorted.
  - intros x d Hx. apply in_app_or in Hx. destruct Hx as [Hx|[Hx|[]]].
    + rewrite Hfr; [apply P2; exact Hx| |].
      * apply P4. change x with (fst (x, d)). apply in_map. exact Hx.
      * intros E. subst x. apply Hnever. change id with (fst (id, d)). apply in_map. exact Hx.
    + inversion Hx; subst x d. exact Hidcases.
  - rewrite map_app. cbn [map fst]. apply NoDup_snoc; assumption.
  - intros x Hx. rewrite map_app in Hx. apply in_app_or in Hx. destruct Hx as [Hx|[Hx|[]]]; [apply P4; exact Hx|subst x; exact Hm].
Qed.

(* the state after an Accept that did not kill the process: the chunk c is queued, or nothing is queued and the chunk
   is counted as dropped; d, m: the directory and the metrics afterwards *)
Definition accepted (enq : bool) (id : name) (data : bytes) (c : chunk) (d : dirT) (m : mets) (s : state) : state :=
  let s1 := set_met m (set_dir d (set_ever (st_ever s ++ [(id, data)]) s)) in
  if enq then gh (g_accept id data true) (set_queue (st_queue s ++ [c]) s1)
  else gh (fun g => g_drop id (g_accept id data false g)) s1.

Lemma accept_general : forall s s2 id data c (enq : bool) d,
  PInv s -> Inv [] s -> main_loop (st_fpc s) = true -> fresh matchf id s = true ->
  (forall y, matchf y = true -> y <> id -> dir_get d y = dir_get (st_dir s) y) ->
  dir_sorted d ->
  (dir_get d id = None \/ dir_get d id = Some (EFile data)) ->
  s2 = accepted enq id data c d (st_met s2) s ->
  (enq = true -> c_id c = id /\
     ((c_data c = Some data /\ c_saved c = false /\ dir_get d id = None) \/
      (c_data c = None /\ c_saved c = true /\ dir_get d id = Some (EFile data) /\ st_dirok s = true)) /\
     (length (st_queue s) < st_Q s)%nat) ->
  m_pbytes (st_met s2) = (m_pbytes (st_met s) + esize dirsize (dir_get d id))%Z ->
  (m_pbytes (st_met s2) <= Z.max (g_initbytes (st_gh s)) (st_max s) + g_maxfw (st_gh s))%Z ->
  m_dropped (st_met s2) = (m_dropped (st_met s) + (if enq then 0 else 1))%Z ->
  m_consumed (st_met s2) = m_consumed (st_met s) ->
  PInv s2 /\ Inv [] s2.
Proof using match_tmp.
  intros s s2 id data c enq d Hp Hinv Hml Hfresh Hfr Hsorted Hidcases E. remember (st_met s2) as m eqn:Em. clear Em. subst s2.
  intros Henq Hpb Hbound Hdr Hco.
  destruct (fresh_facts _ _ Hinv Hfresh) as (Hm & Hnever & Hnrec & Hnone & Hnent).
  destruct (dir_update_fresh _ s d id Hinv Hnent Hfr) as (F1 & F2 & F3 & F5).
  (* the history grows by one entry: what entered, what is original, the chunks tracked before *)
  assert (Eent : forall b, g_rec (st_gh s) ++ map (fun t : name * bytes * bool => fst (fst t)) (g_acc (st_gh s) ++ [(id, data, b)])
                           = entered (st_gh s) ++ [id]).
  { intros b. unfold entered, acc_ids. rewrite map_app, app_assoc. reflexivity. }
  assert (Hmono : forall x e, is_orig (st_gh s) x e -> is_orig (g_accept id data enq (st_gh s)) x e).
  { intros x e. apply is_orig_mono; [apply incl_appl; apply incl_refl|reflexivity|reflexivity]. }
  assert (Hold : forall s2 c0, st_dir s2 = d -> g_acc (st_gh s2) = g_acc (st_gh s) ++ [(id, data, enq)] ->
            g_rec (st_gh s2) = g_rec (st_gh s) -> g_init (st_gh s2) = g_init (st_gh s) -> st_dirok s2 = st_dirok s ->
            In c0 (tracked s ++ []) -> wf_chunk s2 c0).
  { intros s2 c0 E0 E1 E2 E3 E4 Hc0. eapply wf_chunk_frame with (s := set_dir d s); simp_goal;
      [rewrite E0; reflexivity|rewrite E1; apply incl_appl; apply incl_refl|exact E2|exact E3|exact E4|].
    apply F1. exact Hc0. }
  assert (Hsp : m_pbytes m = owned_sum dirsize d (entered (st_gh s) ++ [id])).
  { rewrite Hpb, owned_sum_app, F5, (i_space _ _ _ _ Hinv). cbn [owned_sum]. lia. }
  assert (Hmt : forall x, In x (entered (st_gh s) ++ [id]) -> matchf x = true).
  { intros x Hx. apply in_app_or in Hx. destruct Hx as [Hx|[Hx|[]]]; [apply (i_match _ _ _ _ Hinv); exact Hx|subst x; exact Hm]. }
  assert (Hsv : forall c0 back0, saving (st_fpc s) = Some (c0, back0) ->
            (m_pbytes m <= st_max s)%Z /\ (dlen c0 <= g_maxfw (st_gh s))%Z /\ c_saved c0 = false /\ exists d0, c_data c0 = Some d0).
  { intros c0 back0 Esv. destruct (st_fpc s); cbn [main_loop saving] in Hml, Esv; discriminate. }
  assert (Hae : forall x d0 b, In (x, d0, b) (g_acc (st_gh s) ++ [(id, data, enq)]) -> In (x, d0) (st_ever s ++ [(id, data)])).
  { intros x d0 b Hx. apply in_app_or in Hx. apply in_or_app. destruct Hx as [Hx|[Hx|[]]].
    - left. eapply (i_acc_ever _ _ _ _ Hinv). exact Hx.
    - right. left. inversion Hx. reflexivity. }
  assert (Hre : forall x d0 e, In (x, d0) (st_ever s ++ [(id, data)]) -> In x (g_rec (st_gh s)) ->
            dir_get (g_init (st_gh s)) x = Some e -> e = EFile d0).
  { intros x d0 e Hx Hr Hg. apply in_app_or in Hx. destruct Hx as [Hx|[Hx|[]]].
    - eapply (i_rec_ever _ _ _ _ Hinv); eassumption.
    - inversion Hx; subst. contradiction. }
  assert (Hnd : NoDup (entered (st_gh s) ++ [id])) by (apply NoDup_snoc; [apply (i_nodup _ _ _ _ Hinv)|exact Hnent]).
  assert (Hret : forall x, In x (g_retained (st_gh s)) ->
            exists e, dir_get d x = Some e /\ is_orig (g_accept id data enq (st_gh s)) x e).
  { intros x Hx. destruct (F2 x Hx) as (e & He1 & He2). exists e. split; [exact He1|].
    apply Hmono. exact He2. }
  assert (Hoff : forall c0, In c0 (g_offered (st_gh s)) ->
            exists d0, c_data c0 = Some d0 /\ is_orig (g_accept id data enq (st_gh s)) (c_id c0) (EFile d0)).
  { intros c0 Hc0. destruct (i_offered_orig _ _ _ _ Hinv c0 Hc0) as (d0 & Hd1 & Hd2). exists d0. split; [exact Hd1|].
    apply Hmono. exact Hd2. }
  pose proof (conj Hbound (proj2 (i_bound _ _ _ _ Hinv))) as Hbd.
  destruct (i_fifo _ _ _ _ Hinv) as (rest & Hr & Hrest). specialize (Hrest Hml). subst rest.
  split.
  { apply (pinv_accept s _ id data Hp Hm Hnever); unfold accepted; destruct enq; simp_goal; try reflexivity; assumption. }
  unfold accepted. destruct Hinv; simp_state.
  destruct enq; (constructor; simp_goal; rewrite ?Hco, ?Eent; try field_trivial).
  - (* queued: i_count *)
    intros x. specialize (i_count x). destruct (Henq eq_refl) as (Hid & _). clear - i_count Hid. cnt_norm. rewrite Hid. lia.
  - (* i_chunk *) intros c0 Hc0.
    assert (Hor : In c0 ((st_queue s ++ hand_all (st_fpc s) ++ st_win s ++ st_hold s) ++ []) \/ c = c0) by (clear - Hc0; in_norm; tauto).
    destruct Hor as [Hor|Hor]; [apply Hold; try reflexivity; exact Hor|]. subst c0.
    destruct (Henq eq_refl) as (Hid & Hcases & _). unfold wf_chunk. simp_goal. rewrite Hid.
    destruct Hcases as [(Hd & Hs & Hdir)|(Hd & Hs & Hdir & Hok)]; rewrite Hd, Hs.
    + split; [|exact Hdir]. exists true. apply in_or_app. right. left. reflexivity.
    + split; [|exact Hok]. exists (EFile data). split; [exact Hdir|].
      left. exists data, true. split; [|reflexivity]. apply in_or_app. right. left. reflexivity.
  - rewrite Hdr, i_dropped. lia.
  - (* i_fifo *) destruct (Henq eq_refl) as (Hid & _).
    exists (feeder_ids (st_fpc s) ++ ids (st_queue s ++ [c])). split; [|intros _; reflexivity].
    rewrite filter_app, map_app, ids_app. cbn [filter snd map fst ids]. rewrite Hid, app_assoc, Hr, <- !app_assoc. reflexivity.
  - (* i_qbound *) destruct (Henq eq_refl) as (_ & _ & Hlt). rewrite app_length. cbn [length]. lia.
  - (* i_empty *) split; [intros Haq; destruct (st_fpc s); cbn [main_loop after_queue] in Hml, Haq; discriminate|apply i_empty].
  - (* dropped: i_count *)
    intros x. specialize (i_count x). clear - i_count. cnt_norm. lia.
  - (* i_chunk *) intros c0 Hc0. apply Hold; try reflexivity. exact Hc0.
  - rewrite Hdr, i_dropped, app_length. cbn [length]. lia.
  - (* i_fifo *) exists (feeder_ids (st_fpc s) ++ ids (st_queue s)). split; [|intros _; reflexivity].
    rewrite filter_app. cbn [filter snd]. rewrite app_nil_r. exact Hr.
Qed.

Lemma not_closed_main_loop : forall s, Inv [] s -> st_closed s = false -> main_loop (st_fpc s) = true.
Proof.
  intros s Hinv Hc. destruct (main_loop (st_fpc s)) eqn:E; [reflexivity|].
  apply (i_closed _ _ _ _ Hinv) in E. congruence.
Qed.

(* the post-state is the one [accepted] describes, field by field *)
Ltac is_accepted := apply state_ext; unfold accepted; simp_goal; reflexivity.

(* the bookkeeping for the new chunk c0, computed; [rw] says what is under its name afterwards *)
Ltac accept_norm c0 rw :=
  subst c0; simp_state; unfold op_on_dropped, dlen, unloaded; cbn [c_saved c_data c_id]; simp_state; rw; cbn [esize];
  try reflexivity; try lia.

Lemma good_accept : forall s s' id data ws,
  PInv s -> Inv [] s -> do_accept matchf id data ws s = Some s' -> Good s'.
Proof using match_tmp.
  intros s s' id data ws Hp Hinv H. unfold do_accept in H.
  destruct (st_up s && negb (st_closed s) && fresh matchf id s) eqn:Eg; [|discriminate].
  apply andb_prop in Eg. destruct Eg as [Eg Hfresh]. apply andb_prop in Eg. destruct Eg as [Hup Hncl].
  apply Bool.negb_true_iff in Hncl.
  pose proof (not_closed_main_loop _ Hinv Hncl) as Hml.
  destruct (fresh_facts _ _ Hinv Hfresh) as (Hm & Hnever & Hnrec & Hnone & Hnent).
  pose proof (i_bound _ _ _ _ Hinv) as [Hb1 Hb2].
  simp_state.
  destruct (Nat.leb (st_M s / 2) (length (st_win s))) eqn:Espill.
  - (* unload chunk for queuing *)
    set (c0 := {| c_id := id; c_data := Some data; c_saved := false |}) in *.
    destruct (unload_cases (st_dirok s) (st_max s) ws (st_dir s) (add_in_p 1 (add_pending 1 (st_met s))) c0)
      as [[Hck Hu]|[[Hck Hu]|(dat & Hck & Hu)]]; rewrite Hu in H; clear Hu.
    + apply unload_check_yes in Hck. discriminate.
    + (* cannot be saved *)
      inversion H; subst s'; clear H.
      apply good_and.
      apply (accept_general s _ id data c0 false (st_dir s) Hp Hinv Hml Hfresh (fun _ _ _ => eq_refl) (p_sorted _ _ Hp) (or_introl Hnone));
        [is_accepted|..]; accept_norm c0 ltac:(rewrite ?Hnone).
    + destruct (unload_check_write _ _ _ _ _ Hck) as (_ & Hd & Hok & Hquota). cbn [c0 c_data] in Hd. inversion Hd; subst dat. clear Hd.
      simp_state.
      destruct (unload_write ws (st_dir s) (add_in_p 1 (add_pending 1 (st_met s))) c0 data) as [d m c' ok|d] eqn:Ew.
      * destruct (unload_write_ret _ _ _ _ _ _ _ _ _ Ew) as (Hf & Hsrt & Hyes & Hno). cbn [c0 c_id] in Hf.
        pose proof (frame_matching _ _ _ Hf Hm) as Hfm.
        destruct ok.
        -- destruct (Hyes eq_refl) as (Hc' & Hdir & Hmet). subst m c'. cbn [c0 c_id] in Hdir.
           unfold enqueue in H. simp_state.
           destruct (Nat.ltb (length (st_queue s)) (st_Q s)) eqn:Eroom; inversion H; subst s'; clear H.
           ++ apply Nat.ltb_lt in Eroom.
              apply good_and.
              apply (accept_general s _ id data (unloaded c0) true d Hp Hinv Hml Hfresh Hfm (Hsrt (p_sorted _ _ Hp)) (or_intror Hdir));
                [is_accepted|..]; accept_norm c0 ltac:(rewrite ?Hdir).
              { intros _. split; [reflexivity|]. split; [|exact Eroom]. right. repeat split; assumption. }
           ++ apply good_and.
              apply (accept_general s _ id data (unloaded c0) false d Hp Hinv Hml Hfresh Hfm (Hsrt (p_sorted _ _ Hp)) (or_intror Hdir));
                [is_accepted|..]; accept_norm c0 ltac:(rewrite ?Hdir).
        -- destruct (Hno eq_refl) as (Hc' & Hdir & Hmet). subst m c'. cbn [c0 c_id] in Hdir.
           inversion H; subst s'; clear H.
           apply good_and.
           apply (accept_general s _ id data c0 false d Hp Hinv Hml Hfresh Hfm (Hsrt (p_sorted _ _ Hp)) (or_introl (eq_trans Hdir Hnone)));
             [is_accepted|..]; accept_norm c0 ltac:(rewrite ?Hdir, ?Hnone).
      * (* killed during the write *)
        inversion H; subst s'; clear H.
        destruct (unload_write_died _ _ _ _ _ _ Ew) as (Hf & Hsrt & Hcases). cbn [c0 c_id] in *.
        pose proof (frame_matching _ _ _ Hf Hm) as Hfm.
        split; [|simp_state; intros; discriminate].
        apply (pinv_accept s _ id data Hp Hm Hnever); simp_state; [reflexivity|apply Hsrt; apply (p_sorted _ _ Hp)|exact Hfm|].
        rewrite Hnone in Hcases. exact Hcases.
  - (* pass chunk to queue *)
    set (c0 := {| c_id := id; c_data := Some data; c_saved := false |}) in *.
    unfold enqueue in H. simp_state.
    destruct (Nat.ltb (length (st_queue s)) (st_Q s)) eqn:Eroom; inversion H; subst s'; clear H.
    + apply Nat.ltb_lt in Eroom.
      apply good_and.
      apply (accept_general s _ id data c0 true (st_dir s) Hp Hinv Hml Hfresh (fun _ _ _ => eq_refl) (p_sorted _ _ Hp) (or_introl Hnone));
        [is_accepted|..]; accept_norm c0 ltac:(rewrite ?Hnone).
      { intros _. split; [reflexivity|]. split; [|exact Eroom]. left. repeat split; reflexivity. }
    + apply good_and.
      apply (accept_general s _ id data c0 false (st_dir s) Hp Hinv Hml Hfresh (fun _ _ _ => eq_refl) (p_sorted _ _ Hp) (or_introl Hnone));
        [is_accepted|..]; accept_norm c0 ltac:(rewrite ?Hnone).
Qed.

Lemma recover_fold : forall d l m,
  (forall c, In c l -> exists e, dir_get d (c_id c) = Some e) ->
  m_pbytes (fold_left (recover_one dirsize d) l m) = (m_pbytes m + owned_sum dirsize d (ids l))%Z /\
  m_dropped (fold_left (recover_one dirsize d) l m) = m_dropped m /\
  m_consumed (fold_left (recover_one dirsize d) l m) = m_consumed m.
Proof using match_tmp.
  induction l as [|c l IH]; intros m Hex; cbn [fold_left ids map owned_sum].
  - repeat split; lia.
  - destruct (Hex c (or_introl eq_refl)) as (e & He).
    destruct (IH (recover_one dirsize d m c) (fun c0 H0 => Hex c0 (or_intror H0))) as (I1 & I2 & I3).
    fold (ids l). rewrite I1, I2, I3. unfold recover_one, stat_size. rewrite He.
    destruct e; simp_state; cbn [esize]; repeat split; lia.
Qed.

Lemma scan_props : forall dirok d c, In c (scan matchf dirok d) ->
  dirok = true /\ c_data c = None /\ c_saved c = true /\ matchf (c_id c) = true /\ In (c_id c) (dir_names d).
Proof.
  intros dirok d c H. unfold scan in H. destruct dirok; [|contradiction].
  apply in_map_iff in H. destruct H as (n & Hc & Hn). subst c. cbn [c_id c_data c_saved].
  apply filter_In in Hn. destruct Hn as [Hn Hf]. apply andb_prop in Hf. destruct Hf as [_ Hf].
  repeat split; assumption.
Qed.

Lemma scan_ids_sorted : forall dirok d, dir_sorted d -> StronglySorted name_lt (ids (scan matchf dirok d)).
Proof.
  intros dirok d Hs. unfold scan. destruct dirok; [|constructor].
  unfold ids. rewrite map_map. cbn [c_id]. rewrite map_id. apply sorted_filter. exact Hs.
Qed.

Lemma good_restart : forall s Q M maxb dirok, PInv s -> PInv (restart matchf dirsize Q M maxb dirok s) /\ Inv [] (restart matchf dirsize Q M maxb dirok s).
Proof using match_tmp.
  intros s Q M maxb dirok Hp. split.
  { apply pinv_same with (s := s); [reflexivity|reflexivity|exact Hp]. }
  set (rec := firstn Q (scan matchf dirok (st_dir s))).
  assert (Hrec : forall c, In c rec -> dirok = true /\ c_data c = None /\ c_saved c = true /\ matchf (c_id c) = true /\ In (c_id c) (dir_names (st_dir s))).
  { intros c Hc. apply (scan_props dirok (st_dir s)). eapply in_firstn_in. exact Hc. }
  assert (Hsorted : StronglySorted name_lt (ids rec)).
  { unfold rec, ids. rewrite <- firstn_map. apply sorted_firstn. apply scan_ids_sorted. apply (p_sorted _ _ Hp). }
  assert (Hex : forall c, In c rec -> exists e, dir_get (st_dir s) (c_id c) = Some e).
  { intros c Hc. apply dir_in_get. apply Hrec. exact Hc. }
  destruct (recover_fold (st_dir s) rec (if dirok then mets0 else add_ioerr 1 mets0) Hex) as (R1 & R2 & R3).
  unfold restart. fold rec. constructor; unfold ghost0; simp_state; rewrite ?app_nil_r; try field_trivial.
  all: try solve [intros ? []]. (* i_ret, i_conf, i_offered_orig: nothing is retained, confirmed or offered yet *)
  all: try solve [intros ? ? ? []]. (* i_acc_ever *)
  all: try solve [cbn [length]; lia]. (* i_bound, i_winbound *)
  - (* i_nodup *) apply sorted_nodup. exact Hsorted.
  - (* i_count *) intros x. cnt_norm. lia.
  - (* i_match *) intros x Hx. apply in_map_iff in Hx. destruct Hx as (c & Hc & Hin). subst x. apply Hrec. exact Hin.
  - (* i_chunk *) intros c Hc0. assert (Hc : In c rec) by (in_norm; tauto). clear Hc0.
    destruct (Hrec c Hc) as (Hok & Hd & Hs & Hm & Hin). destruct (Hex c Hc) as (e & He).
    unfold wf_chunk. rewrite Hd, Hs. simp_state. split; [|exact Hok].
    exists e. split; [exact He|]. right. simp_state. split; [apply ids_in; exact Hc|exact He].
  - (* i_space *) rewrite R1. unfold ids. destruct dirok; unfold mets0; simp_state; lia.
  - (* i_dropped *) rewrite R2. destruct dirok; unfold mets0; simp_state; reflexivity.
  - (* i_consumed *) rewrite R3. destruct dirok; unfold mets0; simp_state; reflexivity.
  - (* i_fifo *) exists (ids rec). split; [reflexivity|intros _; reflexivity].
  - (* i_qbound *) unfold rec. apply firstn_le_length.
  - (* i_rec_ever *) intros x d e Hx Hr He. destruct (p_ever_files _ _ Hp x d Hx) as [Hn|Hn]; rewrite Hn in He; [discriminate|].
    inversion He. reflexivity.
Qed.

Lemma good_tamper : forall s s' n e, Good s -> do_tamper matchf n e s = Some s' -> Good s'.
Proof.
  intros s s' n e [Hp Hi] H. unfold do_tamper in H.
  assert (Hget : forall y, y <> n -> dir_get (apply_tamper n e (st_dir s)) y = dir_get (st_dir s) y).
  { intros y Hy. unfold apply_tamper. destruct e; [apply dir_get_set_other|apply dir_get_del_other]; exact Hy. }
  assert (Hsrt : dir_sorted (apply_tamper n e (st_dir s))).
  { unfold apply_tamper. destruct e; [apply dir_sorted_set|apply dir_sorted_del]; apply (p_sorted _ _ Hp). }
  assert (Hpin : ~ In n (map fst (st_ever s)) -> PInv (set_dir (apply_tamper n e (st_dir s)) s)).
  { intros Hn. destruct Hp as [P1 P2 P3 P4]. constructor; simp_state; try assumption.
    intros x d Hx. rewrite Hget; [apply P2; exact Hx|]. intros E. subst x. apply Hn. change n with (fst (n, d)). apply in_map. exact Hx. }
  destruct (matchf n) eqn:Hm.
  - destruct (down s && negb (mem_name n (map fst (st_ever s)))) eqn:Eg; [|discriminate].
    inversion H; subst s'; clear H. apply andb_prop in Eg. destruct Eg as [_ Hn].
    apply Bool.negb_true_iff in Hn. apply mem_name_false in Hn.
    split; [eapply pinv_same; [| |exact (Hpin Hn)]; reflexivity|simp_state; intros; discriminate].
  - inversion H; subst s'; clear H.
    assert (Hfr : forall y, matchf y = true -> y <> n -> dir_get (apply_tamper n e (st_dir s)) y = dir_get (st_dir s) y).
    { intros y _ Hy. apply Hget. exact Hy. }
    split.
    + apply Hpin. intros Hin. apply (p_ever_match _ _ Hp) in Hin. congruence.
    + simp_state. intros Hup. specialize (Hi Hup).
      assert (Hnent : ~ In n (entered (st_gh s))).
      { intros Hin. apply (i_match _ _ _ _ Hi) in Hin. congruence. }
      destruct (dir_update_fresh _ s _ n Hi Hnent Hfr) as (F1 & F2 & F3 & F5).
      destruct Hi. constructor; simp_state; try field_trivial. rewrite F5. exact i_space.
Qed.

(* an event that changes neither the directory nor the list of all chunks ever accepted *)
Ltac pinv_unchanged H Hp f :=
  eapply pinv_same; [| |exact Hp]; unfold f in H;
  repeat match type of H with
         | context [match ?x with _ => _ end] => destruct x
         end; try discriminate; inversion H; reflexivity.

Theorem good_step : forall s e s', Good s -> step matchf dirsize s e = Some s' -> Good s'.
Proof.
  intros s e s' Hg H. unfold step in H.
  destruct e.
  all: try (destruct (st_up s) eqn:Hup; [|discriminate]; destruct Hg as [Hp Hi]; specialize (Hi Hup)).
  - (* Accept *) exact (good_accept _ _ _ _ _ Hp Hi H).
  - (* FeedTake *) split; [pinv_unchanged H Hp do_feed_take|intros _; eapply inv_feed_take; eassumption].
  - (* FeedLoad *) exact (good_and _ (good_feed_load _ _ _ Hp Hi H)).
  - (* FeedPush *) split; [pinv_unchanged H Hp do_feed_push|intros _; eapply inv_feed_push; eassumption].
  - (* FeedStop *) split; [pinv_unchanged H Hp do_feed_stop|intros _; eapply inv_feed_stop; eassumption].
  - (* SaveCheck *) exact (good_and _ (good_save_check _ _ Hp Hi H)).
  - (* SaveWrite *) exact (good_save_write _ _ _ Hp Hi H).
  - (* SaveEnd *) split; [pinv_unchanged H Hp do_save_end|intros _; eapply inv_save_end; eassumption].
  - (* FeedStopped *) split; [pinv_unchanged H Hp do_feed_stopped|intros _; eapply inv_feed_stopped; eassumption].
  - (* Register *) destruct (is_stopped (st_fpc s)); [discriminate|]. inversion H; subst s'.
    split; [apply pinv_same with (s := s); try exact Hp; reflexivity|intros _; apply inv_set_cons; exact Hi].
  - (* ConsTake *) split; [pinv_unchanged H Hp do_cons_take|intros _; eapply inv_cons_take; eassumption].
  - (* Consumed *) exact (good_and _ (inv_consumed _ _ _ Hp Hi H)).
  - (* Leftover *) exact (good_leftover _ _ _ _ Hp Hi H).
  - (* ConsFinish *) destruct (st_cons s); [discriminate|]. inversion H; subst s'.
    split; [apply pinv_same with (s := s); try exact Hp; reflexivity|intros _; apply inv_set_cons; exact Hi].
  - (* Destroy *) destruct (st_closed s); [discriminate|]. inversion H; subst s'.
    split; [apply pinv_same with (s := s); try exact Hp; reflexivity|intros _; apply inv_set_closed; exact Hi].
  - (* Restart *) destruct (down s && Nat.ltb 0 Q && Nat.ltb 0 M); [|discriminate]. inversion H; subst s'.
    exact (good_and _ (good_restart s Q M maxb dirok (proj1 Hg))).
  - (* Crash *) inversion H; subst s'. split; [apply pinv_same with (s := s); try exact Hp; reflexivity|simp_state; intros; discriminate].
  - (* Tamper *) eapply good_tamper; eassumption.
Qed.

Lemma good_init : forall d, dir_sorted d -> Good (init d).
Proof.
  intros d Hs. split; [|cbn; intros; discriminate].
  constructor; cbn; [exact Hs|intros x dd []|constructor|intros x []].
Qed.

Theorem good_run : forall evs s s', Good s -> run matchf dirsize s evs = Some s' -> Good s'.
Proof.
  induction evs as [|e evs IH]; intros s s' Hg H; cbn [run] in H.
  - inversion H; subst. exact Hg.
  - destruct (step matchf dirsize s e) as [s1|] eqn:Es; [|discriminate].
    eapply IH; [eapply good_step; eassumption|exact H].
Qed.

End Proofs.
