(* C17 - proofs about Model/ReloadRecover.v: with the loop over initialPipelineIDs INSIDE NewOrchestrator
   ([sync = true]) no pipeline is started after its generation was shut down, every queue dir has one owner, nothing
   survives the last Shutdown, and the queued key sets have their pipelines when NewOrchestrator returns - for every
   list of steps.  The variant with the loop in a goroutine ([sync = false]) violates each of them. *)
From SV Require Import Model.Common Model.ReloadRecover Spec.ReloadRecoverSpec.
From Coq Require Import Arith List Bool Lia.
Import ListNotations.
Local Open Scope nat_scope.

Lemma mem_In id l : mem id l = true <-> In id l.
Proof.
  unfold mem. rewrite existsb_exists. split.
  - intros [x [Hx He]]. apply Nat.eqb_eq in He. now subst.
  - intros H. exists id. split; [assumption | apply Nat.eqb_refl].
Qed.

Lemma all_shut_spec st : all_shut st = true -> forall g, g < r_n st -> r_shut st g = true.
Proof. unfold all_shut. rewrite forallb_forall. intros H g Hg. apply H. apply in_seq. lia. Qed.

Lemma all_shut_intro st : (forall g, g < r_n st -> r_shut st g = true) -> all_shut st = true.
Proof. intros H. unfold all_shut. rewrite forallb_forall. intros g Hg. apply in_seq in Hg. apply H. lia. Qed.

Record RI (st : rstate) : Prop := mkRI {
  ri_shut_ret : forall g, g < r_n st -> r_shut st g = true -> r_ret st g = true;
  ri_ret_todo : forall g, g < r_n st -> r_ret st g = true -> r_todo st g = [];
  ri_live : forall g id, In (g, id) (r_live st) -> g < r_n st /\ r_shut st g = false /\ In id (r_made st g);
  ri_one : forall g1 g2, g1 < r_n st -> g2 < r_n st -> r_shut st g1 = false -> r_shut st g2 = false -> g1 = g2;
  ri_nodup : NoDup (r_live st);
  ri_log : forall g, In (ShutRet g) (r_log st) -> g < r_n st /\ r_shut st g = true;
  ri_starts : starts_ok (r_log st);
  ri_ids : forall g id, g < r_n st -> In id (r_ids st g) -> In id (r_todo st g) \/ In id (r_made st g);
  ri_made_live : forall g id, g < r_n st -> r_shut st g = false -> In id (r_made st g) -> In (g, id) (r_live st)
}.

Lemma RI_init : RI rinit.
Proof. constructor; cbn; intros; try lia; try contradiction; try constructor. Qed.

(* the update of a function nat -> A at g (not the list update of Model/Reload.v), read at g0: the two cases of its test *)
Tactic Notation "dg" constr(g0) constr(g) :=
  unfold ReloadRecover.upd in *; destruct (Nat.eqb_spec g0 g) as [?|?]; [subst|].

Lemma goc_inv st g id todo :
  RI st -> g < r_n st -> r_shut st g = false ->
  (r_ret st g = true -> todo = []) ->
  (forall i, In i (r_ids st g) -> In i todo \/ In i (r_made st g) \/ i = id) ->
  RI (get_or_create st g id todo).
Proof.
  intros I Hg Hs Ht Hi. unfold get_or_create.
  destruct (mem id (r_made st g)) eqn:M.
  - apply mem_In in M.
    constructor; cbn [r_n r_ids r_todo r_made r_ret r_shut r_live r_log]; try apply I.
    + intros g0 H0 H1. dg g0 g; [auto | now apply (ri_ret_todo _ I)].
    + intros g0 i H0 H1. dg g0 g.
      * destruct (Hi _ H1) as [?|[?|?]]; subst; auto.
      * now apply (ri_ids _ I).
  - assert (Hn : ~ In id (r_made st g)) by (intros H; apply mem_In in H; congruence).
    constructor; cbn [r_n r_ids r_todo r_made r_ret r_shut r_live r_log]; try apply I.
    + intros g0 H0 H1. dg g0 g; [auto | now apply (ri_ret_todo _ I)].
    + intros g0 i [H|H].
      * injection H as E1 E2. subst g0 i. dg g g; [|congruence]. repeat split; auto. apply in_or_app; right; now left.
      * destruct (ri_live _ I _ _ H) as [A [B C]]. repeat split; auto. dg g0 g; auto. apply in_or_app; now left.
    + constructor; [|apply I]. intros H. apply (ri_live _ I) in H. tauto.
    + intros g0 [H|H]; [discriminate|]. now apply (ri_log _ I).
    + cbn. split; [|apply I]. intros H. apply (ri_log _ I) in H. destruct H; congruence.
    + intros g0 i H0 H1. dg g0 g.
      * destruct (Hi _ H1) as [?|[?|?]]; subst; auto; right; apply in_or_app; [now left | right; now left].
      * now apply (ri_ids _ I).
    + intros g0 i H0 H1 H2. dg g0 g.
      * apply in_app_or in H2. destruct H2 as [H2|[H2|[]]]; [right; now apply (ri_made_live _ I) | left; now subst].
      * right. now apply (ri_made_live _ I).
Qed.

Lemma starts_ok_app_stops g l log : starts_ok log -> starts_ok (rev (map (PStop g) l) ++ log).
Proof. rewrite <- map_rev. induction (rev l); cbn; auto. Qed.

Lemma returned_open st g :
  (g <? r_n st) && r_ret st g && negb (r_shut st g) = true -> g < r_n st /\ r_ret st g = true /\ r_shut st g = false.
Proof. rewrite !andb_true_iff, Nat.ltb_lt, negb_true_iff. tauto. Qed.

Lemma in_stops g l log x : In (ShutRet x) (rev (map (PStop g) l) ++ log) -> In (ShutRet x) log.
Proof.
  intros H. apply in_app_or in H. destruct H as [H|H]; [|assumption].
  apply in_rev in H. apply in_map_iff in H. destruct H as [? [? ?]]. discriminate.
Qed.

Lemma rstep_inv st e st' : RI st -> rstep true st e = Some st' -> RI st'.
Proof.
  intros I H. destruct e as [ids|g|g|g id|g]; cbn [rstep] in H.
  - destruct (all_shut st) eqn:A; [|discriminate]. inversion H; subst; clear H.
    pose proof (all_shut_spec _ A) as AS.
    constructor; cbn [r_n r_ids r_todo r_made r_ret r_shut r_live r_log]; try apply I.
    + intros g H0 H1. dg g (r_n st); [discriminate|]. apply (ri_shut_ret _ I); [lia|auto].
    + intros g H0 H1. dg g (r_n st); [discriminate|]. apply (ri_ret_todo _ I); [lia|auto].
    + intros g i H. destruct (ri_live _ I _ _ H) as [A1 [A2 A3]]. rewrite (AS _ A1) in A2. discriminate.
    + intros g1 g2 H1 H2 S1 S2. dg g1 (r_n st); dg g2 (r_n st); auto.
      * rewrite AS in S2; [discriminate|lia].
      * rewrite AS in S1; [discriminate|lia].
      * rewrite AS in S1; [discriminate|lia].
    + intros g H. destruct (ri_log _ I _ H) as [A1 A2]. split; [lia|]. dg g (r_n st); [lia|auto].
    + intros g i H0 H1. dg g (r_n st); [now left|]. apply (ri_ids _ I); [lia|auto].
    + intros g i H0 H1 H2. dg g (r_n st); [contradiction|]. rewrite AS in H1; [discriminate|lia].
  - destruct (g <? r_n st) eqn:L; [|discriminate]. apply Nat.ltb_lt in L.
    destruct (r_todo st g) as [|id rest] eqn:T; [discriminate|]. inversion H; subst; clear H.
    assert (R : r_ret st g = false).
    { destruct (r_ret st g) eqn:R; auto. rewrite (ri_ret_todo _ I _ L R) in T. discriminate. }
    assert (S : r_shut st g = false).
    { destruct (r_shut st g) eqn:S; auto. rewrite (ri_shut_ret _ I _ L S) in R. discriminate. }
    apply goc_inv; auto.
    + congruence.
    + intros i Hi. destruct (ri_ids _ I _ _ L Hi) as [H|H]; auto. rewrite T in H. destruct H; subst; auto.
  - destruct ((g <? r_n st) && negb (r_ret st g) && (negb true || match r_todo st g with [] => true | _ => false end)) eqn:C; [|discriminate].
    inversion H; subst; clear H.
    apply andb_prop in C. destruct C as [C C3]. apply andb_prop in C. destruct C as [C1 C2].
    apply Nat.ltb_lt in C1. cbn in C3. destruct (r_todo st g) eqn:T; [|discriminate].
    constructor; cbn [r_n r_ids r_todo r_made r_ret r_shut r_live r_log]; try apply I.
    + intros g0 H0 H1. dg g0 g; auto. now apply (ri_shut_ret _ I).
    + intros g0 H0 H1. dg g0 g; auto. now apply (ri_ret_todo _ I).
  - destruct ((g <? r_n st) && r_ret st g && negb (r_shut st g)) eqn:C; [|discriminate].
    inversion H; subst; clear H. apply returned_open in C. destruct C as (C1 & C2 & C3).
    apply goc_inv; auto.
    + intros _. now apply (ri_ret_todo _ I).
    + intros i Hi. destruct (ri_ids _ I _ _ C1 Hi); auto.
  - destruct ((g <? r_n st) && r_ret st g && negb (r_shut st g)) eqn:C; [|discriminate].
    inversion H; subst; clear H. apply returned_open in C. destruct C as (C1 & C2 & C3).
    constructor; cbn [r_n r_ids r_todo r_made r_ret r_shut r_live r_log]; try apply I.
    + intros g0 H0 H1. dg g0 g; auto. now apply (ri_shut_ret _ I).
    + intros g0 i H. apply filter_In in H. destruct H as [H F]. cbn in F. apply negb_true_iff in F. apply Nat.eqb_neq in F.
      destruct (ri_live _ I _ _ H) as [A1 [A2 A3]]. dg g0 g; [congruence|]. auto.
    + intros g1 g2 H1 H2 S1 S2. dg g1 g; [discriminate|]. dg g2 g; [discriminate|]. now apply (ri_one _ I).
    + apply NoDup_filter. apply I.
    + intros g0 [H|H].
      * injection H as E. subst g0. split; auto. dg g g; [auto|congruence].
      * apply in_stops in H. destruct (ri_log _ I _ H). split; auto. dg g0 g; auto.
    + cbn. apply starts_ok_app_stops. apply I.
    + intros g0 i H0 H1 H2. dg g0 g; [discriminate|]. apply filter_In. split; [now apply (ri_made_live _ I)|].
      cbn. apply negb_true_iff. now apply Nat.eqb_neq.
Qed.

Lemma rrun_inv evs : forall st st', RI st -> rrun true st evs = Some st' -> RI st'.
Proof.
  induction evs as [|e r IH]; intros st st' I H; cbn in H.
  - now inversion H; subst.
  - destruct (rstep true st e) eqn:E; [|discriminate]. eapply IH; [|exact H]. eapply rstep_inv; eauto.
Qed.

Lemma reach_inv evs st : rrun true rinit evs = Some st -> RI st.
Proof. apply rrun_inv, RI_init. Qed.

Lemma no_start_after_shutdown_lemma :
  forall evs st, rrun true rinit evs = Some st -> starts_ok (r_log st).
Proof. intros evs st H. apply (ri_starts _ (reach_inv _ _ H)). Qed.

Lemma one_owner_lemma :
  forall evs st, rrun true rinit evs = Some st -> one_owner (r_live st).
Proof.
  intros evs st H. pose proof (reach_inv _ _ H) as I. split; [apply I|].
  intros g1 g2 id H1 H2. destruct (ri_live _ I _ _ H1) as [A1 [A2 _]]. destruct (ri_live _ I _ _ H2) as [B1 [B2 _]].
  now apply (ri_one _ I).
Qed.

Lemma none_live_after_shutdown_lemma :
  forall evs st, rrun true rinit evs = Some st -> all_shut st = true -> r_live st = [].
Proof.
  intros evs st H A. pose proof (reach_inv _ _ H) as I. destruct (r_live st) as [|[g id] l] eqn:L; auto.
  destruct (ri_live _ I g id) as [A1 [A2 _]]; [rewrite L; now left|].
  rewrite (all_shut_spec _ A _ A1) in A2. discriminate.
Qed.

(* when NewOrchestrator has returned and until Shutdown, every queued key set has its running pipeline in THIS
   generation (the queued chunks are taken over by the new pipelines) *)
Lemma takeover_complete_lemma :
  forall evs st g id, rrun true rinit evs = Some st -> g < r_n st -> r_ret st g = true -> r_shut st g = false ->
  In id (r_ids st g) -> In (g, id) (r_live st).
Proof.
  intros evs st g id H Hg R S Hi. pose proof (reach_inv _ _ H) as I.
  apply (ri_made_live _ I); auto. destruct (ri_ids _ I _ _ Hg Hi) as [T|T]; auto.
  rewrite (ri_ret_todo _ I _ Hg R) in T. contradiction.
Qed.

(* the variant: the loop over initialPipelineIDs runs in a goroutine, NewOrchestrator returns at once.
   Schedule 1 (reload; shutdown): generation 0 with queue dirs 1,2 returns, is shut down, then its goroutine creates
   the pipeline of dir 1: started after Shutdown, alive although every generation is shut down.
   Schedule 2 (reload; reload): ... generation 1 is created and recovers dir 1, then generation 0's goroutine does too:
   two running pipelines on queue dir 1. *)
Definition async_witness_1 : list revent := [RNew [1; 2]; RReturn 0; RShutdown 0; RCreate 0].
Definition async_witness_2 : list revent := [RNew [1; 2]; RReturn 0; RShutdown 0; RNew [1; 2]; RCreate 1; RCreate 0].

Lemma async_variant_refuted_lemma :
  (exists st, rrun false rinit async_witness_1 = Some st /\ ~ starts_ok (r_log st) /\ all_shut st = true /\ r_live st <> []) /\
  (exists st, rrun false rinit async_witness_2 = Some st /\ ~ one_owner (r_live st)) /\
  (exists st, rrun false rinit [RNew [1; 2]; RReturn 0] = Some st /\ r_ret st 0 = true /\ r_shut st 0 = false /\ ~ In (0, 1) (r_live st)).
Proof.
  split; [|split].
  - eexists. split; [vm_compute; reflexivity|]. cbn. split; [|split].
    + intros [H _]. apply H. now left.
    + reflexivity.
    + discriminate.
  - eexists. split; [vm_compute; reflexivity|]. cbn. intros [_ H].
    specialize (H 0 1 1). assert (0 = 1) by (apply H; [now left | right; now left]). discriminate.
  - eexists. split; [vm_compute; reflexivity|]. cbn. repeat split; auto.
Qed.

(* the same schedules are not runs of the code: NewOrchestrator cannot return before the loop is done *)
Lemma async_witness_not_a_run_lemma :
  rrun true rinit async_witness_1 = None /\ rrun true rinit async_witness_2 = None.
Proof. split; vm_compute; reflexivity. Qed.

(* non-vacuity: two back-to-back reloads with two queued key sets and traffic for a third; the run exists, ends with
   everything shut down, six + one pipelines started and stopped *)
Definition recover_example : list revent :=
  new_generation_events 0 [0; 1] ++ sched_events [(1, 0); (3, 5); (1, 0)]%Z 0 [0; 1].

Lemma recover_example_lemma :
  exists st, rrun true rinit recover_example = Some st /\ all_shut st = true /\ r_n st = 3 /\
             length (filter (fun e => match e with PStart _ _ => true | _ => false end) (r_log st)) = 8.
Proof. eexists. split; [vm_compute; reflexivity|]. cbn. repeat split. Qed.
