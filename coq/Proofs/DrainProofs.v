(* C04, "a damaged or partial file found at startup never blocks recovery of the other chunks":
   there is a schedule (the feeder runs, a consumer takes and confirms) on which, after a start-up, every
   recovered chunk whose file is a non-empty regular file is delivered with its content, in name order,
   whatever damaged entries (empty files, directories, names that vanished) lie between them. *)
From SV Require Import Model.Common Model.FileWrite Model.Buffer Spec.BufferSpec
     Proofs.CommonFacts Proofs.FileWriteProofs Proofs.BufferInv Proofs.BufferProofs Proofs.BufferTheorems.
From Coq Require Import Lia Sorting.Sorted.

Definition unloaded_chunk (n : name) : chunk := {| c_id := n; c_data := None; c_saved := true |}.

Definition good_content (d : dirT) (n : name) : option bytes :=
  match dir_get d n with
  | Some (EFile (b :: r)) => Some (b :: r)
  | _ => None
  end.

(* what must reach the consumer: the good files, in the order of the names *)
Fixpoint delivered (d : dirT) (names : list name) : list (name * option bytes) :=
  match names with
  | [] => []
  | n :: r => match good_content d n with
              | Some c => (n, Some c) :: delivered d r
              | None => delivered d r
              end
  end.

Definition received (s : state) : list (name * option bytes) :=
  map (fun c => (c_id c, c_data c)) (taken (st_gh s)).

Section Drain.
Variable matchf : name -> bool.
Variable dirsize : Z.
Notation step := (step matchf dirsize).
Notation run := (run matchf dirsize).

(* the feeder waits at the queue, the window and the consumer's hands are empty *)
Definition ready (s : state) : Prop :=
  st_up s = true /\ st_fpc s = FRecv /\ st_win s = [] /\ st_hold s = [] /\ st_cons s = 1%nat /\
  st_dirok s = true /\ (1 <= st_M s)%nat.

Lemma run_cons : forall s e evs s1, step s e = Some s1 -> run s (e :: evs) = run s1 evs.
Proof. intros s e evs s1 H. cbn [Buffer.run]. rewrite H. reflexivity. Qed.

Lemma delivered_ext : forall d d' names,
  (forall m, In m names -> dir_get d' m = dir_get d m) -> delivered d' names = delivered d names.
Proof.
  induction names as [|n r IH]; intros H; cbn [delivered]; [reflexivity|].
  unfold good_content. rewrite H by (left; reflexivity).
  rewrite IH by (intros m Hm; apply H; right; exact Hm). reflexivity.
Qed.

(* the chunk at the head of the queue: loaded, offered, taken and confirmed if its file is good; dropped otherwise *)
Lemma drain_one : forall n q s,
  ready s -> st_queue s = unloaded_chunk n :: q ->
  exists evs s', run s evs = Some s' /\ ready s' /\ st_queue s' = q /\
    received s' = received s ++ delivered (st_dir s) [n] /\
    (forall m, m <> n -> dir_get (st_dir s') m = dir_get (st_dir s) m).
Proof.
  intros n q s (Hup & Hf & Hw & Hh & Hc & Hok & HM) Hq.
  cbn [delivered]. unfold good_content.
  (* the feeder receives the chunk and tries to load it; each step is computed, the state after it is not written down *)
  assert (S12 : forall evs, run s (EFeedTake :: EFeedLoad false :: evs) =
            match step (set_fpc (FLoad (unloaded_chunk n)) (set_met (add_q_p (-1) (st_met s)) (set_queue q s))) (EFeedLoad false) with
            | Some s2 => run s2 evs | None => None end).
  { intros evs. cbn [Buffer.run]. unfold Buffer.step at 1. rewrite Hup. unfold do_feed_take. rewrite Hf, Hq. reflexivity. }
  destruct (dir_get (st_dir s) n) as [[[|b r]|]|] eqn:Ed.
  2: { (* a good file: loaded, offered, taken, confirmed *)
    exists [EFeedTake; EFeedLoad false; EFeedPush; EConsTake; EConsumed 0]. eexists. split.
    { rewrite S12. unfold Buffer.step at 1. simp_goal. rewrite Hup. unfold do_feed_load. simp_goal.
      unfold op_load, unloaded_chunk. cbn [c_data c_saved c_id negb]. rewrite Hok. cbn [negb].
      unfold read_file_at. rewrite Ed. cbn [zero_length c_data].
      cbn [Buffer.run]. unfold Buffer.step at 1. simp_goal. rewrite Hup. unfold do_feed_push. simp_goal. rewrite Hw.
      cbn [length]. destruct (Nat.ltb 0 (st_M s)) eqn:El; [|apply Nat.ltb_ge in El; lia].
      unfold Buffer.step at 1. simp_goal. rewrite Hup. unfold do_cons_take. simp_goal. rewrite Hc, Hh. cbn [Nat.ltb Nat.leb app].
      unfold Buffer.step at 1. simp_goal. rewrite Hup. unfold do_consumed. simp_goal. cbn [nth_error]. rewrite Hc. cbn [Nat.ltb Nat.leb].
      unfold op_remove. cbn [c_saved c_id negb]. rewrite Hok. cbn [negb]. unfold unlink_file_at. rewrite Ed. reflexivity. }
    split; [unfold ready; simp_goal; repeat split; assumption|]. split; [reflexivity|]. split.
    - unfold received, taken. simp_goal. rewrite filter_app, !map_app. reflexivity.
    - intros m Hm. simp_goal. apply dir_get_del_other. exact Hm. }
  (* an empty file: corrupted, removed, counted; a directory or no file any more: cannot be read, dropped and counted *)
  all: exists [EFeedTake; EFeedLoad false]; eexists; (split;
    [rewrite S12; unfold Buffer.step at 1; simp_goal; rewrite Hup; unfold do_feed_load; simp_goal;
     unfold op_load, unloaded_chunk; cbn [c_data c_saved c_id negb]; rewrite Hok; cbn [negb];
     unfold read_file_at; rewrite Ed; cbn [zero_length c_data];
     unfold op_remove; cbn [c_saved c_id negb]; rewrite ?Hok; cbn [negb]; unfold unlink_file_at; rewrite ?Ed; reflexivity|]);
    (split; [unfold ready; simp_goal; repeat split; assumption|]); (split; [reflexivity|]);
    (split; [rewrite app_nil_r; reflexivity|intros m Hm; simp_goal; try apply dir_get_del_other; try exact Hm; reflexivity]).
Qed.

Lemma drain : forall names s,
  ready s -> NoDup names -> st_queue s = map unloaded_chunk names ->
  exists evs s', run s evs = Some s' /\ ready s' /\ st_queue s' = [] /\
    received s' = received s ++ delivered (st_dir s) names /\
    (forall m, ~ In m names -> dir_get (st_dir s') m = dir_get (st_dir s) m).
Proof.
  induction names as [|n names IH]; intros s Hready Hnd Hq.
  - exists [], s. cbn [Buffer.run delivered]. rewrite app_nil_r.
    split; [reflexivity|]. split; [exact Hready|]. split; [exact Hq|]. split; [reflexivity|intros; reflexivity].
  - inversion Hnd as [|? ? Hnin Hnd']; subst.
    destruct (drain_one n _ s Hready Hq) as (e1 & s1 & R1 & Rd1 & Q1 & Rec1 & Fr1).
    destruct (IH s1 Rd1 Hnd' Q1) as (e2 & s' & R2 & Rd2 & Q2 & Rec2 & Fr2).
    exists (e1 ++ e2), s'. split; [rewrite run_app, R1; exact R2|].
    split; [exact Rd2|]. split; [exact Q2|]. split.
    + rewrite Rec2, Rec1, <- app_assoc. f_equal.
      rewrite (delivered_ext (st_dir s) (st_dir s1) names) by (intros m Hm; apply Fr1; intros E; subst m; contradiction).
      cbn [delivered]. destruct (good_content (st_dir s) n); reflexivity.
    + intros m Hm. rewrite Fr2 by (intros Hin; apply Hm; right; exact Hin).
      apply Fr1. intros E. subst m. apply Hm. left. reflexivity.
Qed.

(* the names start-up recovers *)
Definition recovered_names (Q : nat) (d : dirT) : list name :=
  firstn Q (filter (fun n => negb (name_eqb n id_file_name) && matchf n) (dir_names d)).

Theorem recovery_delivers_good : forall s Q M maxb,
  dir_sorted (st_dir s) -> down s = true -> (1 <= Q)%nat -> (1 <= M)%nat ->
  exists evs s',
    run s (ERestart Q M maxb true :: ERegister :: evs) = Some s' /\
    st_queue s' = [] /\ st_win s' = [] /\ st_hold s' = [] /\
    received s' = delivered (st_dir s) (recovered_names Q (st_dir s)).
Proof.
  intros s Q M maxb Hs Hdown HQ HM.
  set (s1 := restart matchf dirsize Q M maxb true s).
  assert (S1 : step s (ERestart Q M maxb true) = Some s1).
  { unfold Buffer.step. rewrite Hdown. destruct Q; [lia|]. destruct M; [lia|]. reflexivity. }
  set (s2 := set_cons 1 s1).
  assert (S2 : step s1 ERegister = Some s2) by reflexivity.
  assert (R2 : ready s2) by (unfold ready, s2, s1, restart; simp_state; repeat split; lia).
  assert (Hq : st_queue s2 = map unloaded_chunk (recovered_names Q (st_dir s))).
  { unfold s2, s1, restart, scan, recovered_names. simp_state. rewrite firstn_map. reflexivity. }
  assert (Hnd : NoDup (recovered_names Q (st_dir s))).
  { apply sorted_nodup. unfold recovered_names. apply sorted_firstn. apply sorted_filter. exact Hs. }
  destruct (drain _ s2 R2 Hnd Hq) as (evs & s' & Hr & (Hup & Hf & Hw & Hh & _) & Hq' & Hrec & _).
  exists evs, s'. split; [rewrite (run_cons _ _ _ _ S1), (run_cons _ _ _ _ S2); exact Hr|].
  repeat split; assumption.
Qed.

End Drain.

(* for every state the system can reach (the directory is then sorted) *)
Theorem recovery_delivers_good_reachable : forall matchf dirsize, matcher_ok matchf ->
  forall s Q M maxb, reachable matchf dirsize s -> down s = true -> (1 <= Q)%nat -> (1 <= M)%nat ->
  exists evs s',
    Buffer.run matchf dirsize s (ERestart Q M maxb true :: ERegister :: evs) = Some s' /\
    st_queue s' = [] /\ st_win s' = [] /\ st_hold s' = [] /\
    received s' = delivered (st_dir s) (recovered_names matchf Q (st_dir s)).
Proof.
  intros matchf dirsize Hm s Q M maxb Hr Hd HQ HM.
  destruct (reachable_good matchf dirsize Hm s Hr) as [Hp _].
  apply recovery_delivers_good; try assumption. apply (p_sorted _ _ Hp).
Qed.

Lemma delivered_in : forall d names x c,
  In x names -> good_content d x = Some c -> In (x, Some c) (delivered d names).
Proof.
  induction names as [|n r IH]; intros x c Hin Hg; [contradiction|]. cbn [delivered].
  destruct Hin as [Hin|Hin].
  - subst n. rewrite Hg. left. reflexivity.
  - destruct (good_content d n); [right|]; apply IH; assumption.
Qed.

(* After Destroy has completed, a chunk of the class "retained" that was given to Accept with non-empty bytes d
   is - with exactly those bytes - among what a consumer receives after the next start-up (on the delivering
   schedule of recovery_delivers_good), provided the queue is large enough for all chunk files. *)
Theorem retained_is_delivered_after_restart : forall matchf dirsize, matcher_ok matchf ->
  matchf id_file_name = false ->
  forall s Q M maxb x b0 d b, reachable matchf dirsize s -> settled s ->
  In x (g_retained (st_gh s)) -> In (x, b0 :: d, b) (g_acc (st_gh s)) ->
  (length (dir_names (st_dir s)) <= Q)%nat -> (1 <= Q)%nat -> (1 <= M)%nat ->
  exists evs s',
    Buffer.run matchf dirsize s (ERestart Q M maxb true :: ERegister :: evs) = Some s' /\
    In (x, Some (b0 :: d)) (received s').
Proof.
  intros matchf dirsize Hm Hid s Q M maxb x b0 d b Hr Hs Hret Hacc HQ HQ1 HM1.
  destruct Hs as (Hup & Hf & Hh).
  pose proof (reachable_inv matchf dirsize Hm s Hr Hup) as Hinv.
  assert (Hdown : down s = true) by (unfold down; rewrite Hf; cbn; apply Bool.orb_true_r).
  destruct (recovery_delivers_good_reachable matchf dirsize Hm s Q M maxb Hr Hdown HQ1 HM1) as (evs & s' & Hrun & _ & _ & _ & Hrec).
  exists evs, s'. split; [exact Hrun|]. rewrite Hrec.
  (* the file of x holds b0 :: d *)
  destruct (i_ret _ _ _ _ Hinv x Hret) as (e & He & Ho).
  assert (Hent : In x (entered (st_gh s))) by (apply (class_entered matchf dirsize (proj1 Hm) []); [exact Hinv|tauto]).
  assert (Hin2 : In x (acc_ids (st_gh s))).
  { unfold acc_ids. apply in_map_iff. exists (x, b0 :: d, b). split; [reflexivity|exact Hacc]. }
  pose proof (proj1 (nodup_cnt _) (i_nodup _ _ _ _ Hinv)) as Hle. unfold entered in Hle.
  assert (Hnd : NoDup (acc_ids (st_gh s))).
  { apply nodup_cnt. intros y. specialize (Hle y). rewrite cnt_app in Hle. lia. }
  assert (He' : e = EFile (b0 :: d)).
  { destruct Ho as [(d' & b' & Hin' & Ee)|[Hrec' _]].
    - (* accepted: the data is unique per ID *)
      subst e. unfold acc_ids in Hnd.
      injection (NoDup_map_inj _ _ _ _ Hnd Hacc Hin' eq_refl) as <- _. reflexivity.
    - (* recovered and accepted at once: impossible, the IDs that entered are distinct *)
      exfalso. specialize (Hle x). rewrite cnt_app in Hle. apply cnt_in in Hrec'. apply cnt_in in Hin2. lia. }
  subst e.
  apply delivered_in.
  - unfold recovered_names. rewrite firstn_all2 by (etransitivity; [apply filter_length_le|exact HQ]).
    apply filter_In. split; [eapply dir_get_in; exact He|].
    rewrite (i_match _ _ _ _ Hinv x Hent). rewrite Bool.andb_true_r.
    apply Bool.negb_true_iff. apply name_eqb_neq. intros E. subst x.
    rewrite (i_match _ _ _ _ Hinv _ Hent) in Hid. discriminate.
  - unfold good_content. rewrite He. reflexivity.
Qed.
