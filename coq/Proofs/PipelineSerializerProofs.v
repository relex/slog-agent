(* C07: the repaired SerializeRecord never panics and always emits the complete event.
   maxEncodedLength is an upper bound of the length of C10's [encode_spec]; with a buffer longer than the event
   C10's [serialize_on_spec] applies.  Since C10 follows fix 413c995 itself, the bound and the totality are C10's
   lemmas ([max_encoded_length_bound], [encode_buf_spec_lemma] in Proofs/SerializerProofs.v); the names C07 uses
   are kept here. *)
From SV Require Import Model.Common Model.Msgpack Model.Serializer Model.PipelineSerializer
     Spec.SerializerSpec Proofs.SerializerProofs.
Open Scope nat_scope.

(* maxEncodedLength never panics and bounds the event *)
Lemma max_encoded_length_bound : forall schema cfg rec B ser,
  chains_ok schema cfg ->
  length schema <= length (r_fields rec) ->
  new_serializer schema cfg B = Ok ser ->
  exists m, PipelineSerializer.max_encoded_length ser rec = Ok m /\ length (encode_spec schema cfg rec) <= m.
Proof. exact SerializerProofs.max_encoded_length_bound. Qed.

Lemma new_serializer_buflen : forall schema cfg B ser n,
  new_serializer schema cfg B = Ok ser -> new_serializer schema cfg n = Ok (with_buflen ser n).
Proof.
  intros schema cfg B ser n H. unfold new_serializer in *.
  destruct (locate_all schema (c_env cfg)) as [locs| |]; cbn [obind] in *; try discriminate.
  destruct (build_rewriters schema cfg schema) as [rws| |]; cbn [obind] in *; try discriminate.
  destruct (serialize_strings schema) as [keys| |]; cbn [obind] in *; try discriminate.
  destruct (serialize_strings (c_env cfg)) as [ek| |]; cbn [obind] in *; try discriminate.
  inversion H; subst. reflexivity.
Qed.

(* the repaired SerializeRecord: for EVERY record, no panic, and the stream is the complete event *)
Theorem serialize_fixed_total : forall schema cfg rec B ser,
  chains_ok schema cfg ->
  length schema <= length (r_fields rec) ->
  new_serializer schema cfg B = Ok ser ->
  serialize_record_fixed true ser rec = Ok (encode_spec schema cfg rec).
Proof.
  intros schema cfg rec B ser V L Hnew. unfold serialize_record_fixed.
  exact (encode_buf_spec_lemma schema cfg rec B ser V L Hnew).
Qed.

(* the event is never empty (it starts with the array header), so the stream is never the "dropped" one *)
Lemma encode_spec_nonempty : forall schema cfg rec, encode_spec schema cfg rec <> [].
Proof. intros. unfold encode_spec. discriminate. Qed.
