(* C12, proofs about Model/MemoryXfState.v (its head calls it part H, continuing the parts A-G of the head of
   Model/Memory.v): what a transform instance keeps across records does not let one record into another as long as
   it keeps copies ([pt_inv], [pt_apply_isolated], [pt_apply_as_fresh], [pt_history_isolated]); the runs
   [xw_last_ref_run] and [xw_zone_ref_run] show what happens when it keeps the record's own strings. *)
From SV Require Import Model.Common Model.Memory Model.MemoryStores Model.ParseTime Model.MemoryXfState
                       Proofs.CommonFacts Proofs.ParseTimeProofs Proofs.MemoryProofs Proofs.MemoryWitnesses Proofs.MemoryStoresProofs.
From Coq Require Import Lia.
Open Scope nat_scope.

(* parseRFC3339Timestamp = head, then the location *)
Definition pt_tail (lo : Z) (x : Z * Z * bytes) : outcome (Z * Z) :=
  let '(base, nsec, tz) := x in
  match (match tz with [] => Ok lo | _ => parse_tz tz end) with
  | Ok off => Ok ((base - off)%Z, nsec)
  | Err e => Err e
  | Panic s => Panic s
  end.

(* associativity of bind, in the form that peels one step off two computations with a common prefix *)
Lemma pt_bind_assoc : forall {A B C} (m : outcome A) (f : A -> outcome B) (g : B -> outcome C) (k : A -> outcome C),
  (forall a, k a = bind (f a) g) -> bind m k = bind (bind m f) g.
Proof. intros A B C [a|e|s] f g k H; cbn; auto. Qed.

Lemma pt_head_spec : forall lo t, parse_rfc3339 lo t = bind (pt_head t) (pt_tail lo).
Proof.
  intros lo t. unfold parse_rfc3339, pt_head.
  destruct (length t <? 19); [reflexivity|].
  do 5 (apply pt_bind_assoc; intro). destruct (negb _); [reflexivity|].
  do 6 (apply pt_bind_assoc; intro). destruct (split_frac_tz (skipn 19 t)) as [frac tz].
  apply pt_bind_assoc; intros nsec. cbn [bind pt_tail].
  destruct tz as [|c tz']; [reflexivity|]. destruct (parse_tz (c :: tz')); reflexivity.
Qed.

(* the invariant of an instance that keeps copies *)
Definition pt_zone_ok (z : pt_zone) : Prop := exists k, pz_key z = StBytes k /\ parse_tz k = Ok (pz_off z).

Definition pt_last_ok (lo : Z) (l : option (mem_stored * Z * Z)) : Prop :=
  match l with
  | None => True
  | Some (k, u, n) => exists b, k = StBytes b /\ parse_rfc3339 lo b = Ok (u, n)
  end.

Definition pt_inv (cfg : pt_config) (st : pt_state) : Prop :=
  Forall pt_zone_ok (ps_zones st) /\ pt_last_ok (pt_local_off cfg) (ps_last st).

(* the instance keeps copies: the repaired code (no shortcut) or a shortcut that copies *)
Definition pt_copies (cfg : pt_config) : Prop :=
  pt_zone_keep cfg = KeepCopy /\ (pt_last_keep cfg = None \/ pt_last_keep cfg = Some KeepCopy).

Lemma pt_inv_init : forall cfg, pt_inv cfg pt_init.
Proof. intros cfg. split; [constructor|exact I]. Qed.

Lemma pt_zone_find_ok : forall g zs slot tz o,
  Forall pt_zone_ok zs -> pt_zone_find g zs slot tz = Some o -> parse_tz tz = Ok o.
Proof.
  intros g zs slot tz o Hz. induction Hz as [|z zs Hzok _ IH]; cbn [pt_zone_find]; [discriminate|].
  destruct ((pz_slot z =? slot)%N && bytes_eqb (mem_stored_read g (pz_key z)) tz) eqn:E.
  - intros H. inversion H; subst o. apply andb_true_iff in E. destruct E as [_ E].
    destruct Hzok as (k & Hk & Hp). rewrite Hk in E. cbn [mem_stored_read] in E.
    apply bytes_eqb_eq in E. subst k. exact Hp.
  - exact IH.
Qed.

Lemma pt_locate_ok : forall cfg g zones tz tzref r zs,
  pt_zone_keep cfg = KeepCopy -> Forall pt_zone_ok zones ->
  pt_locate cfg g zones tz tzref = (r, zs) ->
  r = match tz with [] => Ok (pt_local_off cfg) | _ => parse_tz tz end /\ Forall pt_zone_ok zs.
Proof.
  intros cfg g zones tz tzref r zs Hk Hz H. unfold pt_locate in H.
  destruct tz as [|c tz']; [inversion H; subst; split; [reflexivity|exact Hz]|].
  destruct (pt_zone_find g zones (pt_hash cfg (c :: tz')) (c :: tz')) as [o|] eqn:Ef.
  - inversion H; subst. split; [|exact Hz]. symmetry. exact (pt_zone_find_ok _ _ _ _ _ Hz Ef).
  - destruct (parse_tz (c :: tz')) as [o| |] eqn:Ep; inversion H; subst; (split; [reflexivity|]); try exact Hz.
    apply Forall_app. split; [exact Hz|]. constructor; [|constructor].
    exists (c :: tz'). cbn [pz_key pz_off]. rewrite Hk. cbn [pt_keep_str]. split; [reflexivity|exact Ep].
Qed.

Lemma pt_parse_ok : forall cfg g zones t tref r zs,
  pt_zone_keep cfg = KeepCopy -> Forall pt_zone_ok zones ->
  pt_parse cfg g zones t tref = (r, zs) ->
  r = parse_rfc3339 (pt_local_off cfg) t /\ Forall pt_zone_ok zs.
Proof.
  intros cfg g zones t tref r zs Hk Hz H. unfold pt_parse in H. rewrite (pt_head_spec (pt_local_off cfg) t).
  destruct (pt_head t) as [[[base nsec] tz]| |]; [|inversion H; subst; split; [reflexivity|exact Hz]..].
  destruct (pt_locate cfg g zones tz (mem_stored_sub tref (length t - length tz) (length tz))) as [r1 zs1] eqn:El.
  destruct (pt_locate_ok _ _ _ _ _ _ _ Hk Hz El) as [Hr Hzs]. cbn [bind pt_tail]. rewrite <- Hr.
  destruct r1; inversion H; subst; split; try reflexivity; exact Hzs.
Qed.

(* ONE CALL.  An instance that keeps copies, in any state it can be in, gives the record in front of it exactly what
   the stateless transform gives - whatever the heap [g] holds (whatever happened to records, buffers and pools
   since the state was built) - and stays an instance of copies. *)
Lemma pt_apply_isolated : forall cfg g st v ref st' r,
  pt_copies cfg -> pt_inv cfg st -> pt_apply cfg g st v ref = (st', r) ->
  r = transform_parse_time (pt_local_off cfg) v /\ pt_inv cfg st'.
Proof.
  intros cfg g st v ref st' r [Hk Hl] [Hz Hlast] H. unfold pt_apply in H.
  destruct v as [|c v']; [inversion H; subst; split; [reflexivity|split; assumption]|].
  set (v := c :: v') in *.
  destruct (pt_last_hit cfg g st v) as [[u n]|] eqn:Eh.
  - inversion H; subst st' r. split; [|split; assumption].
    unfold pt_last_hit in Eh. destruct (pt_last_keep cfg); [|discriminate].
    destruct (ps_last st) as [[[k u0] n0]|]; [|discriminate].
    destruct Hlast as (b & -> & Hp). cbn [mem_stored_read] in Eh.
    destruct (bytes_eqb b v) eqn:Eb; [|discriminate]. inversion Eh; subst u0 n0.
    apply bytes_eqb_eq in Eb. subst b. unfold transform_parse_time, v. fold v. rewrite Hp. reflexivity.
  - destruct (pt_parse cfg g (ps_zones st) v ref) as [pr zs] eqn:Ep.
    destruct (pt_parse_ok _ _ _ _ _ _ _ Hk Hz Ep) as [Hr Hzs].
    unfold transform_parse_time, v. fold v. rewrite <- Hr.
    destruct pr as [[u n]|e|s]; inversion H; subst st' r; (split; [reflexivity|]); split; cbn [ps_zones ps_last]; try assumption.
    destruct Hl as [-> | ->]; [exact Hlast|]. cbn [pt_keep_str pt_last_ok]. exists v. split; [reflexivity|]. symmetry. exact Hr.
Qed.

(* compared with a NEW instance (a fresh pipeline), on any heap and through any reference *)
Lemma pt_apply_as_fresh : forall cfg g st v ref g0 ref0,
  pt_copies cfg -> pt_inv cfg st ->
  snd (pt_apply cfg g st v ref) = snd (pt_apply cfg g0 pt_init v ref0).
Proof.
  intros cfg g st v ref g0 ref0 Hc Hi.
  destruct (pt_apply cfg g st v ref) as [s1 r1] eqn:E1. destruct (pt_apply cfg g0 pt_init v ref0) as [s2 r2] eqn:E2.
  destruct (pt_apply_isolated _ _ _ _ _ _ _ Hc Hi E1) as [-> _].
  destruct (pt_apply_isolated _ _ _ _ _ _ _ Hc (pt_inv_init cfg) E2) as [-> _]. reflexivity.
Qed.

Definition pt_log_ok (lo : Z) (log : list (bytes * tp_result)) : Prop :=
  Forall (fun e => snd e = transform_parse_time lo (fst e)) log.

Lemma pt_sys_step_ok : forall c cfg key s e s',
  pt_copies cfg -> pt_inv cfg (xs_st s) -> pt_log_ok (pt_local_off cfg) (xs_log s) ->
  pt_sys_step c cfg key s e = Some s' ->
  pt_inv cfg (xs_st s') /\ pt_log_ok (pt_local_off cfg) (xs_log s').
Proof.
  intros c cfg key s e s' Hc Hi Hl H. destruct e as [ev|h]; cbn [pt_sys_step] in H.
  - destruct (mem_step c (xs_g s) ev); inversion H; subst. split; assumption.
  - unfold pt_transform in H. destruct (mem_key_fields (xs_g s) h [key]) as [[|[v ref] [|? ?]]|]; try discriminate.
    destruct (pt_apply cfg (xs_g s) (xs_st s) v ref) as [st' r] eqn:Ea.
    destruct (pt_apply_isolated _ _ _ _ _ _ _ Hc Hi Ea) as [Hr Hi'].
    inversion H; subst s'. cbn [xs_st xs_log]. split; [exact Hi'|].
    apply Forall_app. split; [exact Hl|]. constructor; [exact Hr|constructor].
Qed.

Lemma pt_sys_run_ok : forall c cfg key evs s s',
  pt_copies cfg -> pt_inv cfg (xs_st s) -> pt_log_ok (pt_local_off cfg) (xs_log s) ->
  pt_sys_run c cfg key s evs = Some s' ->
  pt_inv cfg (xs_st s') /\ pt_log_ok (pt_local_off cfg) (xs_log s').
Proof.
  intros c cfg key evs. induction evs as [|e evs IH]; intros s s' Hc Hi Hl H; cbn [pt_sys_run] in H.
  - inversion H; subst. split; assumption.
  - destruct (pt_sys_step c cfg key s e) as [s1|] eqn:Es; [|discriminate].
    destruct (pt_sys_step_ok _ _ _ _ _ _ Hc Hi Hl Es) as [Hi1 Hl1]. exact (IH _ _ Hc Hi1 Hl1 H).
Qed.

(* Every history of every pipeline configuration - any interleaving of Parse (with any choice of pooled struct and
   pooled buffer), other transformations, outputs, releases and parseTime calls, any number of records in flight:
   each parseTime call returned what the stateless transform returns for the value it read, i.e. what a new instance
   on a fresh pipeline returns for that record alone. *)
Lemma pt_history_isolated : forall c cfg key evs s,
  pt_copies cfg -> pt_sys_run c cfg key (pt_sys_init c) evs = Some s ->
  Forall (fun e => snd e = transform_parse_time (pt_local_off cfg) (fst e) /\
                   forall g0 ref0, snd e = snd (pt_apply cfg g0 pt_init (fst e) ref0)) (xs_log s).
Proof.
  intros c cfg key evs s Hc H.
  destruct (pt_sys_run_ok c cfg key evs (pt_sys_init c) s Hc (pt_inv_init cfg) (Forall_nil _) H) as [_ Hl].
  unfold pt_log_ok in Hl. rewrite Forall_forall in *. intros e He. split; [exact (Hl e He)|].
  intros g0 ref0. destruct (pt_apply cfg g0 pt_init (fst e) ref0) as [s2 r2] eqn:E2.
  destruct (pt_apply_isolated _ _ _ _ _ _ _ Hc (pt_inv_init cfg) E2) as [-> _]. exact (Hl e He).
Qed.

(* the record's timestamp after the call: the parsed instant, or untouched *)
Lemma pt_transform_ts : forall cfg g st h key st' r v g',
  pt_transform cfg g st h key = Some (st', r, v, g') ->
  g' = match r with TpSet u n => pt_set_ts g h (pt_ts_code u n) | _ => g end.
Proof.
  intros cfg g st h key st' r v g' H. unfold pt_transform in H.
  destruct (mem_key_fields g h [key]) as [[|[v0 ref] [|? ?]]|]; try discriminate.
  destruct (pt_apply cfg g st v0 ref) as [s1 r1]. inversion H; subst. reflexivity.
Qed.

(* witnesses: two pooled records through one instance, the second in the recycled buffer of the first *)
Open Scope N_scope.
(* "<163>1 2019-08-15T15:50:46+03:00 host1 app 123 src - hello world, this is a message" *)
Definition xw_rec_a : bytes :=
  [60;49;54;51;62;49;32;50;48;49;57;45;48;56;45;49;53;84;49;53;58;53;48;58;52;54;43;48;51;58;48;48;32;104;111;115;116;49;32;97;112;112;32;
   49;50;51;32;115;114;99;32;45;32;104;101;108;108;111;32;119;111;114;108;100;44;32;116;104;105;115;32;105;115;32;97;32;109;
   101;115;115;97;103;101].
(* "<163>1 2019-08-15T15:50:47+05:00 host1 app 123 src - hello world, this is a message" *)
Definition xw_rec_b : bytes :=
  [60;49;54;51;62;49;32;50;48;49;57;45;48;56;45;49;53;84;49;53;58;53;48;58;52;55;43;48;53;58;48;48;32;104;111;115;116;49;32;97;112;112;32;
   49;50;51;32;115;114;99;32;45;32;104;101;108;108;111;32;119;111;114;108;100;44;32;116;104;105;115;32;105;115;32;97;32;109;
   101;115;115;97;103;101].
Close Scope N_scope.

Definition xw_cfg (zk : mem_keep) (lk : option mem_keep) (hash : bytes -> N) : pt_config :=
  {| pt_local_off := 0; pt_hash := hash; pt_zone_keep := zk; pt_last_keep := lk |}.

(* A: parse, parseTime, the rest of the worker, output and release; B gets A's struct and A's buffer *)
Definition xw_events (b : bytes) : list pt_event :=
  [XMem (EvParse None None xw_rec_a 1000%Z); XParseTime 0; XMem (EvTransform 0); XMem (EvOutput 0);
   XMem (EvParse (Some 0) (Some 0) b 2000%Z); XParseTime 0; XMem (EvTransform 0); XMem (EvOutput 0)].

Definition xw_run (cfg : pt_config) (b : bytes) : option (list tp_result * list Z) :=
  match pt_sys_run wit_store_cfg cfg 2 (pt_sys_init wit_store_cfg) (xw_events b) with
  | Some s => Some (map snd (xs_log s), map (fun e => d_ts (snd e)) (g_out (xs_g s)))
  | None => None
  end.

(* what A and B get alone: 2019-08-15T12:50:46Z and 2019-08-15T10:50:47Z *)
Lemma xw_alone :
  transform_parse_time 0 (firstn 25 (skipn 7 xw_rec_a)) = TpSet 1565873446 0 /\
  transform_parse_time 0 (firstn 25 (skipn 7 xw_rec_b)) = TpSet 1565866247 0.
Proof. split; vm_compute; reflexivity. Qed.

(* the code (copied keys), with the worst filing function (everything collides), and a shortcut that copies: both right,
   in the results and in the serialized outputs *)
Lemma xw_copy_run :
  pt_copies (xw_cfg KeepCopy None (fun _ => 0%N)) /\ pt_copies (xw_cfg KeepCopy (Some KeepCopy) (fun _ => 0%N)) /\
  xw_run (xw_cfg KeepCopy None (fun _ => 0%N)) xw_rec_b
    = Some ([TpSet 1565873446 0; TpSet 1565866247 0], [1565873446000000000; 1565866247000000000]%Z) /\
  xw_run (xw_cfg KeepCopy (Some KeepCopy) (fun _ => 0%N)) xw_rec_b
    = Some ([TpSet 1565873446 0; TpSet 1565866247 0], [1565873446000000000; 1565866247000000000]%Z).
Proof.
  split; [split; [reflexivity|left; reflexivity]|]. split; [split; [reflexivity|right; reflexivity]|].
  split; vm_compute; reflexivity.
Qed.

(* the seeded shortcut (the remembered string is the record's own): B is given A's timestamp *)
Lemma xw_last_ref_run :
  xw_run (xw_cfg KeepCopy (Some KeepRef) (fun _ => 0%N)) xw_rec_b
    = Some ([TpSet 1565873446 0; TpSet 1565873446 0], [1565873446000000000; 1565873446000000000]%Z).
Proof. vm_compute; reflexivity. Qed.

(* the code before the fix (the map key is the record's own substring), when "+03:00" and "+05:00" are filed in the
   same place: B's instant is computed with A's zone, two hours off (10:50:47Z becomes 12:50:47Z) *)
Lemma xw_zone_ref_run :
  xw_run (xw_cfg KeepRef None (fun _ => 0%N)) xw_rec_b
    = Some ([TpSet 1565873446 0; TpSet 1565873447 0], [1565873446000000000; 1565873447000000000]%Z).
Proof. vm_compute; reflexivity. Qed.

(* ... and with a filing function that separates the two strings the stale entry is not found (the defect needs a
   collision: about one pair of zones in 4096 for a Go map of 16 buckets) *)
Lemma xw_zone_ref_no_collision :
  xw_run (xw_cfg KeepRef None (fun b => N.of_nat (length b) + nth 2 b 0)%N) xw_rec_b
    = Some ([TpSet 1565873446 0; TpSet 1565866247 0], [1565873446000000000; 1565866247000000000]%Z).
Proof. vm_compute; reflexivity. Qed.

Definition pt_slot_rest (s : mem_slot) := (r_fields (sl_rec s), r_rawlen (sl_rec s), r_unesc (sl_rec s), r_backbuf (sl_rec s), r_refc (sl_rec s), sl_state s).

(* setting record.Timestamp touches nothing else: no buffer, no string, no reference count, no other record *)
Lemma pt_set_ts_frame : forall g h ts,
  let g' := pt_set_ts g h ts in
  g_bufs g' = g_bufs g /\ g_cfg g' = g_cfg g /\ g_dirty g' = g_dirty g /\ g_out g' = g_out g /\ g_log g' = g_log g /\
  g_status g' = g_status g /\ g_next_rid g' = g_next_rid g /\ map pt_slot_rest (g_slots g') = map pt_slot_rest (g_slots g).
Proof.
  intros g h ts. unfold pt_set_ts. destruct (nth_error (g_slots g) h) as [s|] eqn:E; cbn.
  - repeat (split; [reflexivity|]). unfold mem_upd_slot. apply (mem_list_set_map_same pt_slot_rest _ _ _ s E). reflexivity.
  - repeat (split; [reflexivity|]). reflexivity.
Qed.
