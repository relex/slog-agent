(* C06 - the orchestrator routes every record to the pipeline created for exactly its own key tuple;
   invariants of GlobalCachedMap / LocalCachedMap over arbitrary operation sequences. *)
From SV Require Import Model.Common Model.Routing Proofs.CommonFacts Proofs.MergedKeyProofs.
From Coq Require Import Lia ZifyBool ZifyN ZifyNat.
Open Scope N_scope.

Lemma Forall2_len : forall (A B : Type) (R : A -> B -> Prop) l l', Forall2 R l l' -> length l = length l'.
Proof. intros A B R l l' H. induction H; cbn; [reflexivity|f_equal; assumption]. Qed.

Lemma Forall2_weaken : forall (A B : Type) (R R' : A -> B -> Prop) l l',
  (forall a b, R a b -> R' a b) -> Forall2 R l l' -> Forall2 R' l l'.
Proof. intros A B R R' l l' HR H. induction H; constructor; auto. Qed.

Lemma Forall2_nth_error_l : forall (A B : Type) (R : A -> B -> Prop) l l' j a,
  Forall2 R l l' -> nth_error l j = Some a -> exists b, nth_error l' j = Some b /\ R a b.
Proof.
  intros A B R l l' j a H. revert j. induction H as [|x y l l' Hxy _ IH]; intros [|j] Ha; cbn in *; try discriminate.
  - inversion Ha; subst. eauto.
  - exact (IH _ Ha).
Qed.

Lemma Forall2_nth_error : forall (A B : Type) (R : A -> B -> Prop) l l' j a b,
  Forall2 R l l' -> nth_error l j = Some a -> nth_error l' j = Some b -> R a b.
Proof.
  intros A B R l l' j a b H Ha Hb. destruct (Forall2_nth_error_l _ _ _ _ _ _ _ H Ha) as [b' [Hb' HR]]. congruence.
Qed.

Lemma Forall2_In_l : forall (A B : Type) (R : A -> B -> Prop) l l' a, Forall2 R l l' -> In a l -> exists b, In b l' /\ R a b.
Proof.
  intros A B R l l' a H. induction H as [|x y l l' Hxy _ IH]; intros Hin; [destruct Hin|].
  destruct Hin as [<-|Hin]; [exists y; split; [left; reflexivity|exact Hxy]|].
  destruct (IH Hin) as [b [H1 H2]]. exists b. split; [right; exact H1|exact H2].
Qed.

Lemma Forall2_In_r : forall (A B : Type) (R : A -> B -> Prop) l l' b, Forall2 R l l' -> In b l' -> exists a, In a l /\ R a b.
Proof.
  intros A B R l l' b H. induction H as [|x y l l' Hxy _ IH]; intros Hin; [destruct Hin|].
  destruct Hin as [<-|Hin]; [exists x; split; [left; reflexivity|exact Hxy]|].
  destruct (IH Hin) as [a [H1 H2]]. exists a. split; [right; exact H1|exact H2].
Qed.

Lemma lookup_In : forall m k i, lookup k m = Some i -> In (k, i) m.
Proof.
  induction m as [|[k' v] m IH]; intros k i H; cbn [lookup] in H; [discriminate|].
  destruct (bytes_eqb k k') eqn:E.
  - apply bytes_eqb_eq in E. subst. inversion H; subst. left. reflexivity.
  - right. apply IH. exact H.
Qed.

Lemma lookup_cons_eq : forall m k v, lookup k ((k, v) :: m) = Some v.
Proof. intros. cbn [lookup]. rewrite bytes_eqb_refl. reflexivity. Qed.

Lemma lookup_cons_ne : forall m k k' v, k <> k' -> lookup k ((k', v) :: m) = lookup k m.
Proof.
  intros m k k' v H. cbn [lookup]. destruct (bytes_eqb k k') eqn:E; [|reflexivity].
  apply bytes_eqb_eq in E. contradiction.
Qed.

(* every entry of a map points to the pipeline whose keys merge to the entry's key *)
Definition map_ok (pipes : list pipeline) (m : amap) : Prop :=
  forall mk i, In (mk, i) m -> exists p, nth_error pipes i = Some p /\ mk = merged_key (p_keys p).

(* every pipeline was built from its own keys: id, tag, and the label values of its metric creator *)
Definition pipes_ok (parts : list tpart) (pipes : list pipeline) : Prop :=
  forall i p, nth_error pipes i = Some p ->
    p_id p = pipeline_id (p_keys p) /\ build_tag parts (p_keys p) = Ok (p_tag p) /\
    p_labels p = metric_label_values (p_keys p).

(* every pipeline is registered in the global map under its merged key *)
Definition complete (g : gstate) : Prop :=
  forall i p, nth_error (g_pipes g) i = Some p -> lookup (merged_key (p_keys p)) (g_map g) = Some i.

(* the invariant of the global state, and of the global state with the sinks' local maps *)
Record ginv (parts : list tpart) (g : gstate) : Prop := {
  gi_map : map_ok (g_pipes g) (g_map g);
  gi_pipes : pipes_ok parts (g_pipes g);
  gi_complete : complete g
}.

Definition inv (parts : list tpart) (g : gstate) (lms : list amap) : Prop :=
  ginv parts g /\ Forall (map_ok (g_pipes g)) lms.

Lemma map_ok_ext : forall pipes ext m, map_ok pipes m -> map_ok (pipes ++ ext) m.
Proof.
  intros pipes ext m H mk i Hin. destruct (H mk i Hin) as [p [Hp Hk]].
  exists p. split; [apply nth_error_app_l; exact Hp|exact Hk].
Qed.

Lemma map_ok_nil : forall pipes, map_ok pipes [].
Proof. intros pipes mk i []. Qed.

Lemma inv_sinks_fresh : forall parts g nsinks, ginv parts g -> inv parts g (repeat [] nsinks).
Proof.
  intros parts g nsinks Hg. split; [exact Hg|].
  induction nsinks; cbn; constructor; [apply map_ok_nil|assumption].
Qed.

Lemma inv_init : forall parts nsinks, inv parts g_init (repeat [] nsinks).
Proof.
  intros parts nsinks. apply inv_sinks_fresh. constructor; [apply map_ok_nil|intros [|i] p H; discriminate..].
Qed.

(* a record with keys ks is served by pipeline number i *)
Definition served_by (parts : list tpart) (pipes : list pipeline) (ks : list bytes) (i : nat) : Prop :=
  exists p, nth_error pipes i = Some p /\ p_keys p = ks /\ p_id p = pipeline_id ks /\ build_tag parts ks = Ok (p_tag p) /\
            p_labels p = metric_label_values ks.

Lemma served_by_ext : forall parts pipes ext ks i, served_by parts pipes ks i -> served_by parts (pipes ++ ext) ks i.
Proof.
  intros parts pipes ext ks i [p [H1 H2]]. exists p. split; [apply nth_error_app_l; exact H1|exact H2].
Qed.

Lemma pipes_ok_served : forall parts pipes i p,
  pipes_ok parts pipes -> nth_error pipes i = Some p -> served_by parts pipes (p_keys p) i.
Proof. intros parts pipes i p H Hn. exists p. destruct (H _ _ Hn) as [H1 [H2 H3]]. auto. Qed.

(* found under the merged key of ks => it is the pipeline of ks: this is where injectivity is used *)
Lemma map_ok_lookup : forall parts pipes m ks i,
  map_ok pipes m -> pipes_ok parts pipes -> lookup (merged_key ks) m = Some i -> served_by parts pipes ks i.
Proof.
  intros parts pipes m ks i Hm Hp Hl. apply lookup_In in Hl.
  destruct (Hm _ _ Hl) as [p [Hn Hk]]. apply merged_key_injective_lemma in Hk. subst ks.
  exact (pipes_ok_served _ _ _ _ Hp Hn).
Qed.

Lemma map_ok_cons : forall parts pipes m ks i,
  served_by parts pipes ks i -> map_ok pipes m -> map_ok pipes ((merged_key ks, i) :: m).
Proof.
  intros parts pipes m ks i [p [Hn [Hk _]]] Hm mk j [Heq|Hin]; [|exact (Hm _ _ Hin)].
  inversion Heq; subst. exists p. split; [exact Hn|reflexivity].
Qed.

Lemma complete_unique : forall g i j p q,
  complete g -> nth_error (g_pipes g) i = Some p -> nth_error (g_pipes g) j = Some q -> p_keys p = p_keys q -> i = j.
Proof.
  intros g i j p q Hc Hi Hj Hk. pose proof (Hc _ _ Hi) as H1. pose proof (Hc _ _ Hj) as H2.
  rewrite Hk in H1. rewrite H1 in H2. inversion H2. reflexivity.
Qed.

Lemma served_by_inj : forall parts g ks ks' i i', complete g ->
  served_by parts (g_pipes g) ks i -> served_by parts (g_pipes g) ks' i' -> (ks = ks' <-> i = i').
Proof.
  intros parts g ks ks' i i' Hc [p [Hp [Hpk _]]] [q [Hq [Hqk _]]]. split.
  - intros Heq. eapply complete_unique; [exact Hc|exact Hp|exact Hq|]. rewrite Hpk, Hqk. exact Heq.
  - intros Heq. subst i'. rewrite Hp in Hq. inversion Hq; subst q. rewrite <- Hpk, <- Hqk. reflexivity.
Qed.

(* pipelines are only ever appended, each for the key tuple of the record that asked:
   pipes' is pipes followed by new pipelines, each made for a key tuple that satisfies P *)
Definition grown (P : list bytes -> Prop) (pipes pipes' : list pipeline) : Prop :=
  exists ext, pipes' = pipes ++ ext /\ Forall (fun p => P (p_keys p)) ext.

Lemma grown_refl : forall P pipes, grown P pipes pipes.
Proof. intros P pipes. exists []. split; [symmetry; apply app_nil_r|constructor]. Qed.

Lemma grown_trans : forall (P Q R : list bytes -> Prop) a b c,
  (forall ks, P ks -> R ks) -> (forall ks, Q ks -> R ks) -> grown P a b -> grown Q b c -> grown R a c.
Proof.
  intros P Q R a b c HP HQ [e1 [-> F1]] [e2 [-> F2]]. exists (e1 ++ e2). split; [symmetry; apply app_assoc|].
  apply Forall_app. split; (eapply Forall_impl; [|eassumption]); cbn; auto.
Qed.

Lemma grown_weaken : forall (P Q : list bytes -> Prop) a b, (forall ks, P ks -> Q ks) -> grown P a b -> grown Q a b.
Proof. intros P Q a b HPQ [ext [-> F]]. exists ext. split; [reflexivity|]. eapply Forall_impl; [|exact F]. cbn. auto. Qed.

Lemma grown_In : forall P a b p, grown P a b -> In p b -> In p a \/ P (p_keys p).
Proof.
  intros P a b p [ext [-> F]] H. apply in_app_or in H. destruct H as [H|H]; [left; exact H|right].
  rewrite Forall_forall in F. exact (F _ H).
Qed.

Lemma map_ok_grown : forall P a b m, grown P a b -> map_ok a m -> map_ok b m.
Proof. intros P a b m [ext [-> _]]. apply map_ok_ext. Qed.

Lemma served_by_grown : forall P parts a b ks i, grown P a b -> served_by parts a ks i -> served_by parts b ks i.
Proof. intros P parts a b ks i [ext [-> _]]. apply served_by_ext. Qed.

Lemma global_goc_inv : forall parts g ks g' i,
  ginv parts g -> global_get_or_create parts g ks (merged_key ks) = Ok (g', i) ->
  grown (eq ks) (g_pipes g) (g_pipes g') /\ ginv parts g' /\ served_by parts (g_pipes g') ks i.
Proof.
  intros parts g ks g' i [Hm Hp Hc] H. unfold global_get_or_create in H.
  destruct (lookup (merged_key ks) (g_map g)) as [j|] eqn:Hl.
  - inversion H; subst. split; [apply grown_refl|]. split; [constructor; assumption|]. eapply map_ok_lookup; eassumption.
  - unfold new_pipeline, obind in H. destruct (build_tag parts ks) as [tag| |] eqn:Htag; try discriminate.
    inversion H; subst; clear H. cbn [g_pipes g_map].
    set (p := {| p_keys := ks; p_id := pipeline_id ks; p_tag := tag; p_labels := metric_label_values ks |}).
    assert (Hs : served_by parts (g_pipes g ++ [p]) ks (length (g_pipes g))).
    { exists p. split; [apply nth_error_mid|]. cbn. auto. }
    split; [exists [p]; split; [reflexivity|repeat constructor]|]. split; [|exact Hs].
    constructor; cbn [g_pipes g_map].
    + apply (map_ok_cons parts); [exact Hs|apply map_ok_ext; exact Hm].
    + intros i q Hq. apply nth_error_snoc in Hq. destruct Hq as [Hq|[_ ->]]; [exact (Hp _ _ Hq)|]. cbn. auto.
    + intros i q Hq. cbn [g_pipes g_map] in *. apply nth_error_snoc in Hq. destruct Hq as [Hq|[-> ->]]; [|apply lookup_cons_eq].
      (* an older pipeline has another merged key: the lookup of this one missed *)
      pose proof (Hc _ _ Hq) as Hq'. rewrite lookup_cons_ne; [exact Hq'|]. intros Heq. rewrite Heq, Hl in Hq'. discriminate.
Qed.

Lemma local_goc_inv : forall parts g lm ks g' lm' i,
  ginv parts g -> map_ok (g_pipes g) lm -> local_get_or_create parts g lm ks = Ok (g', lm', i) ->
  grown (eq ks) (g_pipes g) (g_pipes g') /\ ginv parts g' /\ map_ok (g_pipes g') lm' /\ served_by parts (g_pipes g') ks i.
Proof.
  intros parts g lm ks g' lm' i Hg Hlm H. unfold local_get_or_create in H.
  destruct (lookup (merged_key ks) lm) as [j|] eqn:Hl.
  - inversion H; subst. split; [apply grown_refl|]. split; [exact Hg|]. split; [exact Hlm|].
    exact (map_ok_lookup _ _ _ _ _ Hlm (gi_pipes _ _ Hg) Hl).
  - unfold obind in H. destruct (global_get_or_create parts g ks (merged_key ks)) as [[g1 i1]| |] eqn:Hgc; try discriminate.
    inversion H; subst; clear H.
    destruct (global_goc_inv _ _ _ _ _ Hg Hgc) as [Hgr [Hg' Hs]].
    split; [exact Hgr|]. split; [exact Hg'|]. split; [|exact Hs].
    apply (map_ok_cons parts); [exact Hs|exact (map_ok_grown _ _ _ _ Hgr Hlm)].
Qed.

(* the same with the parts of the invariant spelled out, as Proofs/PipelineProofs.v carries them *)
Lemma local_goc_spec : forall parts g lm ks g' lm' i,
  map_ok (g_pipes g) (g_map g) -> map_ok (g_pipes g) lm -> pipes_ok parts (g_pipes g) -> complete g ->
  local_get_or_create parts g lm ks = Ok (g', lm', i) ->
  (exists ext, g_pipes g' = g_pipes g ++ ext) /\
  map_ok (g_pipes g') (g_map g') /\ map_ok (g_pipes g') lm' /\ pipes_ok parts (g_pipes g') /\ complete g' /\
  served_by parts (g_pipes g') ks i.
Proof.
  intros parts g lm ks g' lm' i Hm Hlm Hp Hc H.
  destruct (local_goc_inv _ _ _ _ _ _ _ (Build_ginv _ _ Hm Hp Hc) Hlm H) as [[ext [Hext _]] [[Hm' Hp' Hc'] [Hlm' Hs]]].
  split; [exists ext; exact Hext|]. auto 6.
Qed.

Lemma Forall_set_nth : forall (A : Type) (P : A -> Prop) l i x, Forall P l -> P x -> Forall P (set_nth l i x).
Proof.
  induction l as [|y l IH]; intros i x Hl Hx; cbn [set_nth]; [constructor|].
  inversion Hl; subst. destruct i; constructor; auto.
Qed.

Lemma Forall_nth_default : forall (A : Type) (P : A -> Prop) l i d, Forall P l -> P d -> P (nth i l d).
Proof.
  induction l as [|y l IH]; intros i d Hl Hd; destruct i; cbn; auto; inversion Hl; subst; auto.
Qed.

Lemma step_spec : forall parts g lms o g' lms' i,
  inv parts g lms -> step parts g lms o = Ok (g', lms', i) ->
  inv parts g' lms' /\ grown (eq (snd o)) (g_pipes g) (g_pipes g') /\ served_by parts (g_pipes g') (snd o) i.
Proof.
  intros parts g lms [si ks] g' lms' i [Hg Hl] H. unfold step, obind in H.
  destruct (local_get_or_create parts g (nth si lms []) ks) as [[[g1 lm1] i1]| |] eqn:Hgc; try discriminate.
  inversion H; subst; clear H.
  assert (Hlm : map_ok (g_pipes g) (nth si lms [])) by (apply Forall_nth_default; [exact Hl|apply map_ok_nil]).
  destruct (local_goc_inv _ _ _ _ _ _ _ Hg Hlm Hgc) as [Hgr [Hg' [Hlm' Hs]]].
  split; [|split; [exact Hgr|exact Hs]]. split; [exact Hg'|].
  apply Forall_set_nth; [|exact Hlm']. eapply Forall_impl; [|exact Hl]. intros m. exact (map_ok_grown _ _ _ _ Hgr).
Qed.

Lemma run_ops_spec : forall parts ops g lms g' lms' is,
  inv parts g lms -> run_ops parts g lms ops = Ok (g', lms', is) ->
  inv parts g' lms' /\ grown (fun ks => exists o, In o ops /\ snd o = ks) (g_pipes g) (g_pipes g') /\
  Forall2 (fun o i => served_by parts (g_pipes g') (snd o) i) ops is.
Proof.
  induction ops as [|o ops IH]; intros g lms g' lms' is Hinv H; cbn [run_ops] in H.
  - inversion H; subst. split; [exact Hinv|]. split; [apply grown_refl|constructor].
  - unfold obind in H. destruct (step parts g lms o) as [[[g1 lms1] i1]| |] eqn:Hs; try discriminate.
    destruct (run_ops parts g1 lms1 ops) as [[[g2 lms2] is2]| |] eqn:Hr; try discriminate.
    inversion H; subst; clear H.
    destruct (step_spec _ _ _ _ _ _ _ Hinv Hs) as [Hinv1 [Hgr1 Hs1]].
    destruct (IH _ _ _ _ _ Hinv1 Hr) as [Hinv2 [Hgr2 Hall]].
    split; [exact Hinv2|]. split.
    + eapply grown_trans; [| |exact Hgr1|exact Hgr2].
      * intros ks Hk. exists o. split; [left; reflexivity|exact Hk].
      * intros ks [o' [Ho' Hk]]. exists o'. split; [right; exact Ho'|exact Hk].
    + constructor; [|exact Hall]. exact (served_by_grown _ _ _ _ _ _ Hgr2 Hs1).
Qed.

(* the key tuples NewOrchestrator recovers from the listed ids, as the records of one sink: the restart is a run *)
Definition recovered (n : nat) (ids : list bytes) : list op :=
  flat_map (fun id => match recover_keys n id with Some ks => [(O, ks)] | None => [] end) ids.

Lemma In_recovered : forall n ids o,
  In o (recovered n ids) <-> fst o = O /\ exists id, In id ids /\ recover_keys n id = Some (snd o).
Proof.
  intros n ids [s ks]. unfold recovered. rewrite in_flat_map. cbn [fst snd]. split.
  - intros [id [Hin H]]. destruct (recover_keys n id) as [ks'|] eqn:E; [|destruct H].
    destruct H as [H|[]]. inversion H; subst. split; [reflexivity|]. exists id. auto.
  - intros [-> [id [Hin E]]]. exists id. rewrite E. split; [exact Hin|left; reflexivity].
Qed.

Lemma init_ids_run : forall parts n ids g lm,
  init_ids parts n g lm ids =
  obind (run_ops parts g [lm] (recovered n ids)) (fun '(g', lms, _) => Ok (g', nth O lms [])).
Proof.
  induction ids as [|id ids IH]; intros g lm; cbn [init_ids recovered flat_map]; [reflexivity|].
  fold (recovered n ids). destruct (recover_keys n id) as [ks|]; cbn [app]; [|apply IH].
  cbn [run_ops step nth]. destruct (local_get_or_create parts g lm ks) as [[[g1 lm1] i1]| |]; cbn [obind set_nth]; [|reflexivity..].
  rewrite IH. destruct (run_ops parts g1 [lm1] (recovered n ids)) as [[[g2 lms2] is2]| |]; reflexivity.
Qed.

Lemma orch_init_spec : forall parts n ids g0, orch_init parts n ids = Ok g0 ->
  ginv parts g0 /\
  grown (fun ks => exists id, In id ids /\ recover_keys n id = Some ks) [] (g_pipes g0) /\
  (* every listed id of the right arity has a pipeline for exactly the keys it splits into *)
  forall id ks, In id ids -> recover_keys n id = Some ks -> exists i, served_by parts (g_pipes g0) ks i.
Proof.
  intros parts n ids g0 H. unfold orch_init in H. rewrite init_ids_run in H. revert H.
  destruct (run_ops _ _ _ _) as [[[g lms] is]| |] eqn:Hrun; cbn; intros H; try discriminate.
  inversion H; subst; clear H.
  destruct (run_ops_spec _ _ _ _ _ _ _ (inv_init parts 1) Hrun) as [[Hg _] [Hgr Hall]].
  split; [exact Hg|]. split.
  - eapply grown_weaken; [|exact Hgr]. intros ks [o [Ho <-]]. apply In_recovered in Ho. exact (proj2 Ho).
  - intros id ks Hin Hr.
    destruct (Forall2_In_l _ _ _ _ _ (O, ks) Hall) as [i [_ Hs]]; [|exists i; exact Hs].
    apply In_recovered. split; [reflexivity|]. exists id. auto.
Qed.

Lemma routing_own_keys_lemma :
  forall parts n ids nsinks ops g0 g lms is,
    orch_init parts n ids = Ok g0 ->
    run_ops parts g0 (repeat [] nsinks) ops = Ok (g, lms, is) ->
    Forall2 (fun o i => served_by parts (g_pipes g) (snd o) i) ops is.
Proof.
  intros parts n ids nsinks ops g0 g lms is Hinit Hrun.
  destruct (orch_init_spec _ _ _ _ Hinit) as [Hg0 _].
  exact (proj2 (proj2 (run_ops_spec _ _ _ _ _ _ _ (inv_sinks_fresh _ _ nsinks Hg0) Hrun))).
Qed.

(* two records reach the same pipeline exactly when their key tuples are equal *)
Lemma routing_injective_lemma :
  forall parts n ids nsinks ops g0 g lms is,
    orch_init parts n ids = Ok g0 ->
    run_ops parts g0 (repeat [] nsinks) ops = Ok (g, lms, is) ->
    forall j k o o' i i',
      nth_error ops j = Some o -> nth_error ops k = Some o' ->
      nth_error is j = Some i -> nth_error is k = Some i' ->
      (snd o = snd o' <-> i = i').
Proof.
  intros parts n ids nsinks ops g0 g lms is Hinit Hrun j k o o' i i' Hj Hk Hij Hik.
  destruct (orch_init_spec _ _ _ _ Hinit) as [Hg0 _].
  destruct (run_ops_spec _ _ _ _ _ _ _ (inv_sinks_fresh _ _ nsinks Hg0) Hrun) as [[[_ _ Hc] _] [_ Hall]].
  exact (served_by_inj _ _ _ _ _ _ Hc (Forall2_nth_error _ _ _ _ _ _ _ _ Hall Hj Hij) (Forall2_nth_error _ _ _ _ _ _ _ _ Hall Hk Hik)).
Qed.

(* no phantom pipelines: every pipeline was created for the keys of a listed id or of a record *)
Lemma routing_no_phantom_lemma :
  forall parts n ids nsinks ops g0 g lms is,
    orch_init parts n ids = Ok g0 ->
    run_ops parts g0 (repeat [] nsinks) ops = Ok (g, lms, is) ->
    forall p, In p (g_pipes g) ->
      (exists id, In id ids /\ recover_keys n id = Some (p_keys p)) \/ (exists o, In o ops /\ p_keys p = snd o).
Proof.
  intros parts n ids nsinks ops g0 g lms is Hinit Hrun p Hp.
  destruct (orch_init_spec _ _ _ _ Hinit) as [Hg0 [Hgr0 _]].
  destruct (run_ops_spec _ _ _ _ _ _ _ (inv_sinks_fresh _ _ nsinks Hg0) Hrun) as [_ [Hgr _]].
  destruct (grown_In _ _ _ _ Hgr Hp) as [H0|[o [Ho Hk]]]; [left|right; exists o; auto].
  destruct (grown_In _ _ _ _ Hgr0 H0) as [[]|H]. exact H.
Qed.

Definition mset_ok (m : mstate) : Prop :=
  (forall mk i, In (mk, i) (m_map m) -> exists ks, nth_error (m_sets m) i = Some ks /\ mk = merged_key ks) /\
  (forall i ks, nth_error (m_sets m) i = Some ks -> lookup (merged_key ks) (m_map m) = Some i) /\
  (* the counters of every entry carry the label values made from the entry's own key values *)
  m_labels m = map metric_label_values (m_sets m).

Lemma mset_ok_init : mset_ok m_init.
Proof. split; [|split]; cbn; [intros mk i []|intros [|i] ks H; discriminate|reflexivity]. Qed.

Lemma metric_select_spec : forall m ks m' i,
  mset_ok m -> metric_select m ks = (m', i) ->
  mset_ok m' /\ (exists ext, m_sets m' = m_sets m ++ ext) /\ nth_error (m_sets m') i = Some ks.
Proof.
  intros m ks m' i [H1 [H2 H3]] H. unfold metric_select in H.
  destruct (lookup (merged_key ks) (m_map m)) as [j|] eqn:Hl.
  - inversion H; subst. split; [split; [|split]; assumption|]. split; [exists []; rewrite app_nil_r; reflexivity|].
    apply lookup_In in Hl. destruct (H1 _ _ Hl) as [ks' [Hn Hk]].
    apply merged_key_injective_lemma in Hk. subst. exact Hn.
  - inversion H; subst; clear H. cbn [m_sets m_map m_labels].
    split; [split; [|split]|split; [exists [ks]; reflexivity|apply nth_error_mid]]; cycle 2.
    { cbn [m_sets m_labels]. rewrite H3, map_app. reflexivity. }
    + cbn [m_sets m_map]. intros mk i [Heq|Hin].
      * inversion Heq; subst. exists ks. split; [apply nth_error_mid|reflexivity].
      * destruct (H1 _ _ Hin) as [ks' [Hn Hk]]. exists ks'. split; [apply nth_error_app_l; exact Hn|exact Hk].
    + intros i ks' Hq. cbn [m_sets m_map] in *. apply nth_error_snoc in Hq. destruct Hq as [Hq|[-> ->]]; [|apply lookup_cons_eq].
      pose proof (H2 _ _ Hq) as Hq'. rewrite lookup_cons_ne; [exact Hq'|]. intros Heq. rewrite Heq, Hl in Hq'. discriminate.
Qed.

Lemma metric_run_spec : forall recs m m' is,
  mset_ok m -> metric_run m recs = (m', is) ->
  mset_ok m' /\ (exists ext, m_sets m' = m_sets m ++ ext) /\
  Forall2 (fun ks i => nth_error (m_sets m') i = Some ks) recs is.
Proof.
  induction recs as [|ks recs IH]; intros m m' is Hok H; cbn [metric_run] in H.
  - inversion H; subst. split; [exact Hok|]. split; [exists []; rewrite app_nil_r; reflexivity|constructor].
  - destruct (metric_select m ks) as [m1 i1] eqn:Hs. destruct (metric_run m1 recs) as [m2 is2] eqn:Hr.
    inversion H; subst; clear H.
    destruct (metric_select_spec _ _ _ _ Hok Hs) as [Hok1 [[ext1 Hext1] Hn1]].
    destruct (IH _ _ _ Hok1 Hr) as [Hok2 [[ext2 Hext2] Hall]].
    split; [exact Hok2|]. split; [exists (ext1 ++ ext2); rewrite Hext2, Hext1, app_assoc; reflexivity|].
    constructor; [|exact Hall]. rewrite Hext2. apply nth_error_app_l. exact Hn1.
Qed.

(* each record is counted by the counter set (map entry) of exactly its own metric key tuple, whose counters carry
   the label values made from that tuple; two records share a counter set exactly when their tuples are equal *)
Lemma metric_own_keys_lemma : forall recs m is,
  metric_run m_init recs = (m, is) ->
  Forall2 (fun ks i => nth_error (m_sets m) i = Some ks /\
                       nth_error (m_labels m) i = Some (metric_label_values ks)) recs is /\
  (forall j k ks ks' i i', nth_error recs j = Some ks -> nth_error recs k = Some ks' ->
      nth_error is j = Some i -> nth_error is k = Some i' -> (ks = ks' <-> i = i')).
Proof.
  intros recs m is H. destruct (metric_run_spec _ _ _ _ mset_ok_init H) as [[_ [Hc Hl]] [_ Hall]].
  split; [eapply Forall2_weaken; [|exact Hall]; intros ks i Hn; split; [exact Hn|rewrite Hl, nth_error_map, Hn; reflexivity]|].
  intros j k ks ks' i i' Hj Hk Hij Hik.
  pose proof (Forall2_nth_error _ _ _ _ _ _ _ _ Hall Hj Hij) as Hp.
  pose proof (Forall2_nth_error _ _ _ _ _ _ _ _ Hall Hk Hik) as Hq.
  split; [intros <-; pose proof (Hc _ _ Hp) as H1; rewrite (Hc _ _ Hq) in H1|intros <-]; congruence.
Qed.
