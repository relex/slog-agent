(* C06 - what a pipeline keeps of the record that created it is a copy: with util.DeepCopyStrings in
   LocalCachedMap.GetOrCreate the memory-level model (Model/RoutingMem.v) refines the value-level routing model
   (Model/Routing.v) whatever is written into the input buffers afterwards; with a shallow copy it does not. *)
From SV Require Import Model.Common Model.Routing Model.RoutingMem Proofs.CommonFacts Proofs.RoutingProofs.
From SV Require Model.Utf8 Spec.Utf8Spec Proofs.Utf8Proofs.
From Coq Require Import Lia.
Open Scope N_scope.

(* the stored reference denotes the value b in every heap *)
Definition repr (v : sval) (b : bytes) : Prop := forall h, read h v = b.

Definition repr_pipe (mp : mpipe) (p : pipeline) : Prop :=
  (forall h, map (read h) (mp_keys mp) = p_keys p) /\ repr (mp_id mp) (p_id p) /\ repr (mp_tag mp) (p_tag p) /\
  (forall h, map (read h) (mp_labels mp) = p_labels p).

(* simulation relation between the memory-level state and the value-level state (one sink) *)
Definition sim (st : rstate) (g : gstate) (lm : amap) : Prop :=
  rs_map st = g_map g /\ rs_local st = lm /\ Forall2 repr_pipe (rs_pipes st) (g_pipes g).

Lemma sim_init : sim rs_init g_init [].
Proof. repeat split. constructor. Qed.

(* the deep copy: owned strings holding the values the references have now; they read the same in every heap *)
Lemma keep_deep : forall h ks, map (keep true h) ks = map Owned (map (read h) ks).
Proof. intros h ks. rewrite map_map. reflexivity. Qed.

Lemma map_read_owned : forall h vals, map (read h) (map Owned vals) = vals.
Proof. intros h vals. rewrite map_map. apply map_id. Qed.

(* the tag built from owned strings is heap-independent and is the value-level tag *)
Lemma m_build_tag_owned : forall parts h vals tag,
  m_build_tag parts h (map Owned vals) = Ok tag -> exists b, build_tag parts vals = Ok b /\ repr tag b.
Proof.
  intros parts h vals tag H.
  assert (Hgen : obind (build_tag parts vals) (fun b => Ok (Owned b)) = Ok tag -> exists b, build_tag parts vals = Ok b /\ repr tag b).
  { destruct (build_tag parts vals) as [b| |]; try discriminate. intros E. inversion E. exists b. split; [reflexivity|intros h'; reflexivity]. }
  destruct parts as [|p [|q r]]; [|destruct p as [s|i|i ps pe]|]; cbn [m_build_tag] in H;
    rewrite ?map_read_owned, ?nth_error_map in H; try exact (Hgen H).
  - unfold build_tag, expand_part, key_at. destruct (nth_error vals i) as [v|]; [|discriminate].
    inversion H. exists v. split; [reflexivity|intros h'; reflexivity].
  - unfold build_tag, expand_part, key_at. destruct (nth_error vals i) as [v|]; [|discriminate].
    cbn [option_map read obind] in *. destruct (go_substr v ps pe) as [x| |] eqn:G; try discriminate.
    inversion H. exists x. split; [reflexivity|intros h'; cbn [read]; rewrite G; reflexivity].
  - destruct p; exact (Hgen H).
Qed.

Lemma m_join_owned : forall h vals, repr (m_join h (map Owned vals)) (pipeline_id vals).
Proof.
  intros h vals h'. unfold m_join, pipeline_id. destruct vals as [|k [|k2 r]]; [reflexivity..|].
  change (map Owned (k :: k2 :: r)) with (Owned k :: Owned k2 :: map Owned r). cbn [read].
  change (Owned k :: Owned k2 :: map Owned r) with (map Owned (k :: k2 :: r)). rewrite map_read_owned. reflexivity.
Qed.

(* the label values made from owned strings are heap-independent and are the value-level label values: ToValidUTF8
   either returns the (owned) string itself - then it is valid and equal to its cleaned form - or builds a new one *)
Lemma m_labels_owned : forall h h' vals,
  map (read h') (map (m_label_value h) (map Owned vals)) = metric_label_values vals.
Proof.
  intros h h' vals. unfold metric_label_values. rewrite !map_map. apply map_ext. intros v.
  unfold m_label_value. cbn [read]. destruct (Utf8.valid v) eqn:E; cbn [read]; [|reflexivity].
  symmetry. apply Utf8Proofs.to_valid_id. apply Utf8Proofs.valid_iff_lemma. exact E.
Qed.

(* one record: LocalCachedMap.GetOrCreate on references, with the deep copy, is the value-level GetOrCreate
   on the values the references have at that moment *)
Lemma m_get_or_create_sim : forall parts st g lm ks st' i,
  sim st g lm ->
  m_get_or_create true parts st ks = Ok (st', i) ->
  exists g' lm', local_get_or_create parts g lm (map (read (rs_heap st)) ks) = Ok (g', lm', i) /\
                 sim st' g' lm'.
Proof.
  intros parts st g lm ks st' i [Hm [Hl Hp]] H. unfold m_get_or_create in H. unfold local_get_or_create.
  set (h := rs_heap st) in *. set (vals := map (read h) ks) in *. rewrite Hl in H.
  destruct (lookup (merged_key vals) lm) as [j|] eqn:L1.
  - injection H as Hst Hi. subst st' i. exists g, lm. repeat split; auto.
  - unfold global_get_or_create. rewrite Hm in H. destruct (lookup (merged_key vals) (g_map g)) as [j|] eqn:L2.
    + injection H as Hst Hi. subst st' i. exists g, ((merged_key vals, j) :: lm). cbn. repeat split; auto.
    + rewrite keep_deep in H. fold vals in H.
      destruct (m_build_tag parts h (map Owned vals)) as [tag| |] eqn:T; cbn [obind] in H; try discriminate.
      injection H as Hst Hi. subst st' i.
      destruct (m_build_tag_owned _ _ _ _ T) as [b [Hb Hrepr]].
      unfold new_pipeline. rewrite Hb. cbn [obind].
      rewrite (Forall2_len _ _ _ _ _ Hp).
      eexists. eexists. split; [reflexivity|].
      unfold sim. cbn [rs_map rs_local rs_pipes g_map g_pipes]. split; [reflexivity|]. split; [reflexivity|].
      apply Forall2_app; [exact Hp|]. constructor; [|constructor].
      unfold repr_pipe. cbn [mp_keys mp_id mp_tag mp_labels p_keys p_id p_tag p_labels].
      split; [intros h'; apply map_read_owned|]. split; [apply m_join_owned|]. split; [exact Hrepr|].
      intros h'. apply m_labels_owned.
Qed.

Lemma m_run_sim : forall parts evs st g lm st' is vs,
  sim st g lm ->
  m_run true parts st evs = Ok (st', is, vs) ->
  exists g' lm', run_ops parts g [lm] (map (fun t => (O, t)) vs) = Ok (g', [lm'], is) /\ sim st' g' lm'.
Proof.
  induction evs as [|ev evs IH]; intros st g lm st' is vs Hsim H; cbn [m_run] in H.
  - inversion H; subst. exists g, lm. split; [reflexivity|exact Hsim].
  - destruct ev as [i line|ks].
    + eapply IH; [|exact H]. destruct Hsim as [Hm [Hl Hp]]. repeat split; assumption.
    + destruct (m_get_or_create true parts st ks) as [[st1 i1]| |] eqn:G; try discriminate.
      destruct (m_run true parts st1 evs) as [[[st2 is2] vs2]| |] eqn:R; try discriminate.
      inversion H; subst; clear H.
      destruct (m_get_or_create_sim _ _ _ _ _ _ _ Hsim G) as [g1 [lm1 [Hg Hsim1]]].
      destruct (IH _ _ _ _ _ _ Hsim1 R) as [g2 [lm2 [Hr Hsim2]]].
      exists g2, lm2. split; [|exact Hsim2].
      cbn [map run_ops step nth]. rewrite Hg. cbn [obind set_nth]. rewrite Hr. reflexivity.
Qed.

(* what is observed with any later content of the heap *)
Definition observe_with (h : heap) (st : rstate) : list pipeline :=
  observe {| rs_heap := h; rs_map := rs_map st; rs_local := rs_local st; rs_pipes := rs_pipes st |}.

Lemma observe_repr : forall h mps ps, Forall2 repr_pipe mps ps ->
  map (fun p => {| p_keys := map (read h) (mp_keys p); p_id := read h (mp_id p); p_tag := read h (mp_tag p);
                   p_labels := map (read h) (mp_labels p) |}) mps = ps.
Proof.
  intros h mps ps H. induction H as [|mp p mps ps [Hk [Hi [Ht Hb]]] _ IH]; cbn [map]; [reflexivity|].
  rewrite IH, Hk, Hi, Ht, Hb. destruct p; reflexivity.
Qed.

(* Main lemma: with the deep copy, for every sequence of buffer writes and routed records, what the
   pipelines show - looked at with ANY later content of the buffers - is exactly the value-level run on the
   key values the records had when they were routed. *)
Lemma stored_values_are_copies_lemma :
  forall parts evs st is vs,
    m_run true parts rs_init evs = Ok (st, is, vs) ->
    exists g lm, run_ops parts g_init [[]] (map (fun t => (O, t)) vs) = Ok (g, [lm], is) /\
                 forall h, observe_with h st = g_pipes g.
Proof.
  intros parts evs st is vs H.
  destruct (m_run_sim _ _ _ _ _ _ _ _ sim_init H) as [g [lm [Hr [_ [_ Hp]]]]].
  exists g, lm. split; [exact Hr|]. intros h. unfold observe_with, observe. cbn [rs_heap rs_pipes].
  apply observe_repr. exact Hp.
Qed.

(* hence: after any later writes every routed record's pipeline still shows the record's own key values,
   its own id and its own tag *)
Lemma pooled_routing_own_keys_lemma :
  forall parts evs st is vs,
    m_run true parts rs_init evs = Ok (st, is, vs) ->
    forall h, Forall2 (fun t i => exists p, nth_error (observe_with h st) i = Some p /\ p_keys p = t /\
                                  p_id p = pipeline_id t /\ build_tag parts t = Ok (p_tag p) /\
                                  p_labels p = metric_label_values t) vs is.
Proof.
  intros parts evs st is vs H h.
  destruct (stored_values_are_copies_lemma _ _ _ _ _ H) as [g [lm [Hr Hobs]]]. rewrite Hobs.
  pose proof (inv_init parts 1) as Hinv. cbn [repeat] in Hinv.
  destruct (run_ops_spec _ _ _ _ _ _ _ Hinv Hr) as [_ [_ Hall]].
  clear - Hall. revert is Hall. induction vs as [|t vs IH]; intros is Hall; inversion Hall; subst; constructor; auto.
Qed.

(* Without the deep copy the pipeline follows the buffer: the first record "info sshd" creates the
   pipeline with tag = $app; the buffer is recycled for "warn cron"; the tag, the id and the labels now read
   "cron" although the only routed record had app = "sshd". *)
Definition alias_parts : list tpart := [TVar 0].
Definition alias_events : list event :=
  [EWrite 0 [105;110;102;111;32;115;115;104;100];       (* "info sshd" *)
   ERoute [View 0 5 4];                                    (* app = "sshd" *)
   EWrite 0 [119;97;114;110;32;99;114;111;110]].         (* "warn cron" *)

Lemma shallow_copy_aliases :
  exists st is vs,
    m_run false alias_parts rs_init alias_events = Ok (st, is, vs) /\
    vs = [[[115;115;104;100]]] /\
    observe st = [{| p_keys := [[99;114;111;110]]; p_id := [99;114;111;110]; p_tag := [99;114;111;110];
                     p_labels := [[99;114;111;110]] |}].
Proof. eexists. eexists. eexists. split; [vm_compute; reflexivity|]. split; vm_compute; reflexivity. Qed.

Lemma deep_copy_on_alias_events :
  exists st is vs,
    m_run true alias_parts rs_init alias_events = Ok (st, is, vs) /\
    observe st = [{| p_keys := [[115;115;104;100]]; p_id := [115;115;104;100]; p_tag := [115;115;104;100];
                     p_labels := [[115;115;104;100]] |}].
Proof. eexists. eexists. eexists. split; vm_compute; reflexivity. Qed.
