(* C15: the rune-level clean-up loop (Model/TfUtf8Dec.v): the decoder yields scalar values in shortest form,
   RuneError only for EF BF BD among the well-formed sequences; the loop with Go's test is to_valid_utf8;
   the clean-up keeps every well-formed sequence wherever it stands and only deletes bytes; the variant
   that tests the rune value alone deletes U+FFFD. *)
From SV Require Import Model.Common Model.TfUtf8 Model.TfUtf8Dec Spec.TfUtf8Spec Spec.TfUtf8DecSpec
     Proofs.TfUtf8Proofs.
From Coq Require Import Lia ZifyBool ZifyN ZifyNat.
Open Scope N_scope.

(* the bytes of the k-th block of m values: masking with m-1 takes off k * m *)
Lemma mod_block : forall m k b, k * m <= b < (k + 1) * m -> b mod m = b - k * m.
Proof. intros m k b H. symmetry. apply N.mod_unique with (q := k); lia. Qed.

(* the value a well-formed sequence encodes: lead bytes lie in the blocks 6 of 32, 14 of 16 and 30 of 8,
   continuation bytes in the block 2 of 64 *)
Definition seq_value (q : bytes) : N :=
  match q with
  | [b0] => b0
  | [b0; b1] => (b0 - 192) * 64 + (b1 - 128)
  | [b0; b1; b2] => (b0 - 224) * 4096 + (b1 - 128) * 64 + (b2 - 128)
  | [b0; b1; b2; b3] => (b0 - 240) * 262144 + (b1 - 128) * 4096 + (b2 - 128) * 64 + (b3 - 128)
  | _ => 0
  end.

Lemma decode_rune_seq : forall q t, utf8_seq q -> decode_rune (q ++ t) = (seq_value q, length q).
Proof.
  intros q t H. unfold decode_rune. rewrite (rune_width_seq q t H).
  destruct H; unfold cont in *; cbn [app length seq_value]; rewrite ?(mod_block 64 2) by lia; try reflexivity.
  - rewrite (mod_block 32 6) by lia. reflexivity.
  - rewrite (mod_block 16 14) by lia. reflexivity.
  - rewrite (mod_block 8 30) by lia. reflexivity.
Qed.

Lemma decode_rune_seq_size : forall q t, utf8_seq q -> snd (decode_rune (q ++ t)) = length q.
Proof. intros q t H. rewrite (decode_rune_seq q t H). reflexivity. Qed.

(* among the well-formed sequences only EF BF BD decodes to RuneError *)
Lemma decode_rune_error_iff : forall q t, utf8_seq q ->
  (fst (decode_rune (q ++ t)) = rune_error <-> q = [239; 191; 189]).
Proof.
  intros q t H. rewrite (decode_rune_seq q t H). unfold rune_error.
  split; [|intros ->; reflexivity].
  destruct H; unfold cont in *; cbn [fst seq_value]; intros He; try (exfalso; lia).
  assert (b0 = 239 /\ b1 = 191 /\ b2 = 189) as (-> & -> & ->) by lia. reflexivity.
Qed.

(* the decoded value is a Unicode scalar value in its shortest form *)
Lemma decode_rune_scalar : forall q t, utf8_seq q ->
  scalar_value (fst (decode_rune (q ++ t))) /\ shortest_form (fst (decode_rune (q ++ t))) (length q).
Proof.
  intros q t H. rewrite (decode_rune_seq q t H). unfold scalar_value.
  destruct H; unfold cont in *; cbn [fst seq_value length shortest_form]; lia.
Qed.

Lemma decode_rune_valid : forall s w, rune_width s = Some w ->
  snd (decode_rune s) = w /\ skip_go (fst (decode_rune s)) w = false.
Proof.
  intros s w H. destruct (rune_width_sound _ _ H) as [Hq Hw].
  rewrite <- (firstn_skipn w s). set (q := firstn w s) in *.
  assert (Hl : length q = w) by (unfold q; rewrite firstn_length; lia).
  rewrite (decode_rune_seq_size q _ Hq). split; [assumption|].
  unfold skip_go. destruct (fst (decode_rune (q ++ skipn w s)) =? rune_error) eqn:E; [|reflexivity].
  apply N.eqb_eq in E. apply (decode_rune_error_iff q _ Hq) in E. rewrite E in Hl. subst w. reflexivity.
Qed.

Lemma decode_rune_invalid : forall b t, rune_width (b :: t) = None -> decode_rune (b :: t) = (rune_error, 1%nat).
Proof. intros b t H. unfold decode_rune. rewrite H. reflexivity. Qed.

Lemma to_valid_loop_go : forall f s, (length s <= f)%nat -> to_valid_loop skip_go f s = to_valid_utf8 s.
Proof.
  induction f as [|f IH]; intros s Hl.
  - destruct s; [reflexivity|cbn in Hl; lia].
  - destruct s as [|b t]; [reflexivity|].
    cbn [to_valid_loop]. unfold to_valid_utf8.
    destruct (rune_width (b :: t)) as [w|] eqn:E.
    + destruct (decode_rune_valid _ _ E) as [Hs Hk]. destruct (rune_width_sound _ _ E) as [_ Hw].
      destruct (decode_rune (b :: t)) as [r size]. cbn [fst snd] in *. subst size.
      replace (Nat.max 1 w) with w by lia. rewrite Hk.
      rewrite (to_valid_step_valid _ _ E). f_equal.
      apply IH. rewrite skipn_length. cbn [length] in *. lia.
    + rewrite (decode_rune_invalid _ _ E). cbn [Nat.max skip_go].
      replace (skip_go rune_error 1) with true by reflexivity.
      rewrite (to_valid_step_invalid _ _ E). cbn [skipn app]. apply IH. cbn in Hl. lia.
Qed.

Lemma to_valid_by_go : forall s, to_valid_by skip_go s = to_valid_utf8 s.
Proof. intros s. apply to_valid_loop_go. lia. Qed.

Lemma clean_utf8_by_go : forall s, clean_utf8_by skip_go s = clean_utf8 s.
Proof. intros s. unfold clean_utf8_by, clean_utf8. destruct s; [reflexivity|]. rewrite to_valid_by_go. reflexivity. Qed.

(* the clean-up resynchronises at every byte that cannot continue a sequence *)
Lemma seq_starts_fresh : forall q t, utf8_seq q -> starts_fresh (q ++ t).
Proof.
  intros q t H c y' He. destruct (seq_shape q H) as (b0 & cs & -> & _ & _ & Hb). inversion He; subst. lia.
Qed.

Lemma nil_starts_fresh : starts_fresh [].
Proof. intros c y' H. discriminate. Qed.

(* a well-formed sequence that starts inside x (x non-empty) cannot reach over a fresh start: all its bytes
   but the first are continuation bytes *)
Lemma seq_prefix_bound : forall s t x y, utf8_seq s -> s ++ t = x ++ y -> x <> [] -> starts_fresh y ->
  (length s <= length x)%nat.
Proof.
  intros s t x y Hs Heq Hx Hy. destruct (seq_shape s Hs) as (b0 & cs & -> & Hc & _).
  destruct x as [|x0 x]; [congruence|]. injection Heq as _ Heq. cbn [length]. apply le_n_S.
  clear Hs Hx. revert x Heq. induction Hc as [|c cs Hcc _ IH]; intros x Heq; [cbn; lia|].
  destruct x as [|x1 x]; [exfalso; exact (Hy _ _ (eq_sym Heq) Hcc)|].
  injection Heq as _ Heq. cbn [length]. apply le_n_S, IH, Heq.
Qed.

Lemma rune_width_none_app_fresh : forall x y, x <> [] -> starts_fresh y -> rune_width x = None ->
  rune_width (x ++ y) = None.
Proof.
  intros x y Hx Hy Hn. destruct (rune_width (x ++ y)) as [w|] eqn:E; [exfalso|reflexivity].
  destruct (rune_width_sound _ _ E) as [Hq Hw].
  pose proof (seq_prefix_bound _ _ x y Hq (firstn_skipn w (x ++ y)) Hx Hy) as Hb. rewrite firstn_length in Hb.
  rewrite firstn_app in Hq. replace (w - length x)%nat with O in Hq by lia. rewrite firstn_O, app_nil_r in Hq.
  rewrite <- (firstn_skipn w x), (rune_width_seq _ _ Hq) in Hn. discriminate.
Qed.

Lemma to_valid_app_fresh : forall a y, starts_fresh y -> to_valid_utf8 (a ++ y) = to_valid_utf8 a ++ to_valid_utf8 y.
Proof.
  intros a y Hy. revert a. apply (to_valid_ind (fun a r => to_valid_utf8 (a ++ y) = r ++ to_valid_utf8 y)).
  - reflexivity.
  - intros q t r Hq IH. rewrite <- !app_assoc, (to_valid_seq_app q _ Hq), IH. reflexivity.
  - intros b t r Hn IH. rewrite <- IH. apply to_valid_step_invalid.
    apply (rune_width_none_app_fresh (b :: t)); [discriminate|assumption..].
Qed.

(* every well-formed sequence is kept, wherever it stands and whatever surrounds it *)
Lemma to_valid_keeps_rune : forall a q b, utf8_seq q ->
  to_valid_utf8 (a ++ q ++ b) = to_valid_utf8 a ++ q ++ to_valid_utf8 b.
Proof.
  intros a q b Hq. rewrite (to_valid_app_fresh a (q ++ b) (seq_starts_fresh q b Hq)).
  rewrite (to_valid_seq_app q b Hq). reflexivity.
Qed.

Lemma subseq_refl : forall s, subseq s s.
Proof. induction s; constructor; assumption. Qed.

Lemma subseq_app : forall a a' b b', subseq a' a -> subseq b' b -> subseq (a' ++ b') (a ++ b).
Proof. intros a a' b b' Ha Hb. induction Ha; cbn [app]; [assumption|constructor; assumption|constructor; assumption]. Qed.

Lemma subseq_length : forall r s, subseq r s -> (length r <= length s)%nat.
Proof. induction 1; cbn [length]; lia. Qed.

Lemma subseq_firstn_skipn : forall e s x, subseq x (skipn e s) -> subseq (firstn e s ++ x) s.
Proof.
  intros e s x H. pose proof (subseq_app (firstn e s) (firstn e s) (skipn e s) x (subseq_refl _) H) as K.
  rewrite firstn_skipn in K. exact K.
Qed.

Lemma to_valid_subseq : forall s, subseq (to_valid_utf8 s) s.
Proof.
  apply (to_valid_ind (fun s r => subseq r s)); [constructor|intros|intros; constructor; assumption].
  apply subseq_app; [apply subseq_refl|assumption].
Qed.

Lemma clean_utf8_subseq : forall s r, clean_utf8 s = Ok r -> subseq r s.
Proof.
  intros s r H. rewrite clean_utf8_eq in H. inversion H; subst.
  apply subseq_firstn_skipn, to_valid_subseq.
Qed.

(* nothing is removed when the part after the last ASCII byte is well formed *)
Lemma clean_utf8_valid_tail_id : forall s, valid_utf8 (skipn (find_last_end_of_ascii s) s) -> clean_utf8 s = Ok s.
Proof. intros s H. rewrite clean_utf8_eq, (to_valid_id _ H), firstn_skipn. reflexivity. Qed.

Lemma clean_utf8_valid_id : forall s, valid_utf8 s -> clean_utf8 s = Ok s.
Proof. intros s H. apply clean_utf8_valid_tail_id, valid_after_last_ascii, H. Qed.

(* every well-formed sequence of the input is in the output, between what is left of its two sides *)
Lemma clean_utf8_keeps_rune : forall a q b r, utf8_seq q -> clean_utf8 (a ++ q ++ b) = Ok r ->
  exists a' b', r = a' ++ q ++ b' /\ subseq a' a /\ subseq b' b.
Proof.
  intros a q b r Hq H. rewrite clean_utf8_eq in H. inversion H; subst r; clear H.
  set (e := find_last_end_of_ascii (a ++ q ++ b)).
  assert (He : (e <= length a)%nat /\ Forall (fun c => 128 <= c) q \/ (length a + length q <= e)%nat).
  { unfold e. rewrite flea_app, flea_app.
    destruct (find_last_end_of_ascii b) as [|n] eqn:Eb.
    - destruct (seq_high_or_single q Hq) as [(c & -> & Hc)|Hh].
      + right. cbn [find_last_end_of_ascii length]. destruct (c <=? 127) eqn:E; [lia|lia].
      + left. rewrite (flea_high q Hh). split; [apply flea_le|assumption].
    - right. replace (length q + S n)%nat with (S (length q + n)) by lia. lia. }
  destruct He as [[Hle Hh]|Hge].
  - exists (firstn e a ++ to_valid_utf8 (skipn e a)), (to_valid_utf8 b).
    rewrite firstn_app, skipn_app. replace (e - length a)%nat with O by lia. cbn [firstn skipn].
    rewrite app_nil_r, to_valid_keeps_rune by assumption. rewrite <- !app_assoc.
    split; [reflexivity|]. split; [|apply to_valid_subseq].
    apply subseq_firstn_skipn, to_valid_subseq.
  - set (j := (e - (length a + length q))%nat).
    exists a, (firstn j b ++ to_valid_utf8 (skipn j b)).
    rewrite (app_assoc a q b). rewrite firstn_app, skipn_app, app_length.
    rewrite firstn_all2, skipn_all2 by (rewrite app_length; lia). fold j. cbn [app].
    rewrite <- !app_assoc. split; [reflexivity|]. split; [apply subseq_refl|].
    apply subseq_firstn_skipn, to_valid_subseq.
Qed.

(* the variant that tests only the rune value (seeded change C15/6): a valid string (one U+FFFD) that it does
   not leave alone, whereas CleanUTF8 does *)
Lemma clean_rune_only_refuted :
  exists s, valid_utf8 s /\ clean_utf8 s = Ok s /\ clean_utf8_by skip_rune_only s <> Ok s.
Proof.
  exists [239; 191; 189].
  assert (Hv : valid_utf8 [239; 191; 189]).
  { change [239; 191; 189] with ([239; 191; 189] ++ []). constructor; [|constructor].
    apply U3b; unfold cont; lia. }
  split; [exact Hv|]. split; [apply clean_utf8_valid_id; exact Hv|].
  vm_compute. discriminate.
Qed.

(* the example of the truncate contract: "12<U+FFFD>世界World" cut at 8 bytes keeps the U+FFFD with CleanUTF8
   and loses it with the variant *)
Lemma truncate_rune_only_example :
  let v := [49; 50; 239; 191; 189; 228; 184; 150; 231; 149; 140; 87; 111; 114; 108; 100] in
  clean_utf8 (firstn 8 v) = Ok [49; 50; 239; 191; 189; 228; 184; 150] /\
  clean_utf8_by skip_rune_only (firstn 8 v) = Ok [49; 50; 228; 184; 150].
Proof. vm_compute. split; reflexivity. Qed.

Lemma clean_utf8_keeps_all : forall s r, clean_utf8 s = Ok r ->
  subseq r s /\
  (valid_utf8 (skipn (find_last_end_of_ascii s) s) -> r = s) /\
  (forall a q b, s = a ++ q ++ b -> utf8_seq q -> exists a' b', r = a' ++ q ++ b' /\ subseq a' a /\ subseq b' b).
Proof.
  intros s r H. split; [apply clean_utf8_subseq; exact H|]. split.
  - intros Hv. rewrite (clean_utf8_valid_tail_id s Hv) in H. inversion H. reflexivity.
  - intros a q b -> Hq. apply clean_utf8_keeps_rune; assumption.
Qed.
