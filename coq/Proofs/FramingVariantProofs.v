(* The reader with a switch per emission site for trimming one trailing CR (Model/FramingVariants.v):
   with every switch off it is the model of the theorems; trimming in processBuffer and FlushAll but
   not in Flush makes the records depend on the flush timing, trimming at all three sites loses a
   byte of the stream.  In between, what "loses no byte" means: the segments of the reference framer,
   each followed by one newline, are the stream ([segments_cover]). *)
From Coq Require Import Lia ZifyBool ZifyN ZifyNat.
From SV Require Import Model.Common Model.Framing Model.FramingVariants Spec.FramingSpec Proofs.FramingProofs.
Open Scope nat_scope.

(* with [no_trim] the bodies of the variant's functions reduce to those of the model: conversion *)
Lemma pb_loop_v_none : forall test fuel buffer rs ss out,
  pb_loop_v test no_trim fuel buffer rs ss out = pb_loop test fuel buffer rs ss out.
Proof. reflexivity. Qed.

Lemma read_frag_v_none : forall test fuel st frag out,
  read_frag_v test no_trim fuel st frag out = read_frag test fuel st frag out.
Proof. reflexivity. Qed.

Lemma run_op_v_none : forall test st o, run_op_v test no_trim st o = run_op test st o.
Proof.
  intros test st [f| |]; cbn [run_op_v run_op].
  - unfold read_v, read. apply read_frag_v_none.
  - reflexivity.
  - unfold flush_all_v, flush_all. destruct (0 <? length (m_buf st)); [|reflexivity].
    destruct (oidx 9 (m_buf st) (length (m_buf st) - 1)) as [l| |]; cbn [bindo]; try reflexivity.
    destruct (N.eqb l NL); [|reflexivity].
    destruct (oslice 10 (m_buf st) 0 (length (m_buf st) - 1)) as [r0| |]; reflexivity.
Qed.

Lemma variant_none_is_model : forall test ops st out,
  run_ops_v test no_trim ops st out = run_ops test ops st out.
Proof.
  intros test ops. induction ops as [|o ops IH]; intros st out; [reflexivity|].
  cbn [run_ops_v run_ops]. rewrite run_op_v_none.
  destruct (run_op test st o) as [[st' o']| |]; cbn [bindo]; try reflexivity. apply IH.
Qed.

Definition tail_list (t : bytes) : list bytes := match t with [] => [] | _ :: _ => [t] end.

Lemma unlines_group : forall test ls cur tail, cur <> [] ->
  unlines (group test cur ls tail) = unlines (cur ++ ls ++ tail_list tail).
Proof.
  intros test ls. induction ls as [|l ls IH]; intros cur tail Hc; cbn [group app].
  - rewrite unlines_one. symmetry. destruct tail; cbn [tail_list]; rewrite ?app_nil_r;
      apply unlines_join; destruct cur; discriminate || assumption.
  - destruct (is_start test l).
    + rewrite unlines_cons, IH, (unlines_app cur), (unlines_join cur Hc), <- app_assoc by discriminate. reflexivity.
    + rewrite IH, <- app_assoc by (destruct cur; discriminate). reflexivity.
Qed.

(* every segment followed by one newline: that is the stream, plus the newline a missing final
   terminator would have been *)
Lemma segments_cover : forall test s,
  exists pad, (pad = [] \/ pad = [NL]) /\ unlines (segments test s) = s ++ pad.
Proof.
  intros test s. unfold segments. destruct (split_lines s) as [ls t] eqn:Es.
  destruct (split_lines_decomp s ls t Es) as (-> & _ & _).
  assert (Ht : exists pad, (pad = [] \/ pad = [NL]) /\ unlines (tail_list t) = t ++ pad)
    by (destruct t as [|c t]; [exists []|exists [NL]]; split; auto; apply (unlines_one (c :: t))).
  destruct Ht as (pad & Hp & E). exists pad. split; [exact Hp|]. rewrite <- app_assoc, <- E.
  destruct ls as [|l ls]; [reflexivity|]. rewrite unlines_group by discriminate. apply (unlines_app (l :: ls)).
Qed.

Lemma frame_cover : forall test s,
  exists dropped pad,
    (dropped = [] \/ exists x, dropped = [x] /\ test x = false) /\ (pad = [] \/ pad = [NL]) /\
    unlines (frame test s ++ dropped) = s ++ pad.
Proof.
  intros test s. unfold frame. destruct (close_last_split test (segments test s)) as (d & Hd & E).
  destruct (segments_cover test s) as (pad & Hp & Ec).
  exists d, pad. split; [exact Hd|]. split; [exact Hp|]. rewrite E. exact Ec.
Qed.

Lemma records_byte_exact_lemma :
  forall (test : bytes -> bool) (min_buf limit b : nat) (fs : list bytes),
  1 <= limit -> 2 * b + 1 + limit <= Nat.max min_buf (limit * 3) ->
  seg_bound test b (concat fs) ->
  exists st' out dropped pad,
    run_ops test (map OpRead fs ++ [OpFlushAll]) (new_mlr min_buf limit) [] = Ok (st', out) /\
    (dropped = [] \/ exists x, dropped = [x] /\ test x = false) /\ (pad = [] \/ pad = [NL]) /\
    unlines (out ++ dropped) = concat fs ++ pad.
Proof.
  intros test min_buf limit b fs Hl Hc Hb.
  destruct (frag_independent_lemma test min_buf limit b fs Hl Hc Hb) as (st' & E).
  destruct (frame_cover test (concat fs)) as (d & pad & Hd & Hp & Ec).
  exists st', (frame test (concat fs)), d, pad. repeat split; assumption.
Qed.

Definition cr_line : bytes := [62; 13]%N.                 (* ">\r"  *)
Definition cr_stream : bytes := [62; 13; 10; 62; 13; 10]%N. (* ">\r\n>\r\n" *)

Lemma cr_trim_variant_lemma :
  exists (min_buf limit b : nat) (ls : list bytes) (ops1 ops2 : list op),
    1 <= limit /\ 2 * b + 1 + limit <= Nat.max min_buf (limit * 3) /\
    Forall (valid_line gt_test b) ls /\ no_flush_all ops1 /\ no_flush_all ops2 /\
    ops_text ops1 = unlines ls /\ ops_text ops2 = unlines ls /\
    exists st1 out1 st2 out2,
      run_ops_v gt_test seeded_trim (ops1 ++ [OpFlushAll]) (new_mlr min_buf limit) [] = Ok (st1, out1) /\
      run_ops_v gt_test seeded_trim (ops2 ++ [OpFlushAll]) (new_mlr min_buf limit) [] = Ok (st2, out2) /\
      out1 <> out2 /\ out2 <> ls.
Proof.
  exists 13, 4, 4, [cr_line; cr_line], [OpRead cr_stream], [OpRead [62; 13; 10]%N; OpFlush; OpRead [62; 13; 10]%N].
  split; [lia|]. split; [vm_compute; lia|].
  split.
  { repeat constructor; unfold cr_line, nonl; cbn; try discriminate; try lia.
    all: intros [H|[H|[]]]; discriminate. }
  split; [repeat constructor; discriminate|]. split; [repeat constructor; discriminate|].
  split; [reflexivity|]. split; [reflexivity|].
  eexists _, _, _, _. split; [vm_compute; reflexivity|]. split; [vm_compute; reflexivity|].
  split; discriminate.
Qed.

Lemma cr_trim_all_not_exact_lemma :
  exists (min_buf limit b : nat) (fs : list bytes),
    1 <= limit /\ 2 * b + 1 + limit <= Nat.max min_buf (limit * 3) /\ seg_bound gt_test b (concat fs) /\
    exists st out,
      run_ops_v gt_test all_trim (map OpRead fs ++ [OpFlushAll]) (new_mlr min_buf limit) [] = Ok (st, out) /\
      forall dropped pad, unlines (out ++ dropped) <> concat fs ++ pad.
Proof.
  exists 13, 4, 4, [cr_stream].
  split; [lia|]. split; [vm_compute; lia|].
  split; [vm_compute; repeat constructor; lia|].
  eexists _, _. split; [vm_compute; reflexivity|].
  intros dropped pad. vm_compute. discriminate.
Qed.
