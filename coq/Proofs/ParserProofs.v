(* Proofs about Model/Parser.v against Spec/SyslogSpec.v and Spec/Utf8Spec.v.  Three lemmas carry the file:
   [parse_render_gen] (parse of a rendered line returns its parts), [parse_cases] (every input is either dropped
   and counted or a rendered line) and [parse_total] (the two cases as results of parse, the same for all counter
   values).  The property lemmas after them (PRI, truncation, accounting, no panic, [parse_history_independent],
   [stream_lemma]) are their corollaries; the list and index facts before them prepare [parse_render_gen]. *)
From SV Require Import Model.Common Model.Utf8 Model.Parser Spec.Utf8Spec Spec.SyslogSpec Proofs.CommonFacts Proofs.Utf8Proofs.
From Coq Require Import Lia ZifyBool ZifyN ZifyNat.
Ltac Zify.zify_post_hook ::= Z.div_mod_to_equations.
Open Scope N_scope.

Definition cfg_ok (cfg : config) : Prop := length (level_mapping cfg) = 8%nat.

Lemma last_cons : forall (A : Type) (l : list A) (x d : A), last (x :: l) d = last l x.
Proof.
  intros A. induction l as [|y l IH]; intros x d; [reflexivity|].
  change (last (y :: l) d = last (y :: l) x). rewrite !IH. reflexivity.
Qed.

Lemma index_byte_app : forall t c rest, ~ In c t -> index_byte (t ++ c :: rest) c = Some (length t).
Proof.
  induction t as [|b t IH]; intros c rest H; cbn [app index_byte length].
  - rewrite N.eqb_refl. reflexivity.
  - destruct (b =? c) eqn:E; [exfalso; apply H; left; lia|].
    rewrite IH; [reflexivity|]. intros Hin. apply H. right. exact Hin.
Qed.

Lemma index_byte_some : forall s c e, index_byte s c = Some e ->
  s = firstn e s ++ c :: skipn (S e) s /\ ~ In c (firstn e s).
Proof.
  induction s as [|b s IH]; intros c e H; [discriminate|].
  cbn [index_byte] in H. destruct (b =? c) eqn:E.
  - injection H as <-. cbn [firstn skipn app]. split; [f_equal; lia|intros []].
  - destruct (index_byte s c) as [e'|] eqn:E'; [|discriminate]. injection H as <-.
    destruct (IH c e' E') as [H1 H2]. cbn [firstn skipn app].
    split; [f_equal; exact H1|].
    intros [Hb|Hin]; [lia|]. apply H2. exact Hin.
Qed.

Lemma index_byte_none : forall s c, index_byte s c = None -> ~ In c s.
Proof.
  induction s as [|b s IH]; intros c H; [intros []|].
  cbn [index_byte] in H. destruct (b =? c) eqn:E; [discriminate|].
  destruct (index_byte s c) eqn:E'; [discriminate|].
  intros [Hb|Hin]; [lia|]. exact (IH c E' Hin).
Qed.

Lemma next_field_app : forall t rest, no_space t -> next_field_by_space (t ++ 32 :: rest) = Some (t, rest).
Proof.
  intros t rest H. unfold next_field_by_space. rewrite index_byte_app by exact H.
  rewrite firstn_app, firstn_all, Nat.sub_diag. cbn [firstn]. rewrite app_nil_r.
  replace (S (length t)) with (length (t ++ [32])) by (rewrite app_length; cbn [length]; lia).
  replace (t ++ 32 :: rest) with ((t ++ [32]) ++ rest) by (rewrite <- app_assoc; reflexivity).
  rewrite skipn_app, skipn_all, Nat.sub_diag. reflexivity.
Qed.

Lemma next_field_some : forall s v r, next_field_by_space s = Some (v, r) -> s = v ++ 32 :: r /\ no_space v.
Proof.
  intros s v r H. unfold next_field_by_space in H.
  destruct (index_byte s 32) as [e|] eqn:E; [|discriminate]. injection H as <- <-.
  exact (index_byte_some s 32 e E).
Qed.

(* the first token decides: nextFieldBySpace reads it off either way of writing the line *)
Lemma first_token_unique : forall t t' r r',
  no_space t -> no_space t' -> t ++ 32 :: r = t' ++ 32 :: r' -> t = t' /\ r = r'.
Proof.
  intros t t' r r' H H' E. pose proof (next_field_app t r H) as F.
  rewrite E, next_field_app in F by exact H'. injection F as -> ->. split; reflexivity.
Qed.

Lemma has_suffix_app : forall body suf, has_suffix (body ++ suf) suf = true.
Proof.
  intros body suf. unfold has_suffix. rewrite app_length.
  replace (length body + length suf - length suf)%nat with (length body) by lia.
  rewrite skipn_app, skipn_all, Nat.sub_diag. cbn [skipn app].
  rewrite bytes_eqb_refl. replace (length suf <=? length body + length suf)%nat with true by lia. reflexivity.
Qed.

Lemma has_suffix_inv : forall s suf, has_suffix s suf = true -> exists body, s = body ++ suf.
Proof.
  intros s suf H. unfold has_suffix in H. apply andb_true_iff in H. destruct H as [_ H].
  apply bytes_eqb_eq in H. exists (firstn (length s - length suf) s).
  rewrite <- H at 2. symmetry. apply firstn_skipn.
Qed.

Definition dec_step (a : Z) (d : N) : Z := (a * 10 + (Z.of_N d - 48))%Z.

Lemma N_of_dec_acc_some : forall ds acc v, N_of_dec_acc ds acc = Some v ->
  Forall digit ds /\ Z.of_N v = fold_left dec_step ds (Z.of_N acc).
Proof.
  induction ds as [|d ds IH]; intros acc v H; cbn [N_of_dec_acc] in H.
  - injection H as <-. split; [constructor|reflexivity].
  - destruct (is_digit d) eqn:E; [|discriminate]. apply is_digit_spec in E.
    destruct (IH _ _ H) as [H1 H2]. split; [constructor; [exact E|exact H1]|].
    rewrite H2. cbn [fold_left]. f_equal. unfold dec_step. lia.
Qed.

Lemma N_of_dec_acc_digits : forall ds acc, Forall digit ds ->
  exists v, N_of_dec_acc ds acc = Some v /\ Z.of_N v = fold_left dec_step ds (Z.of_N acc).
Proof.
  induction ds as [|d ds IH]; intros acc H; cbn [N_of_dec_acc].
  - exists acc. split; reflexivity.
  - inversion H as [|? ? Hd Hds]; subst.
    replace (is_digit d) with true by (symmetry; apply is_digit_spec; exact Hd).
    destruct (IH (acc * 10 + (d - 48)) Hds) as [v [E1 E2]]. exists v. split; [exact E1|].
    rewrite E2. cbn [fold_left]. f_equal. unfold dec_step, digit in *. lia.
Qed.

Lemma fold_dec_nonneg : forall ds a, Forall digit ds -> (0 <= a)%Z -> (0 <= fold_left dec_step ds a)%Z.
Proof.
  induction ds as [|d ds IH]; intros a H Ha; [exact Ha|].
  inversion H as [|? ? Hd Hds]; subst. cbn [fold_left]. apply IH; [exact Hds|]. unfold dec_step, digit in *. lia.
Qed.

Lemma digits_value_nonneg : forall ds, Forall digit ds -> (0 <= digits_value ds)%Z.
Proof. intros ds H. apply fold_dec_nonneg; [exact H|lia]. Qed.

Definition int64_range (n : Z) : Prop := (- 9223372036854775808 <= n <= 9223372036854775807)%Z.

(* Atoi behind the sign: [neg] = a minus sign was read, [ds] = what follows the sign *)
Definition atoi_unsigned (neg : bool) (ds : bytes) : option Z :=
  match ds with
  | [] => None
  | _ =>
    match N_of_dec_acc ds 0 with
    | None => None
    | Some m =>
      let v := if neg then (- Z.of_N m)%Z else Z.of_N m in
      if ((v <? - 9223372036854775808) || (9223372036854775807 <? v))%Z then None else Some v
    end
  end.

Lemma atoi_cons : forall c s,
  atoi (c :: s) = atoi_unsigned (c =? 45) (if (c =? 43) || (c =? 45) then s else c :: s).
Proof. reflexivity. Qed.

Lemma atoi_unsigned_spec : forall neg ds n, atoi_unsigned neg ds = Some n <->
  ds <> [] /\ Forall digit ds /\ n = (if neg then - digits_value ds else digits_value ds)%Z /\ int64_range n.
Proof.
  intros neg ds n. unfold atoi_unsigned, int64_range. split.
  - destruct ds as [|d ds]; [discriminate|].
    destruct (N_of_dec_acc (d :: ds) 0) as [m|] eqn:E; [|discriminate].
    apply N_of_dec_acc_some in E. destruct E as [H1 H2]. change (Z.of_N m = digits_value (d :: ds)) in H2.
    cbv zeta. destruct (_ || _)%Z eqn:R; [discriminate|]. intros [= <-].
    split; [discriminate|]. split; [exact H1|]. rewrite <- H2. destruct neg; lia.
  - intros (Hne & Hd & -> & R). destruct (N_of_dec_acc_digits ds 0 Hd) as (m & -> & E).
    change (Z.of_N m = digits_value ds) in E. destruct ds; [contradiction|]. cbv zeta. rewrite E.
    destruct neg; (replace (_ || _)%Z with false by lia); reflexivity.
Qed.

(* Atoi returns n exactly for the integer literals denoting an int64 *)
Lemma atoi_some : forall s n, atoi s = Some n -> int_literal s n /\ int64_range n.
Proof.
  intros [|c s] n H; [discriminate|]. rewrite atoi_cons in H.
  destruct (c =? 45) eqn:E45; [|destruct (c =? 43) eqn:E43]; rewrite ?orb_true_r in H; cbn [orb] in H;
    apply atoi_unsigned_spec in H; destruct H as (Hne & Hd & -> & R); (split; [|exact R]).
  - apply N.eqb_eq in E45. subst c. apply IL_minus; assumption.
  - apply N.eqb_eq in E43. subst c. apply IL_plus; assumption.
  - apply IL_plain; assumption.
Qed.

Lemma atoi_literal : forall s n, int_literal s n -> int64_range n -> atoi s = Some n.
Proof.
  intros s n H R. destruct H as [ds Hne Hd|ds Hne Hd|ds Hne Hd].
  - destruct ds as [|c ds]; [contradiction|]. rewrite atoi_cons.
    inversion Hd as [|? ? Hc _]; subst. unfold digit in Hc.
    replace (c =? 45) with false by lia. replace (c =? 43) with false by lia.
    apply atoi_unsigned_spec. exact (conj Hne (conj Hd (conj eq_refl R))).
  - change (atoi_unsigned false ds = Some (digits_value ds)). apply atoi_unsigned_spec. exact (conj Hne (conj Hd (conj eq_refl R))).
  - change (atoi_unsigned true ds = Some (- digits_value ds)%Z). apply atoi_unsigned_spec. exact (conj Hne (conj Hd (conj eq_refl R))).
Qed.

Lemma shiftr3 : forall n, Z.shiftr n 3 = (n / 8)%Z.
Proof. intros n. rewrite Z.shiftr_div_pow2 by lia. reflexivity. Qed.

Lemma land7 : forall n, Z.land n 7 = (n mod 8)%Z.
Proof. intros n. change 7%Z with (Z.ones 3). rewrite Z.land_ones by lia. reflexivity. Qed.

Lemma facility_names_nth : forall k, (k < 24)%nat ->
  nth_error facility_names k = Some (facility_keyword (N.of_nat k)).
Proof.
  intros k H. do 24 (destruct k as [|k]; [reflexivity|]). lia.
Qed.

Lemma facility_lookup : forall f, (0 <= f < 24)%Z ->
  nth_error facility_names (Z.to_nat f) = Some (facility_keyword (Z.to_N f)).
Proof.
  intros f H. rewrite facility_names_nth by lia. f_equal. f_equal. lia.
Qed.

Lemma facility_names_length : length facility_names = 24%nat.
Proof. reflexivity. Qed.

Lemma index_byte_has_newline : forall s,
  match index_byte s 10 with Some _ => true | None => false end = has_newline s.
Proof.
  induction s as [|b s IH]; [reflexivity|].
  unfold has_newline in *. cbn [index_byte existsb]. rewrite (N.eqb_sym 10 b).
  destruct (b =? 10); [reflexivity|]. cbn [orb]. rewrite <- IH.
  destruct (index_byte s 10); reflexivity.
Qed.

Lemma int_literal_no_space : forall lit n, int_literal lit n -> no_space lit.
Proof.
  assert (D : forall ds, Forall digit ds -> no_space ds).
  { intros ds H Hin. rewrite Forall_forall in H. specialize (H 32 Hin). unfold digit in H. lia. }
  intros lit n [ds _ Hd|ds _ Hd|ds _ Hd]; try exact (D ds Hd);
    intros [E|Hin]; try discriminate; exact (D ds Hd Hin).
Qed.

Lemma pri_token_no_space : forall lit, no_space lit -> no_space (60 :: lit ++ [62; 49]).
Proof.
  intros lit H [E|Hin]; [discriminate|]. apply in_app_or in Hin. destruct Hin as [Hin|[E|[E|[]]]]; try discriminate.
  exact (H Hin).
Qed.

Lemma go_slice_pri : forall lit,
  go_slice (60 :: lit ++ [62; 49]) 1 (Z.of_nat (length (60 :: lit ++ [62; 49])) - 2) = Some lit.
Proof.
  intros lit. unfold go_slice. cbn [length]. rewrite app_length. cbn [length].
  replace (_ || _ || _)%Z with false by lia.
  f_equal. replace (Z.to_nat (Z.of_nat (S (length lit + 2)) - 2) - Z.to_nat 1)%nat with (length lit) by lia.
  change (Z.to_nat 1) with 1%nat. cbn [skipn]. rewrite firstn_app, firstn_all, Nat.sub_diag. cbn [firstn]. apply app_nil_r.
Qed.

(* the message as delivered (stated with the model's CleanUTF8; characterised in Props through Utf8Proofs) *)
Definition delivered_log (cfg : config) (linelen : nat) (msg : bytes) : bytes :=
  if max_msg cfg <? N.of_nat (length msg) then clean_utf8 (firstn (N.to_nat (max_msg cfg)) msg)
  else if max_rec cfg <=? N.of_nat linelen then clean_utf8 msg
  else msg.

Definition counters_after_pass (cfg : config) (cnt : counters) (linelen : nat) (msg : bytes) : counters :=
  count_pass (if max_msg cfg <? N.of_nat (length msg) then count_overflow cnt linelen else cnt) linelen.

Lemma parse_render_gen : forall cfg cnt lit n h msg,
  cfg_ok cfg -> int_literal lit n -> (0 <= n <= 191)%Z -> header_ok h ->
  (32 <= length (render_with lit h msg))%nat ->
  parse cfg cnt (render_with lit h msg) =
    (Ok (Some (record_of (level_mapping cfg) n h
                 (delivered_log cfg (length (render_with lit h msg)) msg)
                 (length (render_with lit h msg)))),
     counters_after_pass cfg cnt (length (render_with lit h msg)) msg).
Proof.
  intros cfg cnt lit n h msg Hlv Hlit Hn [H1 [H2 [H3 [H4 [H5 H6]]]]] Hlen.
  unfold cfg_ok in Hlv. unfold parse.
  set (line := render_with lit h msg) in *.
  replace (length line <? 32)%nat with false by lia.
  assert (Es : starts_with_lt line = true) by reflexivity. rewrite Es. cbn [negb orb].
  unfold line at 1. unfold render_with.
  rewrite next_field_app by (apply pri_token_no_space; exact (int_literal_no_space _ _ Hlit)).
  replace (60 :: lit ++ [62; 49]) with ((60 :: lit) ++ [62; 49]) at 1 by reflexivity.
  rewrite has_suffix_app. cbn [negb].
  rewrite go_slice_pri.
  rewrite (atoi_literal lit n Hlit) by (unfold int64_range; lia).
  rewrite shiftr3, land7, facility_names_length.
  replace ((n / 8 <? 0) || (Z.of_nat 24 <=? n / 8))%Z with false by lia.
  rewrite facility_lookup by lia.
  rewrite (nth_error_nth' (level_mapping cfg) []) by lia.
  rewrite !next_field_app by assumption.
  fold line.
  unfold delivered_log, counters_after_pass, record_of.
  destruct (max_msg cfg <? N.of_nat (length msg)) eqn:Eo.
  - unfold go_slice_to. replace (N.of_nat (length msg) <? max_msg cfg) with false by lia.
    cbn [orb]. rewrite index_byte_has_newline. reflexivity.
  - cbn [orb]. destruct (max_rec cfg <=? N.of_nat (length line)); rewrite index_byte_has_newline; reflexivity.
Qed.

Lemma parse_cases : forall cfg input, cfg_ok cfg ->
  (forall cnt, parse cfg cnt input = (Ok None, count_drop cnt (length input))) \/
  exists lit n h msg,
    input = render_with lit h msg /\ int_literal lit n /\ (0 <= n <= 191)%Z /\ header_ok h /\ (32 <= length input)%nat.
Proof.
  intros cfg input Hlv. unfold cfg_ok in Hlv. unfold parse.
  destruct ((length input <? 32)%nat || negb (starts_with_lt input)) eqn:E0; [left; reflexivity|].
  apply orb_false_iff in E0. destruct E0 as [El Es]. apply negb_false_iff in Es.
  destruct (next_field_by_space input) as [[val next]|] eqn:F0; [|left; reflexivity].
  apply next_field_some in F0. destruct F0 as [Ei Hv].
  destruct (has_suffix val [62; 49]) eqn:Hs; cbn [negb]; [|left; reflexivity].
  destruct (has_suffix_inv _ _ Hs) as [[|b0 lit] Eb]; rewrite Ei, Eb in Es; [discriminate Es|].
  cbn [app starts_with_lt] in Es. apply N.eqb_eq in Es. subst b0. cbn [app] in Eb.
  rewrite Eb, go_slice_pri.
  destruct (atoi lit) as [v|] eqn:A; [|left; reflexivity].
  destruct (atoi_some _ _ A) as [Hlit _].
  rewrite shiftr3, facility_names_length.
  destruct ((v / 8 <? 0) || (Z.of_nat 24 <=? v / 8))%Z eqn:Ef; [left; reflexivity|].
  rewrite facility_lookup by lia.
  rewrite land7, (nth_error_nth' (level_mapping cfg) []) by lia.
  do 6 (destruct (next_field_by_space _) as [[? ?]|] eqn:F; [|left; reflexivity];
        apply next_field_some in F; destruct F as [-> ?]).
  right. subst input val. exists lit, v. eexists (Build_header _ _ _ _ _ _), _.
  split; [reflexivity|]. split; [exact Hlit|]. split; [lia|]. split; [repeat split; assumption|lia].
Qed.

(* Parse never panics; a message is dropped and counted as such, or it has the accepted form,
   is passed with exactly the fields of the line and counted as such; which of the two does not
   depend on the counters *)
Lemma parse_total : forall cfg input, cfg_ok cfg ->
  (forall cnt, parse cfg cnt input = (Ok None, count_drop cnt (length input))) \/
  exists lit n h msg,
    input = render_with lit h msg /\ int_literal lit n /\ (0 <= n <= 191)%Z /\ header_ok h /\ (32 <= length input)%nat /\
    forall cnt, parse cfg cnt input =
      (Ok (Some (record_of (level_mapping cfg) n h (delivered_log cfg (length input) msg) (length input))),
       counters_after_pass cfg cnt (length input) msg).
Proof.
  intros cfg input Hlv.
  destruct (parse_cases cfg input Hlv) as [C|(lit & n & h & msg & E & Hl & Hn & Hh & Hlen)]; [left; exact C|].
  right. exists lit, n, h, msg. repeat (split; [assumption|]).
  intros cnt. subst input. apply parse_render_gen; assumption.
Qed.

Lemma int_literal_functional : forall lit n n', int_literal lit n -> int_literal lit n' -> n = n'.
Proof.
  intros lit n n' H H'.
  assert (D : forall c ds, Forall digit (c :: ds) -> c <> 43 /\ c <> 45).
  { intros c ds F. inversion F as [|? ? Hc _]; subst. unfold digit in Hc. lia. }
  destruct H as [ds _ Hd|ds _ Hd|ds _ Hd]; inversion H' as [ds' _ Hd' E|ds' _ Hd' E|ds' _ Hd' E]; subst;
    try reflexivity;
    try (exfalso; destruct (D _ _ Hd) as [? ?]; congruence);
    try (exfalso; destruct (D _ _ Hd') as [? ?]; congruence).
Qed.

Lemma pri_digits_literal : forall p, p < 1000 -> int_literal (pri_digits p) (Z.of_N p).
Proof.
  intros p H.
  assert (L : forall ds, ds <> [] -> Forall digit ds -> Z.of_N p = digits_value ds -> int_literal ds (Z.of_N p)).
  { intros ds Hne Hd ->. apply IL_plain; assumption. }
  unfold pri_digits. destruct (p <? 10) eqn:E1; [|destruct (p <? 100) eqn:E2];
    (apply L; [discriminate|repeat constructor; lia|unfold digits_value; cbn [fold_left]; lia]).
Qed.

Lemma parse_render_pri : forall cfg cnt pri h msg,
  cfg_ok cfg -> pri <= 191 -> header_ok h -> (32 <= length (render pri h msg))%nat ->
  parse cfg cnt (render pri h msg) =
    (Ok (Some (record_of (level_mapping cfg) (Z.of_N pri) h
                 (delivered_log cfg (length (render pri h msg)) msg) (length (render pri h msg)))),
     counters_after_pass cfg cnt (length (render pri h msg)) msg).
Proof.
  intros cfg cnt pri h msg Hc Hp Hh Hlen.
  apply parse_render_gen; [exact Hc|apply pri_digits_literal; lia|lia|exact Hh|exact Hlen].
Qed.

Lemma delivered_log_exact : forall cfg linelen msg,
  N.of_nat (length msg) <= max_msg cfg ->
  (N.of_nat linelen < max_rec cfg \/ valid_utf8 msg) ->
  delivered_log cfg linelen msg = msg.
Proof.
  intros cfg linelen msg H1 H2. unfold delivered_log.
  replace (max_msg cfg <? N.of_nat (length msg)) with false by lia.
  destruct (max_rec cfg <=? N.of_nat linelen) eqn:E; [|reflexivity].
  destruct H2 as [H2|H2]; [lia|]. apply clean_utf8_valid_id_lemma. exact H2.
Qed.

Lemma delivered_log_length : forall cfg linelen msg,
  (length (delivered_log cfg linelen msg) <= length msg)%nat /\
  (max_msg cfg < N.of_nat (length msg) -> N.of_nat (length (delivered_log cfg linelen msg)) <= max_msg cfg).
Proof.
  intros cfg linelen msg. unfold delivered_log.
  destruct (max_msg cfg <? N.of_nat (length msg)) eqn:E.
  - pose proof (clean_utf8_length_lemma (firstn (N.to_nat (max_msg cfg)) msg)) as L.
    rewrite firstn_length in L. split; lia.
  - split; [|lia]. destruct (max_rec cfg <=? N.of_nat linelen); [apply clean_utf8_length_lemma|lia].
Qed.

Lemma delivered_log_cut : forall cfg linelen msg,
  max_msg cfg < N.of_nat (length msg) ->
  delivered_log cfg linelen msg = clean_utf8 (firstn (N.to_nat (max_msg cfg)) msg).
Proof.
  intros cfg linelen msg H. unfold delivered_log.
  replace (max_msg cfg <? N.of_nat (length msg)) with true by lia. reflexivity.
Qed.

Lemma counters_after_pass_spec : forall cfg cnt linelen msg,
  counted_passed cnt (counters_after_pass cfg cnt linelen msg) linelen /\
  (max_msg cfg < N.of_nat (length msg) -> one_overflow cnt (counters_after_pass cfg cnt linelen msg) linelen) /\
  (N.of_nat (length msg) <= max_msg cfg -> same_overflow cnt (counters_after_pass cfg cnt linelen msg)).
Proof.
  intros cfg cnt linelen msg. unfold counters_after_pass, counted_passed, one_overflow, same_overflow.
  destruct (max_msg cfg <? N.of_nat (length msg)) eqn:E; cbn; repeat split; lia.
Qed.

Lemma count_drop_spec : forall cnt len, counted_dropped cnt (count_drop cnt len) len.
Proof. intros cnt len. unfold counted_dropped, same_overflow. cbn. repeat split; lia. Qed.

(* 1. parse (render ...) returns exactly the parts *)
Lemma parse_render_lemma : forall cfg cnt pri h msg,
  cfg_ok cfg -> pri <= 191 -> header_ok h ->
  (32 <= length (render pri h msg))%nat ->
  N.of_nat (length msg) <= max_msg cfg ->
  (N.of_nat (length (render pri h msg)) < max_rec cfg \/ valid_utf8 msg) ->
  exists cnt',
    parse cfg cnt (render pri h msg) =
      (Ok (Some (record_of (level_mapping cfg) (Z.of_N pri) h msg (length (render pri h msg)))), cnt') /\
    counted_passed cnt cnt' (length (render pri h msg)) /\ same_overflow cnt cnt'.
Proof.
  intros cfg cnt pri h msg Hc Hp Hh Hlen Hm Hr.
  rewrite parse_render_pri, delivered_log_exact by assumption.
  eexists. split; [reflexivity|].
  destruct (counters_after_pass_spec cfg cnt (length (render pri h msg)) msg) as [A [_ B]].
  split; [exact A|apply B; exact Hm].
Qed.

(* 1b. the header fields are exact whatever the message; the message is never longer than sent or than the limit *)
Lemma parse_render_any_message_lemma : forall cfg cnt pri h msg,
  cfg_ok cfg -> pri <= 191 -> header_ok h ->
  (32 <= length (render pri h msg))%nat ->
  exists log cnt',
    parse cfg cnt (render pri h msg) =
      (Ok (Some (record_of (level_mapping cfg) (Z.of_N pri) h log (length (render pri h msg)))), cnt') /\
    counted_passed cnt cnt' (length (render pri h msg)) /\
    (length log <= length msg)%nat /\
    (max_msg cfg < N.of_nat (length msg) -> N.of_nat (length log) <= max_msg cfg).
Proof.
  intros cfg cnt pri h msg Hc Hp Hh Hlen. rewrite parse_render_pri by assumption.
  eexists. eexists. split; [reflexivity|].
  split; [apply counters_after_pass_spec|apply delivered_log_length].
Qed.

(* 2. a first token that is not "<PRI>1" with PRI denoting 0..191 : dropped and counted *)
Lemma pri_rejected_lemma : forall cfg cnt tok rest,
  cfg_ok cfg -> no_space tok -> ~ pri_token_ok tok ->
  exists cnt',
    parse cfg cnt (tok ++ 32 :: rest) = (Ok None, cnt') /\
    counted_dropped cnt cnt' (length (tok ++ 32 :: rest)).
Proof.
  intros cfg cnt tok rest Hc Ht Hno.
  destruct (parse_total cfg (tok ++ 32 :: rest) Hc) as [H|(lit & n & h & msg & E & Hl & Hn & _)].
  - eexists. split; [apply H|apply count_drop_spec].
  - exfalso. apply Hno. unfold render_with in E.
    destruct (first_token_unique _ _ _ _ Ht (pri_token_no_space lit (int_literal_no_space _ _ Hl)) E) as [-> _].
    exists lit, n. split; [reflexivity|]. split; assumption.
Qed.

Lemma not_pri_token_cases : forall tok,
  (~ exists body, tok = body ++ [62; 49]) \/                                   (* no ">1" at the end *)
  (exists lit, tok = 60 :: lit ++ [62; 49] /\
     ((forall n, ~ int_literal lit n) \/                                       (* not a number *)
      (exists n, int_literal lit n /\ (n < 0 \/ 191 < n)%Z))) \/              (* negative or >= 192 *)
  (exists c t, tok = c :: t /\ c <> 60) ->                                    (* does not start with "<" *)
  ~ pri_token_ok tok.
Proof.
  intros tok H [lit [n [E [Hl Hn]]]]. destruct H as [H|[[lit' [E' H]]|[c [t [E' H]]]]].
  - apply H. exists (60 :: lit). rewrite E. reflexivity.
  - rewrite E in E'. injection E' as E'. apply app_inv_tail in E'. subst lit'.
    destruct H as [H|[n' [Hl' Hn']]]; [exact (H n Hl)|].
    rewrite (int_literal_functional _ _ _ Hl Hl') in Hn. lia.
  - rewrite E in E'. injection E' as <- _. apply H. reflexivity.
Qed.

Lemma count_space_render : forall lit h msg, (7 <= count_occ N.eq_dec (render_with lit h msg) 32%N)%nat.
Proof.
  intros lit h msg. unfold render_with. generalize (60 :: lit ++ [62; 49]). intros tok.
  repeat (rewrite count_occ_app, count_occ_cons_eq by reflexivity). lia.
Qed.

(* 2b. too short, not starting with "<", or fewer than seven spaces: dropped *)
Lemma malformed_dropped_lemma : forall cfg cnt input,
  cfg_ok cfg ->
  ((length input < 32)%nat \/ hd 0 input <> 60 \/ (count_occ N.eq_dec input 32%N < 7)%nat) ->
  exists cnt', parse cfg cnt input = (Ok None, cnt') /\ counted_dropped cnt cnt' (length input).
Proof.
  intros cfg cnt input Hc H.
  destruct (parse_total cfg input Hc) as [H0|(lit & n & h & msg & E & _ & _ & _ & Hlen & _)].
  - eexists. split; [apply H0|apply count_drop_spec].
  - exfalso. destruct H as [H|[H|H]]; [lia| |].
    + apply H. rewrite E. reflexivity.
    + pose proof (count_space_render lit h msg). rewrite <- E in *. lia.
Qed.

(* 3. an over-long message is cut to the limit, never inside a character, and counted as overflow once *)
Lemma truncation_lemma : forall cfg cnt pri h msg,
  cfg_ok cfg -> pri <= 191 -> header_ok h ->
  (32 <= length (render pri h msg))%nat ->
  max_msg cfg < N.of_nat (length msg) ->
  exists log cnt',
    parse cfg cnt (render pri h msg) =
      (Ok (Some (record_of (level_mapping cfg) (Z.of_N pri) h log (length (render pri h msg)))), cnt') /\
    counted_passed cnt cnt' (length (render pri h msg)) /\
    one_overflow cnt cnt' (length (render pri h msg)) /\
    N.of_nat (length log) <= max_msg cfg /\
    ends_on_boundary log.
Proof.
  intros cfg cnt pri h msg Hc Hp Hh Hlen Ho. rewrite parse_render_pri by assumption.
  eexists. eexists. split; [reflexivity|].
  destruct (counters_after_pass_spec cfg cnt (length (render pri h msg)) msg) as [A [B _]].
  split; [exact A|]. split; [apply B; exact Ho|]. split; [apply delivered_log_length; exact Ho|].
  rewrite delivered_log_cut by exact Ho. apply clean_utf8_boundary_lemma.
Qed.

(* 3b. ... and for a message that is valid UTF-8: exactly the whole characters that fit into the limit *)
Lemma truncation_valid_utf8_lemma : forall cfg cnt pri h cs,
  cfg_ok cfg -> pri <= 191 -> header_ok h -> Forall scalar cs ->
  (32 <= length (render pri h (utf8_encode_all cs)))%nat ->
  max_msg cfg < N.of_nat (length (utf8_encode_all cs)) ->
  exists cs1 c cs2 cnt',
    cs = cs1 ++ c :: cs2 /\
    parse cfg cnt (render pri h (utf8_encode_all cs)) =
      (Ok (Some (record_of (level_mapping cfg) (Z.of_N pri) h (utf8_encode_all cs1)
                   (length (render pri h (utf8_encode_all cs))))), cnt') /\
    N.of_nat (length (utf8_encode_all cs1)) <= max_msg cfg /\
    max_msg cfg < N.of_nat (length (utf8_encode_all cs1) + length (utf8_encode c)) /\
    one_overflow cnt cnt' (length (render pri h (utf8_encode_all cs))).
Proof.
  intros cfg cnt pri h cs Hc Hp Hh Hs Hlen Ho.
  destruct (clean_cut_valid_lemma cs (N.to_nat (max_msg cfg)) Hs) as [cs1 [c [cs2 [E [Ecl L]]]]]; [lia|].
  rewrite parse_render_pri, delivered_log_cut, Ecl by assumption.
  exists cs1, c, cs2. eexists. split; [exact E|]. split; [reflexivity|].
  split; [lia|]. split; [lia|]. apply counters_after_pass_spec. exact Ho.
Qed.

(* 4. accounting for every byte string: never a panic; exactly one of passed / dropped moves by one,
      with the byte length; overflow only together with passed, once, with the byte length *)
Lemma accounting_lemma : forall cfg cnt input,
  cfg_ok cfg ->
  exists res cnt',
    parse cfg cnt input = (Ok res, cnt') /\
    match res with
    | Some r => counted_passed cnt cnt' (length input) /\ raw_length r = length input /\
                (same_overflow cnt cnt' \/ one_overflow cnt cnt' (length input))
    | None => counted_dropped cnt cnt' (length input)
    end.
Proof.
  intros cfg cnt input Hc.
  destruct (parse_total cfg input Hc) as [H|(lit & n & h & msg & _ & _ & _ & _ & _ & H)].
  - exists None. eexists. split; [apply H|apply count_drop_spec].
  - eexists (Some _). eexists. split; [apply H|].
    destruct (counters_after_pass_spec cfg cnt (length input) msg) as [A [B C]].
    split; [exact A|]. split; [reflexivity|].
    destruct (N.lt_ge_cases (max_msg cfg) (N.of_nat (length msg))) as [Ho|Ho]; [right; apply B; exact Ho|left; apply C; exact Ho].
Qed.

Lemma no_panic_lemma : forall cfg cnt input, cfg_ok cfg -> is_panic (fst (parse cfg cnt input)) = false.
Proof.
  intros cfg cnt input Hc. destruct (accounting_lemma cfg cnt input Hc) as [res [cnt' [H _]]]. rewrite H. reflexivity.
Qed.

(* 4b. only lines of the accepted form are passed, and then with exactly the parts of the line *)
Lemma passed_only_wellformed_lemma : forall cfg cnt input r cnt',
  cfg_ok cfg -> parse cfg cnt input = (Ok (Some r), cnt') ->
  exists lit n h msg log,
    input = render_with lit h msg /\ int_literal lit n /\ (0 <= n <= 191)%Z /\ header_ok h /\
    (32 <= length input)%nat /\
    r = record_of (level_mapping cfg) n h log (length input) /\
    (length log <= length msg)%nat /\
    (N.of_nat (length msg) <= max_msg cfg -> N.of_nat (length input) < max_rec cfg -> log = msg).
Proof.
  intros cfg cnt input r cnt' Hc H.
  destruct (parse_total cfg input Hc) as [H0|(lit & n & h & msg & E & Hl & Hn & Hh & Hlen & H0)];
    rewrite H0 in H; [discriminate|].
  injection H as <- _. exists lit, n, h, msg, (delivered_log cfg (length input) msg).
  repeat (split; [assumption|]). split; [reflexivity|]. split; [apply delivered_log_length|].
  intros A B. apply delivered_log_exact; [exact A|left; exact B].
Qed.

(* 4c. a message is passed exactly when it has the accepted form *)
Lemma passed_iff_lemma : forall cfg cnt input,
  cfg_ok cfg ->
  ((exists r cnt', parse cfg cnt input = (Ok (Some r), cnt')) <->
   ((32 <= length input)%nat /\
    exists lit n h msg, input = render_with lit h msg /\ int_literal lit n /\ (0 <= n <= 191)%Z /\ header_ok h)).
Proof.
  intros cfg cnt input Hc. split.
  - intros [r [cnt' H]]. destruct (passed_only_wellformed_lemma cfg cnt input r cnt' Hc H)
      as [lit [n [h [msg [log [E [Hl [Hn [Hh [Hlen _]]]]]]]]]].
    split; [exact Hlen|]. exists lit, n, h, msg. exact (conj E (conj Hl (conj Hn Hh))).
  - intros [Hlen [lit [n [h [msg [E [Hl [Hn Hh]]]]]]]]. subst input.
    eexists. eexists. apply (parse_render_gen cfg cnt lit n h msg); assumption.
Qed.

Definition counters_add (a d : counters) : counters :=
  {| passed_n := passed_n a + passed_n d; passed_bytes := passed_bytes a + passed_bytes d;
     dropped_n := dropped_n a + dropped_n d; dropped_bytes := dropped_bytes a + dropped_bytes d;
     overflow_n := overflow_n a + overflow_n d; overflow_bytes := overflow_bytes a + overflow_bytes d |}.

(* the outcome for a message does not depend on the counters, and the increments do not either *)
Lemma parse_history_independent : forall cfg cnt input,
  cfg_ok cfg ->
  parse cfg cnt input =
    (fst (parse cfg counters_zero input), counters_add cnt (snd (parse cfg counters_zero input))).
Proof.
  intros cfg cnt input Hlv.
  destruct (parse_total cfg input Hlv) as [H|(lit & n & h & msg & _ & _ & _ & _ & _ & H)];
    rewrite (H cnt), (H counters_zero); cbn [fst snd]; f_equal;
    unfold counters_after_pass, counters_add, count_drop, count_pass, count_overflow.
  - destruct cnt; cbn. f_equal; lia.
  - destruct (max_msg cfg <? N.of_nat (length msg)); destruct cnt; cbn; f_equal; lia.
Qed.

Definition final_counters (cfg : config) (cnt : counters) (msgs : list bytes) : counters :=
  fold_left (fun c m => snd (parse cfg c m)) msgs cnt.

(* 5. sequences through one parser *)
Lemma stream_lemma : forall cfg cnt msgs,
  cfg_ok cfg ->
  Forall (fun r => is_panic (fst r) = false) (parse_stream cfg cnt msgs) /\
  map fst (parse_stream cfg cnt msgs) = map (fun m => fst (parse cfg counters_zero m)) msgs /\
  last (map snd (parse_stream cfg cnt msgs)) cnt = final_counters cfg cnt msgs /\
  total_n (final_counters cfg cnt msgs) = total_n cnt + N.of_nat (length msgs) /\
  total_bytes (final_counters cfg cnt msgs) = total_bytes cnt + sum_lengths msgs.
Proof.
  intros cfg cnt msgs Hc. revert cnt. induction msgs as [|m ms IH]; intros cnt.
  - cbn. repeat split; [constructor|lia..].
  - destruct (IH (snd (parse cfg cnt m))) as (I0 & I1 & I2 & I3 & I4). unfold final_counters in *.
    cbn [parse_stream map fold_left length sum_lengths fold_right]. fold (sum_lengths ms).
    split; [constructor; [apply no_panic_lemma; exact Hc|exact I0]|].
    split; [rewrite I1, (parse_history_independent cfg cnt m Hc); reflexivity|].
    split; [rewrite last_cons; exact I2|]. rewrite I3, I4.
    destruct (accounting_lemma cfg cnt m Hc) as (res & c1 & -> & A). cbn [snd].
    unfold total_n, total_bytes, counted_passed, counted_dropped in *. destruct res; split; lia.
Qed.

Lemma new_parser_levels : forall mm mr mapping cfg, new_parser mm mr mapping = Ok cfg ->
  cfg_ok cfg /\ max_msg cfg = mm /\ max_rec cfg = mr /\
  (mapping = [] -> level_mapping cfg = severity_names) /\ (mapping <> [] -> level_mapping cfg = mapping).
Proof.
  intros mm mr mapping cfg H. unfold new_parser in H. destruct mapping as [|x l].
  - injection H as <-. cbn. repeat split; try reflexivity. intros C. contradiction.
  - destruct (length (x :: l) =? 8)%nat eqn:E; [|discriminate]. injection H as <-.
    unfold cfg_ok. cbn [level_mapping max_msg max_rec].
    repeat split; try (intros; reflexivity); [lia|intros C; discriminate].
Qed.

(* example: the line of the package's own unit test *)
Definition example_header : header :=
  {| h_time := [50;48;49;57;45;48;56;45;49;53;84;49;53;58;53;48;58;52;54;46;56;54;54;57;49;53;43;48;51;58;48;48];
     h_host := [108;111;99;97;108;49]; h_app := [109;121;45;97;112;112;49]; h_pid := [49;50;51];
     h_msgid := [102;110;49]; h_sd := [45] |}.
Definition example_msg : bytes := [83;111;109;101;116;104;105;110;103].   (* "Something" *)
Definition example_cfg : config := {| max_msg := 1048576; max_rec := 1048832; level_mapping := severity_names |}.

Lemma example_lemma :
  cfg_ok example_cfg /\ header_ok example_header /\ (32 <= length (render 163 example_header example_msg))%nat /\
  valid_utf8 example_msg /\
  fst (parse example_cfg counters_zero (render 163 example_header example_msg)) =
    Ok (Some (record_of severity_names 163 example_header example_msg 74)) /\
  f_facility (record_of severity_names 163 example_header example_msg 74) = [108;111;99;97;108;52] /\   (* local4 *)
  f_level (record_of severity_names 163 example_header example_msg 74) = [101;114;114].                  (* err *)
Proof.
  split; [reflexivity|]. split.
  - unfold header_ok, no_space. cbn. repeat split; intros H; repeat (destruct H as [H|H]; [discriminate H|]); exact H.
  - split; [cbn; lia|]. split; [apply valid_iff_lemma; reflexivity|]. split; [vm_compute; reflexivity|]. split; reflexivity.
Qed.
