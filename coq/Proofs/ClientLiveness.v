(* C02 — progress: what a healthy environment achieves from a session boundary, the liveness gap after
   an ACK with an unknown id (finding "wrong id then idle"), and two runs outside the hypotheses of the
   conservation theorem on which it fails. *)
From SV Require Import Model.Common Model.Client Spec.ClientSpec
     Proofs.ClientBase Proofs.ClientSafety Proofs.ClientHistory Proofs.ClientOrder.
From Coq Require Import Lia Permutation.
Local Open Scope nat_scope.

Definition round (k : nat) (f : from) (c : chunk) : list event :=
  [match f with FResend => EResendTake c | FInput => ETake c end;
   ESendRet k c ROk; EEnqueue; EAckerTake c; EAckRet k (AId c); EConsumed c].

(* a session with an idle acknowledger and nothing in flight *)
Definition quiet (s : state) (k : nat) : Prop :=
  exists ss, cur s = Some ss /\ s_id ss = k /\ s_achan ss = [] /\ s_pending ss = [] /\ s_apc ss = AIdle /\ last s = None.

(* the two loops of a session: resendLeftovers reads the leftovers, processInput the queue *)
Definition loop_pc (f : from) : mpc := match f with FResend => MResend | FInput => MInput end.
Definition source (f : from) (s : state) : list chunk := match f with FResend => lo s | FInput => inq s end.
Definition other (f : from) : from := match f with FResend => FInput | FInput => FResend end.

Lemma round_ok : forall P f s k c rest,
  1 <= p_cap P -> pc s = loop_pc f -> source f s = c :: rest -> quiet s k ->
  exists s', run P s (round k f c) = Some s' /\ pc s' = loop_pc f /\ source f s' = rest /\ quiet s' k /\
             source (other f) s' = source (other f) s /\ stop_sig s' = stop_sig s /\
             h_consumed s' = c :: h_consumed s /\ h_handed s' = h_handed s.
Proof.
  intros P f s k c rest Hcap Hpc Hlo (ss & Hcur & Hid & Hach & Hpen & Hapc & Hlast).
  destruct ss as [id creq achan aclosed abort ended unacked pending apc]. simpl in *. subst.
  destruct (p_cap P) as [|cap'] eqn:Ecap; [lia|].
  unfold round, padd, pdel. destruct f; simpl in Hpc, Hlo.
  all: repeat (cbn; rewrite ?Hpc, ?Hlo, ?Hcur, ?N.eqb_refl, ?Nat.eqb_refl).
  all: eexists; split; [reflexivity|]; cbn.
  all: repeat split; try reflexivity.
  all: eexists; repeat split; reflexivity.
Qed.

Lemma rounds_ok : forall P f k L s,
  1 <= p_cap P -> pc s = loop_pc f -> source f s = L -> quiet s k ->
  exists s', run P s (flat_map (round k f) L) = Some s' /\ pc s' = loop_pc f /\ source f s' = [] /\ quiet s' k /\
             source (other f) s' = source (other f) s /\ stop_sig s' = stop_sig s /\
             h_consumed s' = rev L ++ h_consumed s /\ h_handed s' = h_handed s.
Proof.
  intros P f k L. induction L as [|c L IH]; intros s Hcap Hpc Hlo Hq.
  - exists s. simpl. destruct f; repeat split; auto.
  - destruct (round_ok P f s k c L Hcap Hpc Hlo Hq) as (s1 & R1 & P1 & L1 & Q1 & I1 & S1 & C1 & H1).
    destruct (IH s1 Hcap P1 L1 Q1) as (s2 & R2 & P2 & L2 & Q2 & I2 & S2 & C2 & H2).
    exists s2. cbn [flat_map]. rewrite run_app, R1, R2.
    repeat split; try congruence. rewrite C2, C1. simpl. rewrite <- app_assoc. reflexivity.
Qed.

(* the healthy continuation from a session boundary: connect, re-send the leftovers, send the queue;
   every send succeeds and every ack read returns the id of the chunk just sent.
   "healthy" is said of four things. [healthy k L Q] is this one script. [healthy_ev c] (below) and
   ClientRecover.healthy_at closed are two classes of single events, both without stop and reconnect request, neither inside the other: healthy_ev c
   forbids every failed send, ping or ack read and every ACK for c, and admits EBugTimeout, an empty ACK, a failed
   connect, ELeftover, EFinished and offers of chunks other than c; healthy_at closed forbids all of these and
   admits an ACK for any id and a failure on a connection among [closed]. The gap is stated over
   continuations tr with Forall (healthy_ev c) tr, recovery over those with ClientRecover.healthy_from closed tr:
   healthy_at of every event, [closed] growing by the Close events passed. This script is of the second kind
   (ClientRecover.healthy_from_script). *)
Definition healthy (k : nat) (L Q : list chunk) : list event :=
  [EMainSpawn; EConnStart k; EConnRet k true; EMainConn]
  ++ flat_map (round k FResend) L ++ [EResendDone] ++ flat_map (round k FInput) Q.

Lemma healthy_length : forall k L Q, length (healthy k L Q) = 5 + 6 * (length L + length Q).
Proof.
  intros. unfold healthy. rewrite !app_length.
  assert (H : forall f l, length (flat_map (round k f) l) = 6 * length l).
  { intros f l. induction l as [|c l IH]; [reflexivity|]. cbn [flat_map]. rewrite app_length, IH. simpl. lia. }
  rewrite !H. simpl. lia.
Qed.

Lemma progress_lemma : forall P s,
  1 <= p_cap P -> pc s = MStart -> stop_sig s = false ->
  exists s', run P s (healthy (S (nconn s)) (lo s) (inq s)) = Some s' /\
             h_consumed s' = rev (inq s) ++ rev (lo s) ++ h_consumed s /\
             h_handed s' = h_handed s /\
             lo s' = [] /\ inq s' = [] /\ last s' = None /\
             (exists ss, cur s' = Some ss /\ sess_holdings ss = []).
Proof.
  intros P s Hcap Hpc Hstop. unfold healthy.
  set (k := S (nconn s)).
  (* the four connection events *)
  assert (exists s1, run P s [EMainSpawn; EConnStart k; EConnRet k true; EMainConn] = Some s1 /\
                     pc s1 = MResend /\ lo s1 = lo s /\ quiet s1 k /\ inq s1 = inq s /\ stop_sig s1 = false /\
                     h_consumed s1 = h_consumed s /\ h_handed s1 = h_handed s) as (s1 & R1 & P1 & L1 & Q1 & I1 & S1 & C1 & H1).
  { subst k. repeat (cbn; rewrite ?Hpc, ?Nat.eqb_refl). eexists. split; [reflexivity|]. cbn.
    repeat split; auto; try (eexists; repeat split; reflexivity). }
  destruct (rounds_ok P FResend k (lo s) s1 Hcap P1 L1 Q1) as (s2 & R2 & P2 & L2 & Q2 & I2 & S2 & C2 & H2).
  cbn [loop_pc source other] in *.
  assert (exists s3, run P s2 [EResendDone] = Some s3 /\ pc s3 = MInput /\ lo s3 = [] /\ quiet s3 k /\ inq s3 = inq s2 /\
                     h_consumed s3 = h_consumed s2 /\ h_handed s3 = h_handed s2) as (s3 & R3 & P3 & L3 & Q3 & I3 & C3 & H3).
  { cbn. rewrite P2, L2, S2, S1. eexists. split; [reflexivity|]. cbn. repeat split; auto;
    try (destruct Q2 as (ss & ? & ? & ? & ? & ? & ?); exists ss; repeat split; auto). }
  destruct (rounds_ok P FInput k (inq s) s3 Hcap P3 ltac:(simpl; congruence) Q3) as (s4 & R4 & P4 & L4 & Q4 & I4 & S4 & C4 & H4).
  cbn [loop_pc source other] in *. exists s4. rewrite run_app, R1, run_app, R2, run_app, R3, R4.
  split; [reflexivity|]. split; [rewrite C4, C3, C2, C1; reflexivity|].
  split; [congruence|]. split; [congruence|]. split; [exact L4|].
  destruct Q4 as (ss & E1 & E2 & E3 & E4 & E5 & E6). split; [exact E6|].
  exists ss. split; [exact E1|]. unfold sess_holdings. rewrite E3, E4. reflexivity.
Qed.

(* events of a running client with a well-behaved upstream that knows nothing about chunk c any more: no stop,
   no reconnect request, no failure, no ACK for c (it is not transmitted again), c is not offered again *)
Definition healthy_ev (c : chunk) (e : event) : Prop :=
  match e with
  | EStop | EInClose | EReconnReq => False
  | EOffer d => d <> c
  | ESendRet _ _ RErr | EPingRet _ RErr | EAckRet _ AErr => False
  | EAckRet _ (AId i) => i <> c
  | _ => True
  end.

Record stuck (c : chunk) (s : state) : Prop := {
  sk_pc : in_process_input (pc s) = true;
  sk_stop : stop_sig s = false;
  sk_inc : in_closed s = false;
  sk_sig : sig_flight s = 0 /\ sig_pend s = 0;
  sk_inq : ~ In c (inq s);
  sk_last : last s <> Some c;
  sk_lastpc : match pc s with MSend _ d | MEnqueue _ d => last s = Some d | _ => True end;
  sk_sess : exists ss, cur s = Some ss /\ In c (s_pending ss) /\ ~ In c (s_achan ss) /\
              s_aclosed ss = false /\ s_abort ss = false /\ s_ended ss = false /\
              s_apc ss <> AAcked c /\ s_apc ss <> AReading c /\ s_apc ss <> AEnded
}.

Lemma stuck_step : forall P c s e s',
  p_maxage P = false -> p_fix P = false -> stuck c s -> healthy_ev c e -> step P s e = Some s' ->
  stuck c s' /\ e <> EConsumed c /\ (forall k r, e <> ESendRet k c r).
Proof.
  intros P c s e s' Hage Hfix [Kpc Kstop Kinc [Ksf Ksp] Kinq Klast Klpc (ss & Kcur & Kpen & Kach & Kacl & Kabt & Kend & Ka1 & Ka2 & Ka3)] Hh Hs.
  apply step_Step in Hs. destruct Hs; simpl in Hh; try contradiction; try congruence.
  all: try (match goal with H : pc _ = _ |- _ => rewrite H in Kpc, Klpc end; simpl in Kpc; try discriminate Kpc).
  all: try (match goal with H : cur _ = Some _ |- _ => rewrite H in Kcur; injection Kcur as -> end).
  all: split; [|split; [try discriminate|try discriminate]].
  all: try (constructor; st_simpl; cbn [stop_sig in_closed sig_flight sig_pend st_env st_misc st_main st_inq st_opener]; auto).
  all: try match goal with H : pc _ = _ |- _ => rewrite ?H end.
  all: try solve [intuition congruence].
  all: try solve [eexists; split; [first [reflexivity|eassumption]|]; st_simpl;
                  rewrite ?in_app_iff, ?padd_In, ?pdel_In; simpl In;
                  intuition congruence].
  - (* EOffer of another chunk *) rewrite in_app_iff. simpl. intuition congruence.
  - (* EEnqueue *) destruct f; [discriminate Kpc|reflexivity].
  - destruct f; exact I.
  - (* ETake: the chunk taken is not c, which is not in the queue *) rewrite H0 in Kinq. simpl in Kinq. tauto.
  - intros [= ->]. apply Kinq. rewrite H0. left. reflexivity.
  - (* EAckerTake *) eexists. split; [reflexivity|]. st_simpl. rewrite H1 in Kach. simpl in Kach. rewrite padd_In.
    repeat split; auto; try discriminate. intros [= ->]. tauto.
Qed.

(* finding "wrong id then idle" of the ORIGINAL code (p_fix = false), as a theorem: once a chunk sits in the pending map of an acknowledger that has gone
   back to waiting for the next chunk, then - without a max session age - no continuation in which the client
   keeps running and the upstream behaves ever confirms it or transmits it again *)
Lemma stuck_forever : forall P c tr s s',
  p_maxage P = false -> p_fix P = false -> stuck c s -> Forall (healthy_ev c) tr -> run P s tr = Some s' ->
  stuck c s' /\ ~ In (EConsumed c) tr /\ (forall k r, ~ In (ESendRet k c r) tr).
Proof.
  intros P c tr. induction tr as [|e tr IH]; intros s s' Hage Hfix Hst Hf Hr.
  - simpl in Hr. inversion Hr; subst. split; [exact Hst|]. split; [intros []|intros k r []].
  - inversion Hf as [|? ? He Hf']; subst. simpl in Hr.
    destruct (step P s e) as [s1|] eqn:E; [|discriminate Hr].
    destruct (stuck_step P c s e s1 Hage Hfix Hst He E) as (Hst1 & Hn1 & Hn2).
    destruct (IH s1 s' Hage Hfix Hst1 Hf' Hr) as (Hst' & Hc & Hs).
    split; [exact Hst'|]. split.
    + intros [H|H]; [congruence|contradiction].
    + intros k r [H|H]; [exact (Hn2 k r H)|exact (Hs k r H)].
Qed.

(* such a state is reachable: chunk 1 is sent, the upstream answers with an unknown id *)
Definition stuck_run : list event :=
  [EOffer 1%N; EMainSpawn; EConnStart 1; EConnRet 1 true; EMainConn; EResendDone; ETake 1%N;
   ESendRet 1 1%N ROk; EEnqueue; EAckerTake 1%N; EAckRet 1 (AId 999999%N)].

Lemma stuck_reachable : forall P, 1 <= p_cap P -> p_fix P = false -> exists s, reach_by P stuck_run s /\ stuck 1%N s.
Proof.
  intros [[|cap'] age fx] Hcap Hfix; [simpl in Hcap; lia|]. simpl in Hfix. subst fx.
  unfold reach_by.
  destruct (run (mkParams (S cap') age false) init stuck_run) as [s|] eqn:E; [|vm_compute in E; discriminate E].
  exists s. split; [reflexivity|].
  vm_compute in E. inversion E; subst s. clear E.
  constructor; simpl; auto; try discriminate; try tauto.
  eexists. split; [reflexivity|]. simpl. repeat split; auto; try discriminate; tauto.
Qed.

(* runs that show which hypotheses of the conservation theorem are needed *)

Definition P0 : params := mkParams 10 false true.

(* outside the connection contract: the ack read never returns although the connection was closed; after
   IntermediateChannelTimeout collectLeftovers gives up ("BUG: timeout waiting for acknowledger to hard stop"),
   session.unacked is nil and the chunk in the acknowledger's pending map is neither confirmed nor handed back *)
Definition acker_stuck_run : list event :=
  [EOffer 1%N; EMainSpawn; EConnStart 1; EConnRet 1 true; EMainConn; EResendDone; ETake 1%N;
   ESendRet 1 1%N ROk; EEnqueue; EAckerTake 1%N; EStop; EInClose; EInClosedSeen; EBugTimeout; EFinished].

Lemma acker_stuck_lemma :
  exists tr s, reach_by P0 tr s /\ distinct_input tr /\ finished_in tr = true /\
               exists c, In c (taken_of tr) /\ ~ In c (consumed_of tr) /\ ~ In c (handed_of tr).
Proof.
  destruct (run P0 init acker_stuck_run) as [s|] eqn:E; [|vm_compute in E; discriminate E].
  exists acker_stuck_run, s. split; [exact E|]. split; [repeat constructor; intros []|].
  split; [reflexivity|]. exists 1%N. simpl. tauto.
Qed.

(* with two chunks of the same id the pending map (keyed by id) and the de-duplication of the leftovers keep one *)
Definition dup_id_run : list event :=
  [EOffer 5%N; EOffer 5%N; EMainSpawn; EConnStart 1; EConnRet 1 true; EMainConn; EResendDone;
   ETake 5%N; ESendRet 1 5%N ROk; EEnqueue; ETake 5%N; ESendRet 1 5%N ROk; EEnqueue;
   EAckerTake 5%N; EStop; EInClose; EAckRet 1 AErr;
   EInClosedSeen; ECollected; ELeftover 5%N; EFinished].

Lemma dup_id_lemma :
  exists tr s, reach_by P0 tr s /\ in_contract tr /\ finished_in tr = true /\
               ~ Permutation (taken_of tr) (consumed_of tr ++ handed_of tr).
Proof.
  destruct (run P0 init dup_id_run) as [s|] eqn:E; [|vm_compute in E; discriminate E].
  exists dup_id_run, s. split; [exact E|]. split.
  - unfold in_contract, dup_id_run. simpl. intuition discriminate.
  - split; [reflexivity|]. simpl. intro H. apply Permutation_length in H. discriminate H.
Qed.

Lemma stuck_holds : forall c s, stuck c s -> In c (holdings s).
Proof.
  intros c s [_ _ _ _ _ _ _ (ss & Hc & Hp & _)]. unfold holdings, sess_holdings. rewrite Hc.
  apply in_or_app. right. apply in_or_app. right. apply in_or_app. right. exact Hp.
Qed.

Lemma liveness_gap_lemma :
  forall P : params, 1 <= p_cap P -> p_maxage P = false -> p_fix P = false ->
  exists tr0 s c, reach_by P tr0 s /\ In c (taken_of tr0) /\ ~ In c (consumed_of tr0) /\
    forall tr s', Forall (healthy_ev c) tr -> run P s tr = Some s' ->
                  ~ In (EConsumed c) tr /\ (forall k r, ~ In (ESendRet k c r) tr) /\ In c (holdings s').
Proof.
  intros P Hcap Hage Hfix. destruct (stuck_reachable P Hcap Hfix) as (s & Hr & Hst).
  exists stuck_run, s, 1%N. split; [exact Hr|]. split; [simpl; auto|]. split; [simpl; tauto|].
  intros tr s' Hf Hrun. destruct (stuck_forever P 1%N tr s s' Hage Hfix Hst Hf Hrun) as (H1 & H2 & H3).
  split; [exact H2|]. split; [exact H3|]. apply stuck_holds. exact H1.
Qed.
