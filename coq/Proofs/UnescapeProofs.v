(* Model/Unescape.v (RunToBuffer with its IndexByte chunking, on a destination window) against the recursive
   reference unescaper of Spec/SerializerSpec.v. *)
From SV Require Import Model.Common Model.Msgpack Model.Unescape Model.Serializer
     Spec.MsgpackSpec Spec.SerializerSpec Proofs.CommonFacts Proofs.MsgpackProofs.
From Coq Require Import Lia ZifyBool ZifyN ZifyNat.
Ltac Zify.zify_post_hook ::= Z.div_mod_to_equations.
Open Scope N_scope.

Lemma bytes_ind2 : forall (P : bytes -> Prop),
  P [] -> (forall c, P [c]) -> (forall c v rest, P rest -> P (v :: rest) -> P (c :: v :: rest)) -> forall s, P s.
Proof.
  intros P H0 H1 H2 s.
  assert (A : P s /\ forall c, P (c :: s)).
  { induction s as [|v rest [IHa IHb]].
    - split; [exact H0 | exact H1].
    - split; [apply IHb|]. intros c. apply H2; [exact IHa | apply IHb]. }
  apply A.
Qed.

Lemma unescape_ref_length : forall esc tr s, (length (unescape_ref esc tr s) <= length s)%nat.
Proof.
  intros esc tr s. induction s as [|c|c v rest H1 H2] using bytes_ind2.
  - cbn. lia.
  - cbn [unescape_ref]. destruct (c =? esc); cbn [length]; lia.
  - cbn [unescape_ref] in *. destruct (c =? esc).
    + destruct (tr v); cbn [length] in *; lia.
    + cbn [length] in *. lia.
Qed.

Definition noesc (esc : N) (s : bytes) : Prop := Forall (fun c => c <> esc) s.

Lemma unescape_ref_noesc_app : forall esc tr chunk r,
  noesc esc chunk -> unescape_ref esc tr (chunk ++ r) = chunk ++ unescape_ref esc tr r.
Proof.
  intros esc tr chunk r H. induction H as [|c chunk Hc H IH].
  - reflexivity.
  - cbn [app unescape_ref]. replace (c =? esc) with false by lia. rewrite IH. reflexivity.
Qed.

Lemma unescape_ref_noesc : forall esc tr s, noesc esc s -> unescape_ref esc tr s = s.
Proof.
  intros esc tr s H. rewrite <- (app_nil_r s) at 1. rewrite unescape_ref_noesc_app by assumption.
  cbn. apply app_nil_r.
Qed.

Lemma unescape_ref_ext : forall esc tr tr' s, (forall v, tr v = tr' v) -> unescape_ref esc tr s = unescape_ref esc tr' s.
Proof.
  intros esc tr tr' s E. induction s as [|c|c v rest H1 H2] using bytes_ind2.
  - reflexivity.
  - reflexivity.
  - cbn [unescape_ref] in *. destruct (c =? esc).
    + rewrite E. rewrite H1. reflexivity.
    + f_equal. exact H2.
Qed.

(* the syslog unescaper's table is the documented one *)
Lemma syslog_tr_of : forall v, tr_of syslog_unescaper v = syslog_tr v.
Proof.
  intros v. unfold tr_of, syslog_unescaper, new_unescaper, syslog_tr. cbn [u_map u_esc find fst snd].
  destruct (N.eqb_spec v 92); [subst; reflexivity|].
  destruct (N.eqb_spec 98 v); [subst; reflexivity|].
  destruct (N.eqb_spec 102 v); [subst; reflexivity|].
  destruct (N.eqb_spec 110 v); [subst; reflexivity|].
  destruct (N.eqb_spec 114 v); [subst; reflexivity|].
  destruct (N.eqb_spec 116 v); [subst; reflexivity|].
  replace (v =? 98) with false by lia. replace (v =? 102) with false by lia.
  replace (v =? 110) with false by lia. replace (v =? 114) with false by lia.
  replace (v =? 116) with false by lia. reflexivity.
Qed.

Lemma unescape_syslog_eq : forall s,
  unescape_ref (u_esc syslog_unescaper) (tr_of syslog_unescaper) s = unescape_syslog s.
Proof. intros s. unfold unescape_syslog. apply unescape_ref_ext. apply syslog_tr_of. Qed.

Lemma esc_split : forall esc s,
  exists chunk rest, s = chunk ++ rest /\ noesc esc chunk /\ (rest = [] \/ exists r, rest = esc :: r).
Proof.
  intros esc. induction s as [|c s (chunk & rest & -> & Hn & Hr)].
  - exists [], []. repeat split; [constructor | left; reflexivity].
  - destruct (N.eqb_spec c esc) as [->|Hne].
    + exists [], (esc :: chunk ++ rest). repeat split; [constructor | right; eexists; reflexivity].
    + exists (c :: chunk), rest. repeat split; [constructor; assumption | exact Hr].
Qed.

Lemma index_byte_app : forall esc chunk rest,
  noesc esc chunk -> (rest = [] \/ exists r, rest = esc :: r) ->
  index_byte (chunk ++ rest) esc = match rest with [] => None | _ => Some (length chunk) end.
Proof.
  intros esc chunk rest H Hr. induction H as [|c chunk Hc H IH]; cbn [app index_byte length].
  - destruct Hr as [->|[r ->]]; [reflexivity|]. cbn [index_byte]. rewrite N.eqb_refl. reflexivity.
  - replace (c =? esc) with false by lia. rewrite IH. destruct rest; reflexivity.
Qed.

Lemma find_first_some : forall u src first,
  find_first u src = Some first ->
  exists chunk r, src = chunk ++ u_esc u :: r /\ noesc (u_esc u) chunk /\ first = length chunk.
Proof.
  intros u src first H. destruct (esc_split (u_esc u) src) as (chunk & rest & -> & Hc & Hr).
  unfold find_first in H. rewrite index_byte_app in H by assumption.
  destruct Hr as [->|[r ->]]; [discriminate|]. inversion H. exists chunk, r. repeat split. exact Hc.
Qed.

(* without an escape byte the value is its own unescaped form (runescape then copies it) *)
Lemma find_first_none_ref : forall u src,
  find_first u src = None -> unescape_ref (u_esc u) (tr_of u) src = src.
Proof.
  intros u src H. destruct (esc_split (u_esc u) src) as (chunk & rest & -> & Hc & Hr).
  unfold find_first in H. rewrite index_byte_app in H by assumption.
  destruct rest; [|discriminate]. rewrite app_nil_r. apply unescape_ref_noesc. exact Hc.
Qed.

Lemma src_at_app : forall done x rest, src_at (done ++ x :: rest) (length done) = Ok x.
Proof.
  intros. unfold src_at. rewrite nth_error_app2 by lia. rewrite Nat.sub_diag. reflexivity.
Qed.

Lemma src_slice_mid : forall done mid post a b,
  a = length done -> b = (length done + length mid)%nat ->
  src_slice (done ++ mid ++ post) a b = Ok mid.
Proof.
  intros done mid post a b -> ->. unfold src_slice, slice.
  replace ((length done <=? length done + length mid)%nat && (length done + length mid <=? length (done ++ mid ++ post))%nat)%bool
    with true by (rewrite !app_length; lia).
  rewrite skipn_app. rewrite skipn_all. rewrite Nat.sub_diag. cbn [app skipn].
  replace (length done + length mid - length done)%nat with (length mid) by lia.
  rewrite firstn_app. rewrite firstn_all. rewrite Nat.sub_diag. cbn [firstn]. rewrite app_nil_r. reflexivity.
Qed.

Lemma src_slice_0 : forall mid post, src_slice (mid ++ post) 0 (length mid) = Ok mid.
Proof. intros. exact (src_slice_mid [] mid post 0%nat (length mid) eq_refl eq_refl). Qed.

Section Loop.
  Variable u : unescaper.
  Let esc := u_esc u.
  Let ref := unescape_ref (u_esc u) (tr_of u).

  (* The loop on a source decomposed as  done ++ esc :: val :: chunk ++ rest  (chunk free of escape bytes, rest
     empty or starting with one): every read from the source is resolved, what remains are the writes into the
     destination.  Whatever is said about the loop goes through these three equations. *)
  Lemma unescape_loop_nil : forall fuel done dst di,
    unescape_loop fuel u (done ++ []) (length (done ++ [])) (length done) dst di = Ok (dst, di).
  Proof.
    intros. rewrite app_nil_r. destruct fuel; cbn [unescape_loop];
      replace (length done + 1 <? length done)%nat with false by lia;
      replace (length done <? length done)%nat with false by lia; reflexivity.
  Qed.

  Lemma unescape_loop_last : forall fuel done dst di,
    unescape_loop fuel u (done ++ [esc]) (length (done ++ [esc])) (length done) dst di
    = '(dst, k) <-- copy_at dst di [esc] ;; Ok (dst, (di + k)%nat).
  Proof.
    intros. pose proof (src_slice_mid done [esc] [] (length done) (length done + 1) eq_refl eq_refl) as S.
    rewrite app_nil_r in S.
    replace (length (done ++ [esc])) with (length done + 1)%nat by (rewrite app_length; reflexivity).
    destruct fuel; cbn [unescape_loop];
      replace (length done + 1 <? length done + 1)%nat with false by lia;
      replace (length done <? length done + 1)%nat with true by lia; rewrite S; reflexivity.
  Qed.

  Lemma unescape_loop_step : forall fuel done val chunk rest dst di,
    noesc esc chunk -> (rest = [] \/ exists r, rest = esc :: r) ->
    unescape_loop (S fuel) u (done ++ esc :: val :: chunk ++ rest) (length (done ++ esc :: val :: chunk ++ rest))
                  (length done) dst di
    = '(dst, di) <-- (if u_map u val =? 0
                      then d1 <-- put dst di (u_esc u) ;; d2 <-- put d1 (di + 1) val ;; Ok (d2, (di + 2)%nat)
                      else d1 <-- put dst di (u_map u val) ;; Ok (d1, (di + 1)%nat)) ;;
      '(dst, k) <-- copy_at dst di chunk ;;
      unescape_loop fuel u ((done ++ esc :: val :: chunk) ++ rest) (length ((done ++ esc :: val :: chunk) ++ rest))
                    (length (done ++ esc :: val :: chunk)) dst (di + k).
  Proof.
    intros fuel done val chunk rest dst di Hc Hr.
    replace ((done ++ esc :: val :: chunk) ++ rest) with (done ++ esc :: val :: chunk ++ rest)
      by (rewrite <- app_assoc; reflexivity).
    replace (length (done ++ esc :: val :: chunk)) with (length done + 2 + length chunk)%nat
      by (rewrite app_length; cbn [length]; lia).
    assert (E : done ++ esc :: val :: chunk ++ rest = (done ++ [esc; val]) ++ chunk ++ rest)
      by (rewrite <- app_assoc; reflexivity).
    assert (Hsi : length (done ++ [esc; val]) = (length done + 2)%nat) by (rewrite app_length; reflexivity).
    set (src := done ++ esc :: val :: chunk ++ rest) in *.
    assert (Hlen : length src = (length done + 2 + length (chunk ++ rest))%nat) by (rewrite E, app_length; lia).
    assert (A : src_at src (length done + 1) = Ok val).
    { replace (length done + 1)%nat with (length (done ++ [esc])) by (rewrite app_length; reflexivity).
      subst src. change (done ++ esc :: val :: chunk ++ rest) with (done ++ [esc] ++ val :: chunk ++ rest).
      rewrite app_assoc. apply src_at_app. }
    assert (B : src_slice src (length done + 2) (length src) = Ok (chunk ++ rest)).
    { rewrite Hlen, E. rewrite <- (app_nil_r (chunk ++ rest)) at 1. apply src_slice_mid; lia. }
    assert (C : src_slice src (length done + 2) (length done + 2 + length chunk) = Ok chunk).
    { rewrite E. apply src_slice_mid; lia. }
    assert (N : match index_byte (chunk ++ rest) (u_esc u) with
                | Some n => n
                | None => (length src - (length done + 2))%nat
                end = length chunk).
    { fold esc. rewrite index_byte_app by assumption. destruct Hr as [->|[r ->]]; [|reflexivity].
      rewrite app_nil_r in Hlen. lia. }
    cbn [unescape_loop]. replace (length done + 1 <? length src)%nat with true by (rewrite app_length in Hlen; lia).
    rewrite A. cbn [obind].
    destruct (if u_map u val =? 0
              then d1 <-- put dst di (u_esc u) ;; d2 <-- put d1 (di + 1) val ;; Ok (d2, (di + 2)%nat)
              else d1 <-- put dst di (u_map u val) ;; Ok (d1, (di + 1)%nat)) as [[d1 di1]| |]; cbn [obind];
      [|reflexivity|reflexivity].
    rewrite B. cbn [obind]. rewrite N, C. reflexivity.
  Qed.

  Lemma ref_step : forall val chunk rest,
    noesc esc chunk ->
    ref (esc :: val :: chunk ++ rest)
    = (if u_map u val =? 0 then [esc; val] else [u_map u val]) ++ chunk ++ ref rest.
  Proof.
    intros val chunk rest Hc. subst ref. cbn [unescape_ref]. subst esc. rewrite N.eqb_refl.
    rewrite unescape_ref_noesc_app by assumption. unfold tr_of. destruct (u_map u val =? 0); reflexivity.
  Qed.

  Lemma ref_last : ref [esc] = [esc].
  Proof. subst ref. cbn [unescape_ref]. subst esc. rewrite N.eqb_refl. reflexivity. Qed.

  Lemma stores_writes : forall val,
    writes (fun dst di => if u_map u val =? 0
                          then d1 <-- put dst di (u_esc u) ;; d2 <-- put d1 (di + 1) val ;; Ok (d2, (di + 2)%nat)
                          else d1 <-- put dst di (u_map u val) ;; Ok (d1, (di + 1)%nat))
           (if u_map u val =? 0 then [esc; val] else [u_map u val]).
  Proof.
    intros val. destruct (u_map u val =? 0); [apply put2_writes | exact (put_then_writes _ _ _ _ writes_ok)].
  Qed.

  Lemma unescape_loop_spec : forall fuel done rest,
    (rest = [] \/ exists r, rest = esc :: r) ->
    (length rest <= fuel)%nat ->
    writes (fun dst di => unescape_loop fuel u (done ++ rest) (length (done ++ rest)) (length done) dst di) (ref rest).
  Proof.
    induction fuel as [|fuel IH]; intros done rest Hrest Hfuel pre old tail.
    - destruct rest; [|cbn [length] in Hfuel; lia]. rewrite unescape_loop_nil. exact (writes_ok pre old tail).
    - destruct Hrest as [-> | [[|val rest2] ->]].
      + rewrite unescape_loop_nil. exact (writes_ok pre old tail).
      + (* a trailing escape byte: copied by the final copy *)
        rewrite unescape_loop_last, ref_last. exact (copy_writes [esc] pre old tail).
      + destruct (esc_split esc rest2) as (chunk & rest3 & -> & Hchunk & Hr3).
        rewrite unescape_loop_step, ref_step by assumption.
        refine (writes_seq _ _ _ _ _ (stores_writes val)
                  (copy_then_writes chunk _ _ _ (IH (done ++ esc :: val :: chunk) rest3 Hr3 _)) pre old tail).
        cbn [length] in Hfuel. rewrite app_length in Hfuel. lia.
  Qed.
End Loop.

Lemma run_to_buffer_eq : forall u chunk rest dst,
  run_to_buffer u (chunk ++ rest) (length chunk) dst
  = '(dst, di) <-- copy_at dst 0 chunk ;;
    unescape_loop (length (chunk ++ rest)) u (chunk ++ rest) (length (chunk ++ rest)) (length chunk) dst di.
Proof. intros. unfold run_to_buffer. rewrite src_slice_0. reflexivity. Qed.

(* RunToBuffer, called as runescape does (first = FindFirst(src) <> -1), on a window with room for the result,
   writes exactly the reference result and returns its length; the bytes behind it are untouched *)
Theorem run_to_buffer_spec : forall u src first old tail,
  find_first u src = Some first ->
  length old = length (unescape_ref (u_esc u) (tr_of u) src) ->
  run_to_buffer u src first (old ++ tail)
  = Ok (unescape_ref (u_esc u) (tr_of u) src ++ tail, length (unescape_ref (u_esc u) (tr_of u) src)).
Proof.
  intros u src first old tail Hf.
  destruct (find_first_some u src first Hf) as (chunk & r & -> & Hchunk & ->).
  rewrite unescape_ref_noesc_app by assumption. rewrite run_to_buffer_eq.
  refine (copy_then_writes chunk _ _ _ (unescape_loop_spec u _ chunk (u_esc u :: r) _ _) [] old tail).
  - right. eexists. reflexivity.
  - rewrite app_length. lia.
Qed.

(* Run (used by the unescape transform as well): the reference result, never a panic *)
Theorem unescape_run_spec : forall u src, unescape_run u src = Ok (unescape_ref (u_esc u) (tr_of u) src).
Proof.
  intros u src. unfold unescape_run. destruct (find_first u src) as [first|] eqn:F.
  - unfold run_from_first.
    pose proof (unescape_ref_length (u_esc u) (tr_of u) src) as Hle.
    destruct (split_le (repeat 0 (length src)) (length (unescape_ref (u_esc u) (tr_of u) src))) as (o1 & o2 & E & Ho1).
    { rewrite repeat_length. exact Hle. }
    rewrite E. rewrite (run_to_buffer_spec u src first o1 o2 F Ho1). cbn [obind].
    apply src_slice_0.
  - rewrite find_first_none_ref by assumption. reflexivity.
Qed.
