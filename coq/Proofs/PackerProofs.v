(* Proofs about the message packer (Model/Packer.v) against Spec/ChunkSpec.v:
   conservation and order of records, count field, no empty chunk, limits, roll-over
   exactly when the next record does not fit, chunk ids, and decoding under the
   round-trip assumptions on gzip and the msgpack wrapper. *)
From SV Require Import Model.Common Model.ChunkId Model.Packer Spec.ChunkSpec
                       Proofs.CommonFacts Proofs.ChunkIdProofs.
From Coq Require Import Lia ZifyBool ZifyN ZifyNat Sorted.
Ltac Zify.zify_post_hook ::= Z.div_mod_to_equations.
Local Open Scope Z_scope.

Section PackerProofs.
Variable R : Type.
Variable rlen : R -> Z.

(* Inside the section the short names below stand for the model's functions applied to [R] and [rlen]; they are
   notations, so [unfold] and [cbn [...]] have to name the constant with its module ([Packer.write_stream],
   [ChunkSpec.sum_len]). *)
Notation piece := (piece R).
Notation chunk := (chunk R).
Notation echunk := (echunk R).
Notation pstate := (pstate R).
Notation op := (op R).
Notation sum_len := (sum_len R rlen).
Notation body_size := (body_size R rlen).
Notation pieces_len := (pieces_len R rlen).
Notation fits := (fits R rlen).
Notation fits_records := (fits_records R).
Notation fits_bytes := (fits_bytes R rlen).
Notation new_chunk := (new_chunk R).
Notation chunk_write := (chunk_write R rlen).
Notation can_append := (can_append R).
Notation finalize := (finalize R).
Notation flush_buffer := (flush_buffer R).
Notation write_stream := (write_stream R rlen).
Notation step := (step R rlen).
Notation run_trace := (run_trace R rlen).
Notation run := (run R rlen).

Lemma recs_of_app : forall a b : list piece, recs_of (a ++ b) = recs_of a ++ recs_of b.
Proof.
  induction a as [|p a IH]; intro b; cbn [app recs_of]; [reflexivity|].
  destruct p; cbn [app]; rewrite IH; reflexivity.
Qed.

Lemma dd_items_cons : forall r (g : list R), dd_items (r :: g) = PRec r :: flat_map (fun x => [PComma; PRec x]) g.
Proof.
  intros r g. revert r. induction g as [|b g IH]; intro r; [reflexivity|].
  change (dd_items (r :: b :: g)) with (PRec r :: PComma :: dd_items (b :: g)). rewrite IH. reflexivity.
Qed.

Lemma dd_items_snoc : forall (g : list R) r, g <> [] -> dd_items (g ++ [r]) = dd_items g ++ [PComma; PRec r].
Proof.
  intros [|a g] r Hne; [congruence|]. cbn [app]. rewrite !dd_items_cons, flat_map_app. reflexivity.
Qed.

Lemma recs_of_forward : forall g : list R, recs_of (forward_body g) = g.
Proof. induction g as [|r g IH]; cbn [forward_body map recs_of]; [reflexivity|]. unfold forward_body in IH. rewrite IH. reflexivity. Qed.

Lemma recs_of_dd_items : forall g : list R, recs_of (dd_items g) = g.
Proof.
  intros [|r g]; [reflexivity|]. rewrite dd_items_cons. cbn [recs_of]. f_equal.
  induction g as [|b g IH]; cbn [flat_map app recs_of]; congruence.
Qed.

Lemma recs_of_body_spec : forall k (g : list R), recs_of (body_spec k g) = g.
Proof.
  intros [|] g; cbn [body_spec].
  - apply recs_of_forward.
  - unfold datadog_body. cbn [recs_of]. rewrite recs_of_app, recs_of_dd_items. cbn [recs_of]. apply app_nil_r.
Qed.

Lemma pieces_len_app : forall a b : list piece, pieces_len (a ++ b) = pieces_len a + pieces_len b.
Proof. induction a as [|p a IH]; intro b; cbn [app Packer.pieces_len]; [reflexivity|]. rewrite IH. lia. Qed.

Lemma sum_len_app : forall a b : list R, sum_len (a ++ b) = sum_len a + sum_len b.
Proof. induction a as [|r a IH]; intro b; cbn [app ChunkSpec.sum_len]; [reflexivity|]. rewrite IH. lia. Qed.

Lemma pieces_len_forward : forall g : list R, pieces_len (forward_body g) = sum_len g.
Proof.
  induction g as [|r g IH]; [reflexivity|].
  unfold forward_body in *. cbn [map Packer.pieces_len piece_len ChunkSpec.sum_len]. rewrite IH. reflexivity.
Qed.

Lemma pieces_len_dd_items : forall g : list R, g <> [] ->
  pieces_len (dd_items g) = sum_len g + Z.of_nat (length g) - 1.
Proof.
  intros [|r g] Hne; [congruence|]. rewrite dd_items_cons. cbn [Packer.pieces_len piece_len ChunkSpec.sum_len length].
  clear Hne. induction g as [|b g IH]; cbn [flat_map app Packer.pieces_len piece_len ChunkSpec.sum_len length]; lia.
Qed.

Lemma body_size_spec : forall k (g : list R), pieces_len (body_spec k g) = body_size k g.
Proof.
  intros [|] g; cbn [body_spec ChunkSpec.body_size].
  - apply pieces_len_forward.
  - unfold datadog_body. cbn [Packer.pieces_len piece_len]. rewrite pieces_len_app.
    cbn [Packer.pieces_len piece_len].
    destruct g as [|r g].
    + cbn [dd_items Packer.pieces_len ChunkSpec.sum_len length]. lia.
    + rewrite pieces_len_dd_items by discriminate. cbn [length]. lia.
Qed.

(* a chunk in progress holding the records g: what it has written and what its byte counter shows *)
Definition open_body (k : okind) (g : list R) : list piece :=
  match k with KForward => forward_body g | KDatadog => POpen :: dd_items g end.

Definition acct (k : okind) (g : list R) : Z :=
  match k with KForward => sum_len g | KDatadog => 1 + sum_len g + Z.of_nat (length g) end.

Definition chunk_inv (cfg : config) (ck : chunk) (g : list R) : Prop :=
  ck_written ck = open_body (cf_kind cfg) g /\
  ck_num_records ck = Z.of_nat (length g) /\
  ck_num_bytes ck = acct (cf_kind cfg) g.

Lemma chunk_inv_recs : forall cfg ck g, chunk_inv cfg ck g -> recs_of (ck_written ck) = g.
Proof.
  intros cfg ck g [Hw _]. rewrite Hw. destruct (cf_kind cfg); cbn [open_body].
  - apply recs_of_forward.
  - cbn [recs_of]. apply recs_of_dd_items.
Qed.

Lemma new_chunk_inv : forall cfg id, chunk_inv cfg (new_chunk cfg id) [].
Proof. intros cfg id. unfold chunk_inv, Packer.new_chunk. destruct (cf_kind cfg); cbn; repeat split; reflexivity. Qed.

Lemma new_chunk_id : forall cfg id, ck_id (new_chunk cfg id) = id.
Proof. intros cfg id. unfold Packer.new_chunk. destruct (cf_kind cfg); reflexivity. Qed.

Lemma chunk_write_id : forall cfg ck r, ck_id (chunk_write cfg ck r) = ck_id ck.
Proof. intros cfg ck r. unfold Packer.chunk_write. destruct (cf_kind cfg); reflexivity. Qed.

Lemma finalize_id : forall cfg ck, e_id (finalize cfg ck) = ck_id ck.
Proof. intros cfg ck. unfold Packer.finalize. destruct (cf_kind cfg); reflexivity. Qed.

Lemma chunk_write_inv : forall cfg ck g r,
  chunk_inv cfg ck g -> chunk_inv cfg (chunk_write cfg ck r) (g ++ [r]).
Proof.
  intros cfg ck g r [Hw [Hn Hb]]. unfold chunk_inv, Packer.chunk_write.
  destruct (cf_kind cfg) eqn:Hk; cbn [ck_written ck_num_records ck_num_bytes open_body acct] in *.
  - rewrite Hw, Hn, Hb. unfold forward_body. rewrite map_app, app_length, sum_len_app.
    cbn [map length ChunkSpec.sum_len]. repeat split; lia.
  - rewrite Hn, Hb, app_length, sum_len_app. cbn [length ChunkSpec.sum_len].
    repeat split; try lia.
    destruct g as [|a g].
    + cbn [length]. change (Z.of_nat 0 =? 0) with true. cbn iota. rewrite Hw. reflexivity.
    + destruct (Z.eqb_spec (Z.of_nat (length (a :: g))) 0) as [Hz|_]; [cbn [length] in Hz; lia|].
      rewrite Hw. rewrite dd_items_snoc by discriminate.
      cbn [app]. rewrite <- !app_assoc. reflexivity.
Qed.

(* CanAppendData says exactly whether the chunk with one more record still fits *)
Lemma can_append_fits : forall cfg ck g r,
  chunk_inv cfg ck g -> (can_append cfg ck (rlen r) = true <-> fits cfg (g ++ [r])).
Proof.
  intros cfg ck g r [_ [Hn Hb]].
  unfold Packer.can_append, ChunkSpec.fits, ChunkSpec.fits_records, ChunkSpec.fits_bytes.
  rewrite Hn, Hb.
  destruct (cf_kind cfg); cbn [acct ChunkSpec.body_size]; rewrite sum_len_app, !app_length; cbn [ChunkSpec.sum_len length];
    (destruct ((cf_max_records cfg >? 0) && _) eqn:E1; [|destruct ((cf_max_bytes cfg >? 0) && _) eqn:E2]); lia.
Qed.

(* the limits as the packer keeps them: a single record is accepted whatever its size *)
Definition within (cfg : config) (g : list R) : Prop :=
  fits_records cfg g /\ (fits_bytes cfg g \/ length g = 1%nat).

Definition state_inv (cfg : config) (st : pstate) : Prop :=
  match pk_cur st with
  | None => True
  | Some ck => let g := recs_of (ck_written ck) in g <> [] /\ chunk_inv cfg ck g /\ within cfg g
  end.

Definition num_bytes_spec (cfg : config) (g : list R) : Z :=
  match cf_kind cfg with KForward => body_size KForward g | KDatadog => body_size KDatadog g + 1 end.

Definition good_chunk (cfg : config) (e : echunk) : Prop :=
  chunk_holds cfg e (e_records e) /\ within cfg (e_records e) /\
  e_num_bytes e = num_bytes_spec cfg (e_records e).

Definition op_records (o : op) : list R := match o with OWrite _ r => [r] | OFlush => [] end.

Definition out_records (out : option echunk) : list R :=
  match out with Some e => e_records e | None => [] end.

(* the byte counter handed to the encoder (NumBytes) is exact for the Forward modes; for Datadog it is one more than
   the body (the first record is counted with a comma it does not have) *)
Lemma finalize_good : forall cfg ck g,
  chunk_inv cfg ck g -> g <> [] -> within cfg g ->
  good_chunk cfg (finalize cfg ck) /\ e_records (finalize cfg ck) = g.
Proof.
  intros cfg ck g [Hw [Hn Hb]] Hne Hlim.
  assert (Hbody : e_body (finalize cfg ck) = body_spec (cf_kind cfg) g).
  { unfold Packer.finalize. destruct (cf_kind cfg); cbn [e_body body_spec open_body] in *; rewrite Hw; reflexivity. }
  assert (Her : e_records (finalize cfg ck) = g) by (unfold e_records; rewrite Hbody; apply recs_of_body_spec).
  split; [|exact Her]. unfold good_chunk. rewrite Her. split; [|split; [exact Hlim|]].
  - unfold chunk_holds, Packer.finalize, expected_compressed in *.
    destruct (cf_kind cfg); cbn [e_body e_size e_opt_chunk e_id e_compressed e_tag e_as_array] in *; easy.
  - unfold Packer.finalize, num_bytes_spec.
    destruct (cf_kind cfg); cbn [e_num_bytes acct ChunkSpec.body_size] in *; rewrite Hb; [reflexivity|].
    destruct g; [congruence|cbn [length]; lia].
Qed.

Lemma flush_spec : forall cfg st st' out,
  state_inv cfg st -> flush_buffer cfg st = (st', out) ->
  pk_cur st' = None /\ out_records out = cur_records st /\
  (cur_records st = [] <-> out = None) /\ (forall e, out = Some e -> good_chunk cfg e).
Proof.
  intros cfg st st' out Hinv H. unfold Packer.flush_buffer in H. unfold state_inv, cur_records in *.
  destruct (pk_cur st) as [ck|] eqn:Hc; inversion H; subst; clear H; cbn [pk_cur out_records].
  - destruct Hinv as [Hne [Hci Hlim]]. destruct (finalize_good cfg ck _ Hci Hne Hlim) as [Hg Her].
    split; [|split; [|split]]; try easy. intros e [= <-]. assumption.
  - split; [|split; [|split]]; easy.
Qed.

(* the chunk WriteStream opens when it cannot append: named by the next id, holding r alone *)
Definition fresh (cfg : config) (now : Z) (st : pstate) (r : R) : pstate :=
  let (g', id) := generate_id (cf_suffix cfg) now (pk_gen st) in
  {| pk_cur := Some (chunk_write cfg (new_chunk cfg id) r); pk_gen := g' |}.

Lemma write_stream_eq : forall cfg now st r,
  write_stream cfg now st r =
  match pk_cur st with
  | Some ck => if can_append cfg ck (rlen r)
               then ({| pk_cur := Some (chunk_write cfg ck r); pk_gen := pk_gen st |}, None)
               else (fresh cfg now st r, Some (finalize cfg ck))
  | None => (fresh cfg now st r, None)
  end.
Proof.
  intros cfg now st r. unfold Packer.write_stream, Packer.flush_buffer, fresh.
  destruct (pk_cur st) as [ck|] eqn:Hc; [destruct (can_append cfg ck (rlen r))|]; cbn [pk_cur pk_gen];
    rewrite ?Hc; try destruct (generate_id _ _ _); reflexivity.
Qed.

Lemma fresh_spec : forall cfg now st r,
  state_inv cfg (fresh cfg now st r) /\ cur_records (fresh cfg now st r) = [r].
Proof.
  intros cfg now st r. unfold fresh, state_inv, cur_records.
  destruct (generate_id (cf_suffix cfg) now (pk_gen st)) as [g' id]. cbn [pk_cur]. cbv zeta.
  pose proof (chunk_write_inv cfg _ [] r (new_chunk_inv cfg id)) as Hw.
  rewrite (chunk_inv_recs _ _ _ Hw). split; [|reflexivity].
  split; [discriminate|]. split; [exact Hw|]. split; [intro; cbn [app length]; lia|right; reflexivity].
Qed.

Lemma write_spec : forall cfg now st r st' out,
  state_inv cfg st -> write_stream cfg now st r = (st', out) ->
  state_inv cfg st' /\
  out_records out ++ cur_records st' = cur_records st ++ [r] /\
  (out = None <-> (cur_records st = [] \/ fits cfg (cur_records st ++ [r]))) /\
  (forall e, out = Some e -> good_chunk cfg e /\ e_records e = cur_records st /\ cur_records st' = [r]).
Proof.
  intros cfg now st r st' out Hinv H. rewrite write_stream_eq in H.
  destruct (fresh_spec cfg now st r) as [Hfi Hfr].
  unfold state_inv in Hinv. unfold cur_records at 2 3 4 5. destruct (pk_cur st) as [ck|].
  - destruct Hinv as [Hne [Hci Hlim]]. set (g := recs_of (ck_written ck)) in *.
    pose proof (can_append_fits cfg ck g r Hci) as Hcf.
    destruct (can_append cfg ck (rlen r)); inversion H; subst; clear H; cbn [out_records app].
    + (* appended *)
      pose proof (chunk_write_inv cfg ck g r Hci) as Hw. pose proof (chunk_inv_recs _ _ _ Hw) as Hrec.
      destruct Hcf as [[Hf1 Hf2] _]; [reflexivity|].
      unfold state_inv, cur_records. cbn [pk_cur]. cbv zeta. rewrite Hrec.
      split; [|split; [reflexivity|split; [|discriminate]]].
      * split; [intros [_ [=]]%app_eq_nil|]. split; [assumption|]. split; [assumption|left; assumption].
      * split; [right; split; assumption|reflexivity].
    + (* rolled over *)
      destruct (finalize_good cfg ck g Hci Hne Hlim) as [Hg Her]. rewrite Her, Hfr.
      split; [|split; [|split]]; try easy.
      * split; [discriminate|]. intros [Hn|Hf]; [contradiction|]. apply Hcf in Hf. discriminate.
      * intros e [= <-]. auto.
  - inversion H; subst; clear H. rewrite Hfr. repeat split; auto; discriminate.
Qed.

Lemma step_spec : forall cfg st o st' out,
  state_inv cfg st -> step cfg st o = (st', out) ->
  state_inv cfg st' /\
  out_records out ++ cur_records st' = cur_records st ++ op_records o /\
  (forall e, out = Some e -> good_chunk cfg e).
Proof.
  intros cfg st o st' out Hinv H. destruct o as [now r|]; cbn [Packer.step] in H.
  - destruct (write_spec cfg now st r st' out Hinv H) as [H1 [H2 [_ H4]]].
    split; [assumption|]. split; [assumption|]. intros e He. apply (H4 e He).
  - destruct (flush_spec cfg st st' out Hinv H) as [Hn [Hr [_ Hg]]].
    unfold state_inv, cur_records at 1. rewrite Hn, Hr. cbn [op_records]. rewrite !app_nil_r. auto.
Qed.

Lemma run_nil : forall cfg st, run cfg st [] = (st, []).
Proof. reflexivity. Qed.

Lemma run_cons : forall cfg st o ops,
  run cfg st (o :: ops) =
  let (st1, out) := step cfg st o in
  let (st2, em) := run cfg st1 ops in (st2, opt_list out ++ em).
Proof.
  intros cfg st o ops. unfold Packer.run. cbn [Packer.run_trace].
  destruct (step cfg st o) as [st1 out]. destruct (run_trace cfg st1 ops) as [st2 outs].
  reflexivity.
Qed.

Lemma run_app : forall cfg ops1 ops2 st,
  run cfg st (ops1 ++ ops2) =
  let (st1, em1) := run cfg st ops1 in
  let (st2, em2) := run cfg st1 ops2 in (st2, em1 ++ em2).
Proof.
  intros cfg ops1. induction ops1 as [|o ops1 IH]; intros ops2 st.
  - cbn [app]. rewrite run_nil. destruct (run cfg st ops2). reflexivity.
  - cbn [app]. rewrite !run_cons. destruct (step cfg st o) as [st1 out].
    rewrite IH. destruct (run cfg st1 ops1) as [st2 em1]. destruct (run cfg st2 ops2) as [st3 em2].
    rewrite app_assoc. reflexivity.
Qed.

Lemma out_records_opt : forall out : option echunk, concat (map e_records (opt_list out)) = out_records out.
Proof. intros [e|]; cbn; [apply app_nil_r|reflexivity]. Qed.

(* conservation + order + well-formedness + limits, from any state satisfying the invariant *)
Lemma run_spec : forall cfg ops st,
  state_inv cfg st ->
  let (st', em) := run cfg st ops in
  state_inv cfg st' /\
  concat (map e_records em) ++ cur_records st' = cur_records st ++ written_of ops /\
  Forall (good_chunk cfg) em.
Proof.
  intros cfg ops. induction ops as [|o ops IH]; intros st Hinv.
  - rewrite run_nil. cbn [map concat written_of app]. rewrite app_nil_r. repeat split; [assumption|constructor].
  - rewrite run_cons. destruct (step cfg st o) as [st1 out] eqn:Hs.
    destruct (step_spec cfg st o st1 out Hinv Hs) as [Hinv1 [Hcons Hgood]].
    specialize (IH st1 Hinv1). destruct (run cfg st1 ops) as [st2 em].
    destruct IH as [Hinv2 [Hc2 Hg2]].
    repeat split; [assumption| |].
    + rewrite map_app, concat_app, out_records_opt, <- app_assoc, Hc2, app_assoc, Hcons.
      rewrite <- app_assoc. f_equal. destruct o; reflexivity.
    + apply Forall_app. split; [|assumption].
      destruct out as [e|]; cbn [opt_list]; constructor; [apply Hgood; reflexivity|constructor].
Qed.

(* what every emitted chunk of a run from the initial state satisfies, given that all good chunks do *)
Lemma run_init : forall cfg ops (P : echunk -> Prop), (forall e, good_chunk cfg e -> P e) ->
  let (st', em) := run cfg pstate_init ops in
  concat (map e_records em) ++ cur_records st' = written_of ops /\ Forall P em.
Proof.
  intros cfg ops P HP. pose proof (run_spec cfg ops pstate_init I) as H.
  destruct (run cfg pstate_init ops) as [st' em]. destruct H as [_ [Hc Hg]].
  split; [exact Hc|exact (Forall_impl P HP Hg)].
Qed.

(* C11 conservation_order *)
Lemma conservation_order_lemma : forall cfg ops,
  let (st', em) := run cfg pstate_init ops in
  concat (map e_records em) ++ cur_records st' = written_of ops /\
  Forall (fun e => chunk_holds cfg e (e_records e)) em.
Proof.
  intros cfg ops. exact (run_init cfg ops _ (fun e He => proj1 He)).
Qed.

(* C11 limits *)
Lemma limits_lemma : forall cfg ops,
  let (st', em) := run cfg pstate_init ops in
  Forall (fun e => let g := e_records e in
                   (cf_max_records cfg > 0 -> Z.of_nat (length g) <= cf_max_records cfg) /\
                   (cf_max_bytes cfg > 0 -> pieces_len (e_body e) <= cf_max_bytes cfg \/ length g = 1%nat)) em.
Proof.
  intros cfg ops. pose proof (run_init cfg ops) as H. destruct (run cfg pstate_init ops). apply H.
  intros e [[_ [Hbody _]] [[Hr Hb] _]]. cbv zeta. split; [exact Hr|].
  intro Hpos. destruct Hb as [Hb|Hb]; [left|right; assumption].
  rewrite Hbody, body_size_spec. apply Hb. assumption.
Qed.

(* the NumBytes counter of every emitted chunk *)
Lemma num_bytes_lemma : forall cfg ops,
  let (st', em) := run cfg pstate_init ops in
  Forall (fun e => e_num_bytes e = num_bytes_spec cfg (e_records e)) em.
Proof.
  intros cfg ops. pose proof (run_init cfg ops _ (fun e He => proj2 (proj2 He))) as H.
  destruct (run cfg pstate_init ops). apply H.
Qed.

(* after a flush nothing is buffered: every record written so far is in an emitted chunk *)
Lemma flush_completes_lemma : forall cfg ops,
  let (st', em) := run cfg pstate_init (ops ++ [OFlush]) in
  pk_cur st' = None /\ concat (map e_records em) = written_of ops.
Proof.
  intros cfg ops. rewrite run_app.
  pose proof (run_spec cfg ops pstate_init I) as H.
  destruct (run cfg pstate_init ops) as [st1 em1]. destruct H as [Hinv [Hc _]].
  rewrite run_cons. cbn [Packer.step].
  destruct (flush_buffer cfg st1) as [st2 out] eqn:Hf. rewrite run_nil.
  destruct (flush_spec cfg st1 st2 out Hinv Hf) as [Hn [Hr _]].
  split; [assumption|].
  rewrite app_nil_r, map_app, concat_app, out_records_opt, Hr. exact Hc.
Qed.

(* roll-over happens exactly when the next record does not fit into a non-empty chunk, the emitted chunk is
   the whole buffer and the record starts the new chunk *)
Lemma rollover_lemma : forall cfg ops now r,
  let (st, _) := run cfg pstate_init ops in
  let (st', out) := write_stream cfg now st r in
  (out = None <-> (cur_records st = [] \/ fits cfg (cur_records st ++ [r]))) /\
  (forall e, out = Some e -> e_records e = cur_records st /\ cur_records st' = [r]) /\
  (out = None -> cur_records st' = cur_records st ++ [r]).
Proof.
  intros cfg ops now r. pose proof (run_spec cfg ops pstate_init I) as H.
  destruct (run cfg pstate_init ops) as [st em]. destruct H as [Hinv _].
  destruct (write_stream cfg now st r) as [st' out] eqn:Hw.
  destruct (write_spec cfg now st r st' out Hinv Hw) as [_ [Hc [Hiff Hsome]]].
  split; [exact Hiff|]. split; [intros e He; apply (Hsome e He)|].
  intros ->. exact Hc.
Qed.

(* a flush emits exactly when something is buffered *)
Lemma flush_lemma : forall cfg ops,
  let (st, _) := run cfg pstate_init ops in
  let (st', out) := flush_buffer cfg st in
  pk_cur st' = None /\ (out = None <-> cur_records st = []) /\ out_records out = cur_records st.
Proof.
  intros cfg ops. pose proof (run_spec cfg ops pstate_init I) as H.
  destruct (run cfg pstate_init ops) as [st em]. destruct H as [Hinv _].
  destruct (flush_buffer cfg st) as [st' out] eqn:Hf.
  destruct (flush_spec cfg st st' out Hinv Hf) as [Hn [Hr [Hiff _]]].
  repeat split; try assumption; apply Hiff.
Qed.

(* the clock reading this call consumes: one for every call that makes a new chunk *)
Definition created_now (cfg : config) (st : pstate) (o : op) : list Z :=
  match o, pk_cur st with
  | OFlush, _ => []
  | OWrite now r, None => [now]
  | OWrite now r, Some ck => if can_append cfg ck (rlen r) then [] else [now]
  end.

Fixpoint created_nows (cfg : config) (st : pstate) (ops : list op) : list Z :=
  match ops with
  | [] => []
  | o :: ops' => created_now cfg st o ++ created_nows cfg (fst (step cfg st o)) ops'
  end.

Lemma fresh_ids : forall cfg now st r rest,
  cur_ids (fresh cfg now st r) ++ gen_ids (cf_suffix cfg) (pk_gen (fresh cfg now st r)) rest =
  gen_ids (cf_suffix cfg) (pk_gen st) (now :: rest).
Proof.
  intros cfg now st r rest. unfold fresh, cur_ids, gen_ids, generate_id. cbn [gen_pairs].
  destruct (generate now (pk_gen st)) as [g' p]. cbn [pk_cur pk_gen map app].
  rewrite chunk_write_id, new_chunk_id. reflexivity.
Qed.

(* the ids emitted by a call, the id of the open chunk and the ids still to come are the id of the chunk that was open
   and the ids to come before the call *)
Lemma step_ids : forall cfg st o st' out rest,
  step cfg st o = (st', out) ->
  map e_id (opt_list out) ++ cur_ids st' ++ gen_ids (cf_suffix cfg) (pk_gen st') rest =
  cur_ids st ++ gen_ids (cf_suffix cfg) (pk_gen st) (created_now cfg st o ++ rest).
Proof.
  intros cfg st o st' out rest H. unfold created_now, cur_ids at 2.
  destruct o as [now r|]; cbn [Packer.step] in H.
  - rewrite write_stream_eq in H. destruct (pk_cur st) as [ck|]; [destruct (can_append cfg ck (rlen r))|];
      injection H as <- <-; cbn [opt_list map app].
    + (* appended: the open chunk keeps its id *)
      unfold cur_ids. cbn [pk_cur pk_gen app]. rewrite chunk_write_id. reflexivity.
    + (* rolled over: the open chunk is emitted, the next id is taken *)
      rewrite finalize_id, fresh_ids. reflexivity.
    + (* first write *)
      apply fresh_ids.
  - unfold Packer.flush_buffer in H. destruct (pk_cur st) as [ck|] eqn:Hc; injection H as <- <-; cbn [opt_list map app].
    + (* flush: the open chunk is emitted *)
      rewrite finalize_id. reflexivity.
    + (* nothing open *)
      unfold cur_ids. rewrite Hc. reflexivity.
Qed.

(* the ids of the emitted chunks followed by the id of the open chunk are exactly the ids the
   generator produced for the clock readings taken when chunks were created *)
Lemma run_ids : forall cfg ops st rest,
  let (st', em) := run cfg st ops in
  map e_id em ++ cur_ids st' ++ gen_ids (cf_suffix cfg) (pk_gen st') rest =
  cur_ids st ++ gen_ids (cf_suffix cfg) (pk_gen st) (created_nows cfg st ops ++ rest).
Proof.
  intros cfg ops. induction ops as [|o ops IH]; intros st rest.
  - rewrite run_nil. reflexivity.
  - rewrite run_cons. cbn [created_nows]. destruct (step cfg st o) as [st1 out] eqn:Hs. cbn [fst].
    specialize (IH st1 rest). destruct (run cfg st1 ops) as [st2 em].
    rewrite map_app, <- !app_assoc, IH. apply step_ids. assumption.
Qed.

(* the clock readings consumed are among those of the ops, in the same order *)
Lemma created_nows_sub : forall (P : Z -> Prop) cfg ops st lo,
  nondecreasing lo (nows_of ops) -> Forall P (nows_of ops) ->
  nondecreasing lo (created_nows cfg st ops) /\ Forall P (created_nows cfg st ops) /\
  (length (created_nows cfg st ops) <= length ops)%nat.
Proof.
  intros P cfg ops. induction ops as [|o ops IH]; intros st lo Hm HP; [repeat split; constructor|].
  cbn [created_nows length]. specialize (IH (fst (step cfg st o))).
  destruct o as [now r|]; cbn [nows_of created_now] in *.
  - destruct Hm as [Hle Hm]. inversion HP as [|? ? Hnow HP']; subst.
    destruct (IH now Hm HP') as [I1 [I2 I3]]. pose proof (nondecreasing_weaken _ now lo Hle I1).
    destruct (pk_cur st) as [ck|]; [destruct (can_append cfg ck (rlen r))|]; cbn [app nondecreasing length];
      repeat split; auto; lia.
  - destruct (IH lo Hm HP) as [I1 [I2 I3]]. destruct (pk_cur st); repeat split; auto.
Qed.

(* C11 ids at the level of the packer *)
Lemma packer_ids_lemma : forall cfg ops,
  nondecreasing 0 (nows_of ops) ->
  Forall (fun t => t < 10 ^ 19) (nows_of ops) ->
  Z.of_nat (length ops) < 10 ^ 8 ->
  let (st', em) := run cfg pstate_init ops in
  ids_ordered (map e_id em ++ cur_ids st') /\
  NoDup (map e_id em ++ cur_ids st') /\
  Forall (fun id => id_shape_ok (cf_suffix cfg) id = true) (map e_id em ++ cur_ids st').
Proof.
  intros cfg ops Hmono Hts Hlen.
  pose proof (run_ids cfg ops pstate_init []) as H.
  destruct (run cfg pstate_init ops) as [st' em].
  rewrite !app_nil_r in H. cbn [cur_ids pstate_init pk_cur pk_gen app] in H. rewrite H.
  destruct (created_nows_sub _ cfg ops pstate_init 0 Hmono Hts) as [Hm [Ht Hl]].
  apply ids_unique_ordered_count_lemma; try assumption. lia.
Qed.

(* bytes: rendering, gzip and msgpack wrapper as oracles *)

Section Bytes.
Variable rbytes : R -> bytes.
Notation render := (render R rbytes).

Lemma render_app : forall a b : list piece, render (a ++ b) = render a ++ render b.
Proof. intros a b. unfold Packer.render. rewrite map_app, concat_app. reflexivity. Qed.

Lemma render_forward : forall g : list R, render (forward_body g) = concat (map rbytes g).
Proof.
  induction g as [|r g IH]; [reflexivity|].
  unfold Packer.render, forward_body in *. cbn [map concat render_piece]. rewrite IH. reflexivity.
Qed.

Lemma render_dd_items : forall g : list R, render (dd_items g) = join 44%N (map rbytes g).
Proof.
  induction g as [|r g IH]; [reflexivity|].
  destruct g as [|b g].
  - cbn. apply app_nil_r.
  - change (dd_items (r :: b :: g)) with (PRec r :: PComma :: dd_items (b :: g)).
    change (render (PRec r :: PComma :: dd_items (b :: g))) with (rbytes r ++ [44%N] ++ render (dd_items (b :: g))).
    rewrite IH. reflexivity.
Qed.

Lemma render_datadog : forall g : list R, render (datadog_body g) = json_array_bytes (map rbytes g).
Proof.
  intro g. unfold datadog_body, json_array_bytes.
  change (POpen :: dd_items g ++ [PClose]) with ([POpen] ++ dd_items g ++ [PClose]).
  rewrite !render_app, render_dd_items. reflexivity.
Qed.

Lemma render_length : (forall r, rlen r = Z.of_nat (length (rbytes r))) ->
  forall l : list piece, Z.of_nat (length (render l)) = pieces_len l.
Proof.
  intros Hlen l. induction l as [|p l IH]; [reflexivity|].
  change (render (p :: l)) with (render_piece R rbytes p ++ render l).
  rewrite app_length, Nat2Z.inj_add, IH. cbn [Packer.pieces_len]. f_equal.
  destruct p; cbn [render_piece piece_len length]; try reflexivity. symmetry. apply Hlen.
Qed.

Variable gz gunz : bytes -> bytes.
Variable mp_wrap : bytes -> bool -> Z -> bytes -> bool -> bytes -> bytes.
Variable mp_unwrap : bytes -> option (bytes * bool * Z * bytes * bool * bytes).
Hypothesis gunz_gz : forall b, gunz (gz b) = b.
Hypothesis unwrap_wrap : forall tag arr n id c d,
  mp_unwrap (mp_wrap tag arr n id c d) = Some (tag, arr, n, id, c, d).

Notation chunk_data := (chunk_data R rbytes gz mp_wrap).

(* what a receiver gets out of LogChunk.Data of a chunk holding the records g *)
Definition decodes (cfg : config) (e : echunk) (g : list R) : Prop :=
  match cf_kind cfg with
  | KForward =>
      exists payload,
        mp_unwrap (chunk_data cfg e) =
          Some (cf_tag cfg, cf_as_array cfg, Z.of_nat (length g), e_id e, cf_compress cfg, payload) /\
        (if cf_compress cfg then gunz payload else payload) = concat (map rbytes g)
  | KDatadog => gunz (chunk_data cfg e) = json_array_bytes (map rbytes g)
  end.

Lemma chunk_decodes : forall cfg e g, chunk_holds cfg e g -> decodes cfg e g.
Proof.
  intros cfg e g [Hne [Hb [Hs [Hid [Hc Ht]]]]]. unfold decodes, Packer.chunk_data, expected_compressed in *.
  destruct (cf_kind cfg) eqn:Hk; cbn [body_spec] in *.
  - destruct (Ht eq_refl) as [Htag Harr]. rewrite Hc, Hb, Hs, Hid, Htag, Harr, unwrap_wrap.
    eexists. split; [reflexivity|].
    destruct (cf_compress cfg); [rewrite gunz_gz|]; apply render_forward.
  - rewrite Hc, Hb, gunz_gz. apply render_datadog.
Qed.

Lemma run_decodes : forall cfg ops,
  let (st', em) := run cfg pstate_init ops in Forall (fun e => decodes cfg e (e_records e)) em.
Proof.
  intros cfg ops. pose proof (run_init cfg ops _ (fun e He => chunk_decodes cfg e _ (proj1 He))) as H.
  destruct (run cfg pstate_init ops). apply H.
Qed.

(* the byte limit, on real bytes *)
Lemma limits_bytes_lemma : (forall r, rlen r = Z.of_nat (length (rbytes r))) ->
  forall cfg ops,
  let (st', em) := run cfg pstate_init ops in
  Forall (fun e => cf_max_bytes cfg > 0 ->
                   Z.of_nat (length (render (e_body e))) <= cf_max_bytes cfg \/ length (e_records e) = 1%nat) em.
Proof.
  intros Hlen cfg ops. pose proof (limits_lemma cfg ops) as H.
  destruct (run cfg pstate_init ops) as [st' em].
  eapply Forall_impl; [|exact H]. intros e [_ Hb] Hpos. cbv zeta in Hb.
  rewrite (render_length Hlen). apply Hb. assumption.
Qed.

(* the receiving side: unwrap, gunzip if flagged, split the payload into records.  The record splitters are
   oracles too (a msgpack stream decoder / a JSON array parser): serialized records are self-delimiting. *)
Variable parse_forward : bytes -> option (list R).
Variable parse_json_array : bytes -> option (list R).
Hypothesis parse_forward_concat : forall g, parse_forward (concat (map rbytes g)) = Some g.
Hypothesis parse_json_array_spec : forall g, parse_json_array (json_array_bytes (map rbytes g)) = Some g.

Notation receive := (receive R gunz mp_unwrap parse_forward parse_json_array).
Notation all_received := (all_received R).

Lemma receive_chunk : forall cfg e g, chunk_holds cfg e g -> receive cfg (chunk_data cfg e) = Some g.
Proof.
  intros cfg e g Hh. pose proof (chunk_decodes cfg e g Hh) as Hd. unfold ChunkSpec.receive. unfold decodes in Hd.
  destruct (cf_kind cfg).
  - destruct Hd as [payload [Hu Hp]]. rewrite Hu, Hp. apply parse_forward_concat.
  - rewrite Hd. apply parse_json_array_spec.
Qed.

Lemma all_received_holds : forall cfg em,
  Forall (fun e => chunk_holds cfg e (e_records e)) em ->
  all_received (map (fun e => receive cfg (chunk_data cfg e)) em) = Some (concat (map e_records em)).
Proof.
  intros cfg em H. induction H as [|e em He _ IH]; [reflexivity|].
  cbn [map ChunkSpec.all_received concat]. rewrite (receive_chunk cfg e _ He), IH. reflexivity.
Qed.

(* end to end, on bytes: a receiver that decodes the chunks emitted up to a flush, in emission order, obtains
   exactly the written records in order *)
Lemma receiver_reconstructs_lemma : forall cfg ops,
  let (st', em) := run cfg pstate_init (ops ++ [OFlush]) in
  all_received (map (fun e => receive cfg (chunk_data cfg e)) em) = Some (written_of ops).
Proof.
  intros cfg ops.
  pose proof (flush_completes_lemma cfg ops) as Hf.
  pose proof (conservation_order_lemma cfg (ops ++ [OFlush])) as Hc.
  destruct (run cfg pstate_init (ops ++ [OFlush])) as [st' em].
  destruct Hf as [_ Hw]. destruct Hc as [_ Hg].
  rewrite (all_received_holds cfg em Hg), Hw. reflexivity.
Qed.
End Bytes.
End PackerProofs.

(* a concrete run: the hypotheses of the theorems are satisfiable *)

Definition example_cfg : config := fluentd_config 2 2 100 [116; 97; 103]%N.   (* CompressedPackedForward, 2 records, 100 bytes, tag "tag" *)

Definition example_ops : list (op bytes) :=
  [ OWrite 1700000000000000001 [1; 2; 3]%N;
    OWrite 1700000000000000001 [4; 5]%N;
    OWrite 1700000000000000001 [6]%N;         (* third record: rolls over (record limit 2), same clock reading *)
    OFlush;
    OFlush;                                   (* nothing buffered: no chunk *)
    OWrite 1700000000000000002 [7]%N ].

Definition blen (s : bytes) : Z := Z.of_nat (length s).

Lemma example_run :
  nondecreasing 0 (nows_of example_ops) /\
  Forall (fun t => t < 10 ^ 19) (nows_of example_ops) /\
  Z.of_nat (length example_ops) < 10 ^ 8 /\
  let (st', em) := run bytes blen example_cfg pstate_init example_ops in
  map e_records em = [ [[1; 2; 3]; [4; 5]]; [[6]] ]%N /\
  map e_size em = [2; 1] /\
  map e_id em = [ [49;55;48;48;48;48;48;48;48;48;48;48;48;48;48;48;48;48;49;45;48;48;48;48;48;48;48;48;46;102;102];
                  [49;55;48;48;48;48;48;48;48;48;48;48;48;48;48;48;48;48;49;45;48;48;48;48;48;48;48;49;46;102;102] ]%N /\
  cur_records st' = [[7]]%N.
Proof.
  split; [|split; [|split]].
  - cbn [example_ops nows_of nondecreasing]. repeat split; discriminate.
  - repeat constructor.
  - reflexivity.
  - vm_compute. repeat split; reflexivity.
Qed.
