(* C06 - tag templates: expansion never panics for templates accepted by NewTagBuilder, substrings
   are Python slices, and a template that lists every key with a separator gives injective tags. *)
From SV Require Import Model.Common Model.Routing Spec.RoutingSpec Proofs.CommonFacts Proofs.MergedKeyProofs Proofs.QueueProofs
  Proofs.RoutingProofs.
From Coq Require Import Lia ZifyBool ZifyN ZifyNat.
Open Scope N_scope.

Lemma slice_ok : forall (v : bytes) a b, (a <= b)%nat -> (b <= length v)%nat -> slice v a b = Some (firstn (b - a) (skipn a v)).
Proof.
  intros v a b H1 H2. unfold slice.
  replace (Nat.leb a b && Nat.leb b (length v))%bool with true; [reflexivity|].
  symmetry. apply andb_true_iff. split; apply Nat.leb_le; assumption.
Qed.

Lemma sub_nil : forall (v : bytes) a n, (n = 0 \/ length v <= a)%nat -> firstn n (skipn a v) = [].
Proof.
  intros v a n [->|H]; [reflexivity|]. rewrite skipn_all2 by exact H. apply firstn_nil.
Qed.

(* The closure normalises a negative bound once, by adding the length, as Python does; after that both it and
   clamp see the bounds only through the normalised values ns, ne.  An absent bound is the bound 0, resp.
   math.MaxInt32.  In particular the closure's own checks make the checked slice succeed. *)
Lemma go_substr_clamp : forall v s e, let len := Z.of_nat (length v) in
  let s' := match s with Some x => x | None => 0%Z end in
  let e' := match e with Some x => x | None => 2147483647%Z end in
  go_substr v s e = Ok (firstn (Z.to_nat (clamp len e' - clamp len s')) (skipn (Z.to_nat (clamp len s')) v)).
Proof.
  intros v s e len s' e'. unfold go_substr, clamp. fold len s' e'. cbv zeta.
  generalize (if (s' <? 0)%Z then (s' + len)%Z else s') as ns, (if (e' <? 0)%Z then (e' + len)%Z else e') as ne.
  intros ns ne. assert (Hlen : (0 <= len)%Z) by apply Nat2Z.is_nonneg.
  replace (if (ns <? 0)%Z then 0%Z else ns) with (Z.max 0 ns) by (destruct (Z.ltb_spec ns 0); lia).
  replace (if (ne >? len)%Z then len else ne) with (Z.min len ne)
    by (rewrite Z.gtb_ltb; destruct (Z.ltb_spec len ne); lia).
  destruct (Z.geb_spec (Z.max 0 ns) len); [f_equal; symmetry; apply sub_nil; right; unfold len in *; lia|].
  destruct (Z.ltb_spec ne 0); [f_equal; symmetry; apply sub_nil; left; lia|].
  destruct (Z.ltb_spec (Z.max 0 ns) (Z.min len ne)).
  - rewrite slice_ok by (unfold len in *; lia). rewrite (Z.max_r 0 (Z.min len ne)), (Z.min_r len ns) by lia.
    rewrite Z2Nat.inj_sub by lia. reflexivity.
  - f_equal. symmetry. apply sub_nil. left. lia.
Qed.

(* the closure computes the Python slice (strings shorter than 2^31, the default end being math.MaxInt32) *)
Lemma go_substr_is_slice : forall v s e, (Z.of_nat (length v) <= 2147483647)%Z ->
  go_substr v s e = Ok (ref_slice v s e).
Proof.
  intros v s e Hlen. rewrite go_substr_clamp. unfold ref_slice.
  assert (H0 : clamp (Z.of_nat (length v)) 0 = 0%Z) by (unfold clamp; cbn; lia).
  assert (Hm : clamp (Z.of_nat (length v)) 2147483647 = Z.of_nat (length v)) by (unfold clamp; cbn; lia).
  destruct s, e; cbv zeta; rewrite ?H0, ?Hm; reflexivity.
Qed.

(* templates accepted by NewTagBuilder only refer to existing keys *)

Definition part_wf (n : nat) (p : tpart) : Prop :=
  match p with TLit _ => True | TVar i => (i < n)%nat | TSub i _ _ => (i < n)%nat end.

Lemma index_of_lt : forall name names i, index_of name names = Some i -> (i < length names)%nat.
Proof.
  induction names as [|x names IH]; intros i H; cbn [index_of] in H; [discriminate|].
  destruct (bytes_eqb name x).
  - inversion H. cbn. lia.
  - destruct (index_of name names) as [j|]; cbn in H; [|discriminate]. inversion H. specialize (IH j eq_refl). cbn. lia.
Qed.

Lemma resolve_parts_wf : forall names ps parts, resolve_parts names ps = Some parts -> Forall (part_wf (length names)) parts.
Proof.
  induction ps as [|p ps IH]; intros parts H; cbn [resolve_parts] in H.
  - inversion H. constructor.
  - destruct p as [s|name|vexpr].
    + destruct (resolve_parts names ps) as [xs|]; [|discriminate]. inversion H. constructor; [exact I|apply IH; reflexivity].
    + destruct (index_of name names) as [i|] eqn:Hi; cbn in H; [|discriminate].
      destruct (resolve_parts names ps) as [xs|]; [|discriminate]. inversion H.
      constructor; [exact (index_of_lt _ _ _ Hi)|apply IH; reflexivity].
    + destruct (parse_vexpr vexpr) as [[[name s] e]|]; [|discriminate].
      destruct (index_of name names) as [i|] eqn:Hi; cbn in H; [|discriminate].
      destruct (resolve_parts names ps) as [xs|]; [|discriminate]. inversion H.
      constructor; [exact (index_of_lt _ _ _ Hi)|apply IH; reflexivity].
Qed.

Lemma parse_template_wf : forall names t parts, parse_template names t = Some parts -> Forall (part_wf (length names)) parts.
Proof.
  intros names t parts H. unfold parse_template in H.
  destruct (has_dollar_dollar t); [discriminate|].
  destruct (scan_parts (S (length t)) t) as [ps sk].
  destruct (resolve_parts names ps) as [parts'|] eqn:Hr; [|discriminate].
  destruct sk; [discriminate|]. inversion H; subst. eapply resolve_parts_wf. exact Hr.
Qed.

Lemma expand_part_ok : forall n keys p, part_wf n p -> length keys = n -> exists x, expand_part keys p = Ok x.
Proof.
  intros n keys p Hp Hl. destruct p as [s|i|i s e]; cbn [expand_part part_wf] in *.
  - eauto.
  - unfold key_at. destruct (nth_error keys i) eqn:E; [eauto|]. apply nth_error_None in E. lia.
  - unfold key_at. destruct (nth_error keys i) as [k|] eqn:E; [|apply nth_error_None in E; lia].
    cbn [obind]. rewrite go_substr_clamp. eauto.
Qed.

Lemma expand_parts_ok : forall n keys ps buf, Forall (part_wf n) ps -> length keys = n -> exists x, expand_parts keys ps buf = Ok x.
Proof.
  induction ps as [|p ps IH]; intros buf Hall Hl; cbn [expand_parts]; [eauto|].
  inversion Hall as [|? ? Hp Hps]; subst. destruct (expand_part_ok _ _ _ Hp eq_refl) as [x Hx]. rewrite Hx. cbn [obind]. apply IH; auto.
Qed.

Lemma build_tag_ok : forall n keys parts, Forall (part_wf n) parts -> length keys = n -> exists tag, build_tag parts keys = Ok tag.
Proof.
  intros n keys parts Hall Hl. unfold build_tag. destruct parts as [|p [|q r]].
  - cbn. eauto.
  - inversion Hall as [|? ? Hp Hps]; subst. eapply expand_part_ok; eauto.
  - eapply expand_parts_ok; eauto.
Qed.

Lemma local_goc_total : forall n parts g lm ks, Forall (part_wf n) parts -> length ks = n ->
  exists r, local_get_or_create parts g lm ks = Ok r.
Proof.
  intros n parts g lm ks Hwf Hl. unfold local_get_or_create. destruct (lookup (merged_key ks) lm); [eauto|].
  unfold global_get_or_create. destruct (lookup (merged_key ks) (g_map g)); [cbn; eauto|].
  unfold new_pipeline. destruct (build_tag_ok _ _ _ Hwf Hl) as [tag Ht]. rewrite Ht. cbn. eauto.
Qed.

Lemma run_ops_total : forall n parts ops g lms, Forall (part_wf n) parts -> Forall (fun o => length (snd o) = n) ops ->
  exists r, run_ops parts g lms ops = Ok r.
Proof.
  induction ops as [|[si ks] ops IH]; intros g lms Hwf Hall; cbn [run_ops]; [eauto|].
  inversion Hall as [|? ? Hk Hrest]; subst. cbn [snd] in *. unfold step.
  destruct (local_goc_total _ _ g (nth si lms []) ks Hwf eq_refl) as [[[g1 lm1] i1] H1]. rewrite H1. cbn [obind].
  destruct (IH g1 (set_nth lms si lm1) Hwf Hrest) as [[[g2 lms2] is2] H2']. rewrite H2'. cbn. eauto.
Qed.

(* no input crashes the orchestrator: any template accepted by NewTagBuilder, any initial ids, any
   sequence of records of the configured arity *)
Lemma orchestrator_total_lemma : forall names t parts ids nsinks ops,
  parse_template names t = Some parts ->
  Forall (fun o => length (snd o) = length names) ops ->
  exists g0 g lms is, orch_init parts (length names) ids = Ok g0 /\ run_ops parts g0 (repeat [] nsinks) ops = Ok (g, lms, is).
Proof.
  intros names t parts ids nsinks ops Hp Hall. apply parse_template_wf in Hp.
  (* NewOrchestrator is a run over the tuples recovered from the ids, which have the configured arity *)
  assert (Hrec : Forall (fun o => length (snd o) = length names) (recovered (length names) ids)).
  { apply Forall_forall. intros o Ho. apply In_recovered in Ho. destruct Ho as [_ [id [_ Hr]]]. exact (recover_keys_length _ _ _ Hr). }
  unfold orch_init. rewrite init_ids_run.
  destruct (run_ops_total _ _ _ g_init [([] : amap)] Hp Hrec) as [[[g0 lms0] is0] H0]. rewrite H0. cbn [obind].
  destruct (run_ops_total _ _ ops g0 (repeat [] nsinks) Hp Hall) as [[[g lms] is] H1].
  exists g0, g, lms, is. auto.
Qed.

(* a template naming every key, separated by a byte that no key contains *)

Fixpoint sep_parts_from (sep : N) (i n : nat) : list tpart :=
  match n with
  | O => []
  | S m => match m with O => [TVar i] | S _ => TVar i :: TLit [sep] :: sep_parts_from sep (S i) m end
  end.

(* the parts from position (length pre) on expand to the keys from there on, joined *)
Lemma expand_sep_parts : forall sep ks pre buf,
  expand_parts (pre ++ ks) (sep_parts_from sep (length pre) (length ks)) buf = Ok (buf ++ join sep ks).
Proof.
  induction ks as [|k ks IH]; intros pre buf; [cbn; rewrite app_nil_r; reflexivity|].
  assert (Hk : key_at (pre ++ k :: ks) (length pre) = Ok k).
  { unfold key_at. rewrite nth_error_app2, Nat.sub_diag by lia. reflexivity. }
  destruct ks as [|k2 ks].
  - cbn [length sep_parts_from expand_parts expand_part join]. rewrite Hk. reflexivity.
  - change (sep_parts_from sep (length pre) (length (k :: k2 :: ks)))
      with (TVar (length pre) :: TLit [sep] :: sep_parts_from sep (S (length pre)) (length (k2 :: ks))).
    cbn [expand_parts expand_part]. rewrite Hk. cbn [obind].
    replace (pre ++ k :: k2 :: ks) with ((pre ++ [k]) ++ k2 :: ks) by (rewrite <- app_assoc; reflexivity).
    replace (S (length pre)) with (length (pre ++ [k])) by (rewrite app_length; cbn; lia).
    rewrite IH. change (join sep (k :: k2 :: ks)) with (k ++ sep :: join sep (k2 :: ks)). rewrite <- !app_assoc. reflexivity.
Qed.

Lemma build_tag_sep_template : forall sep keys, build_tag (sep_parts_from sep 0 (length keys)) keys = Ok (join sep keys).
Proof.
  intros sep keys. destruct keys as [|k [|k2 ks]]; [reflexivity..|].
  exact (expand_sep_parts sep (k :: k2 :: ks) [] []).
Qed.

(* such a template gives different tags to different key tuples *)
Lemma tag_injective_sep_template : forall sep ks ks' tag,
  ks <> [] -> length ks = length ks' ->
  Forall (no_sep sep) ks -> Forall (no_sep sep) ks' ->
  build_tag (sep_parts_from sep 0 (length ks)) ks = Ok tag ->
  build_tag (sep_parts_from sep 0 (length ks)) ks' = Ok tag -> ks = ks'.
Proof.
  intros sep ks ks' tag Hne Hlen H1 H2 T1 T2.
  assert (Hne' : ks' <> []) by (intros ->; destruct ks; [contradiction|discriminate]).
  rewrite build_tag_sep_template in T1. rewrite Hlen, build_tag_sep_template in T2.
  inversion T1 as [E1]. inversion T2 as [E2].
  rewrite <- (split_on_join sep ks Hne H1), <- (split_on_join sep ks' Hne' H2), E1, E2. reflexivity.
Qed.
