(* C02 - the wire format of the acknowledgement (Model/AckParse.v): the ACK a Fluentd sends, {"ack": id}, is read back
   as exactly that id by the model of the wrapper, for every id shorter than 2^32 bytes and whatever follows it
   ([ack_roundtrip_lemma], from [dec_string_header], [dec_key_ack], [struct_map_one]). *)
From SV Require Import Model.Common Model.AckParse Proofs.CommonFacts.
From Coq Require Import Lia ZifyBool.

Lemma read_n_app : forall (a b : bytes), read_n (N.of_nat (length a)) (a ++ b) = Some (a, b).
Proof.
  intros a b. unfold read_n. rewrite app_length.
  destruct (N.leb_spec (N.of_nat (length a)) (N.of_nat (length a + length b))); [|lia].
  rewrite Nat2N.id. rewrite firstn_app, Nat.sub_diag, firstn_all. simpl. rewrite app_nil_r.
  rewrite skipn_app, Nat.sub_diag, skipn_all. reflexivity.
Qed.

Lemma dec_string_header : forall (s rest : bytes),
  (N.of_nat (length s) < 4294967296)%N ->
  dec_string (str_header (N.of_nat (length s)) ++ s ++ rest) = Some (s, rest).
Proof.
  intros s rest Hlen. set (n := N.of_nat (length s)) in *.
  assert (Hempty : n = 0%N -> s = []) by (intro H; destruct s; [reflexivity|subst n; simpl in H; lia]).
  unfold str_header.
  destruct (N.ltb_spec n 32).
  - unfold dec_string. cbn [app rd_code]. unfold bytes_len.
    replace (160 + n =? 192)%N with false by lia.
    replace ((160 <=? 160 + n) && (160 + n <=? 191))%N with true by lia.
    replace (160 + n - 160)%N with n by lia.
    destruct (N.eqb_spec n 0); [rewrite (Hempty e); reflexivity|]. apply read_n_app.
  - (* the three wider headers (str8, str16, str32) are read back in the same way *)
    destruct (N.ltb_spec n 256); [|destruct (N.ltb_spec n 65536)].
    all: unfold dec_string; cbn [app rd_code]; unfold bytes_len; cbn.
    all: try match goal with |- (if (?e =? 0)%N then _ else _) = _ => replace e with n by lia end.
    all: destruct (N.eqb_spec n 0); [lia|]; apply read_n_app.
Qed.

Lemma dec_key_ack : forall X : bytes, dec_string (163 :: 97 :: 99 :: 107 :: X) = Some ([97; 99; 107]%N, X).
Proof.
  intros X. unfold dec_string. cbn [rd_code].
  replace (bytes_len 163 (97 :: 99 :: 107 :: X)) with (LLen 3 (97 :: 99 :: 107 :: X)) by reflexivity.
  replace (3 =? 0)%N with false by reflexivity.
  unfold read_n. cbn [length].
  destruct (N.leb_spec 3 (N.of_nat (S (S (S (length X)))))); [reflexivity|lia].
Qed.

Lemma struct_map_one : forall fuel k (v r X : bytes),
  dec_string X = Some (v, r) -> struct_map fuel (S k) 1 [] (163 :: 97 :: 99 :: 107 :: X) = PAck v r.
Proof.
  intros fuel k v r X H. cbn [struct_map].
  replace (1 =? 0)%N with false by reflexivity.
  rewrite dec_key_ack. replace (bytes_eqb [97; 99; 107] key_ack) with true by reflexivity.
  rewrite H. replace (1 - 1)%N with 0%N by reflexivity.
  destruct k; reflexivity.
Qed.

Lemma ack_roundtrip_lemma : forall (id rest : bytes),
  (N.of_nat (length id) < 4294967296)%N -> parse_ack (encode_ack id ++ rest) = PAck id rest.
Proof.
  intros id rest Hlen.
  assert (E : encode_ack id ++ rest =
              129 :: 163 :: 97 :: 99 :: 107 :: (str_header (N.of_nat (length id)) ++ id ++ rest)).
  { unfold encode_ack, key_ack. simpl. rewrite <- app_assoc. reflexivity. }
  rewrite E. unfold parse_ack. cbn [rd_code].
  replace (map_len 129 (163 :: 97 :: 99 :: 107 :: str_header (N.of_nat (length id)) ++ id ++ rest))
    with (LLen 1 (163 :: 97 :: 99 :: 107 :: str_header (N.of_nat (length id)) ++ id ++ rest)) by reflexivity.
  apply struct_map_one. apply dec_string_header. exact Hlen.
Qed.

(* tests (on literals): responses without an "ack" field are read as the empty id *)
Example ack_empty_map : parse_ack [128] = PAck [] [].
Proof. reflexivity. Qed.
Example ack_nil : parse_ack [192] = PAck [] [].
Proof. reflexivity. Qed.
Example ack_other_key : parse_ack [129; 161; 120; 161; 121] = PAck [] [].
Proof. reflexivity. Qed.
Example ack_not_msgpack : parse_ack [193] = PErr.
Proof. reflexivity. Qed.
