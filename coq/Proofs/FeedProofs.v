(* C11, added after the trial change seeded/C11/8 had gone unreported (DESIGN.md 11.6): how intermediateChunk.Write
   feeds the chunk's sink.
   The sink (gzip writer / write buffer) receives the records in write order - for the real mechanism
   (FeedDirect), for a batch buffer that is handed over before a large record bypasses it, and for ANY
   staging as long as no record reaches the bypass; the variant that bypasses without handing over is refuted. *)
From SV Require Import Model.Common Model.ChunkId Model.Packer.
From Coq Require Import Lia ZifyBool ZifyN ZifyNat.
Open Scope Z_scope.

Section FeedFacts.
Variable R : Type.
Variable rlen : R -> Z.

(* the records a Write may see without the mechanism [m] taking the unsafe bypass *)
Definition bypass_safe (m : feed_mode) (r : R) : Prop :=
  match m with
  | FeedDirect => True
  | FeedStaged cap flush_first => flush_first = true \/ rlen r < cap
  end.

(* invariant: sink ++ pending = everything written so far, in write order; nothing ever waits in direct mode *)
Definition feed_seen (f : feed R) : list R := fd_sink R f ++ fd_pending R f.

Definition feed_wf (m : feed_mode) (f : feed R) : Prop :=
  match m with FeedDirect => fd_pending R f = [] | FeedStaged _ _ => True end.

Lemma feed_write_inv : forall m f r,
  bypass_safe m r -> feed_wf m f ->
  feed_wf m (feed_write R rlen m f r) /\ feed_seen (feed_write R rlen m f r) = feed_seen f ++ [r].
Proof.
  intros m f r Hsafe Hwf. destruct m as [|cap fb]; cbn [feed_write feed_wf] in *.
  - unfold feed_seen, feed_sink_write. cbn. rewrite Hwf. rewrite !app_nil_r. split; reflexivity.
  - split; [exact I|].
    destruct (rlen r >=? cap) eqn:Hbig.
    + destruct Hsafe as [Hfb | Hsmall]; [|lia].
      subst fb. unfold feed_seen, feed_sink_write, feed_flush. cbn. now rewrite !app_nil_r.
    + destruct (fd_pending_len R f + rlen r >? cap); unfold feed_seen, feed_flush; cbn; now rewrite <- !app_assoc.
Qed.

Lemma feed_run_inv : forall m rs f,
  Forall (bypass_safe m) rs -> feed_wf m f ->
  feed_seen (feed_run R rlen m f rs) = feed_seen f ++ rs.
Proof.
  intros m rs. induction rs as [|r rs IH]; intros f Hall Hwf; cbn [feed_run].
  - now rewrite app_nil_r.
  - inversion Hall as [|? ? Hr Hrs]; subst.
    destruct (feed_write_inv m f r Hr Hwf) as [Hwf' Hseen'].
    rewrite (IH _ Hrs Hwf'), Hseen', <- app_assoc. reflexivity.
Qed.

(* the sink holds exactly the written records, in write order, when the chunk is finalized *)
Lemma feed_all_in_order : forall m rs,
  Forall (bypass_safe m) rs -> feed_all R rlen m rs = rs.
Proof.
  intros m rs Hall. change (feed_seen (feed_run R rlen m (feed_init R) rs) = rs).
  rewrite (feed_run_inv m rs (feed_init R) Hall); [reflexivity|destruct m; cbn; auto].
Qed.

(* the real mechanism: every record, of every length *)
Lemma feed_direct_in_order : forall rs, feed_all R rlen FeedDirect rs = rs.
Proof.
  intros rs. apply feed_all_in_order. apply Forall_forall. intros; exact I.
Qed.

(* a batch buffer of any capacity is fine if it is handed over before a large record goes past it *)
Lemma feed_staged_flush_first_in_order : forall cap rs, feed_all R rlen (FeedStaged cap true) rs = rs.
Proof.
  intros cap rs. apply feed_all_in_order. apply Forall_forall. intros; left; reflexivity.
Qed.

(* ... and even the unsafe variant is invisible as long as every record is shorter than the buffer *)
Lemma feed_bypass_invisible_below_cap : forall cap rs,
  Forall (fun r => rlen r < cap) rs -> feed_all R rlen (FeedStaged cap false) rs = rs.
Proof.
  intros cap rs Hall. apply feed_all_in_order.
  eapply Forall_impl; [|exact Hall]. intros r Hr. right. exact Hr.
Qed.

(* on bytes, compressed path: decompress(payload) is what the sink received, the records' bytes in write order *)
Lemma feed_payload_is_concat : forall (rbytes : R -> bytes) (gz gunz : bytes -> bytes),
  (forall b, gunz (gz b) = b) ->
  forall rs : list R,
  gunz (gz (concat (map rbytes (feed_all R rlen FeedDirect rs)))) = concat (map rbytes rs).
Proof. intros rbytes gz gunz Hrt rs. rewrite Hrt, feed_direct_in_order. reflexivity. Qed.

End FeedFacts.

(* the seeded variant: 64 KiB batch buffer, a record of >= 64 KiB bypasses it without handing it over first.
   Records of 10 and 65536 bytes (lengths stand for the records): the sink receives the large one first. *)
Lemma feed_bypass_variant_refuted :
  exists rs : list Z,
    Forall (fun r => 0 <= r) rs /\
    feed_all Z (fun n => n) (FeedStaged 65536 false) rs = rev rs /\
    feed_all Z (fun n => n) (FeedStaged 65536 false) rs <> rs.
Proof.
  exists [10; 65536]. split; [repeat constructor; lia|].
  split; [vm_compute; reflexivity|]. vm_compute. discriminate.
Qed.
