(* Unfolding equations of the mutually recursive functions of Model/Config.v on the constructors
   that carry nested steps (simpl/cbn cannot refold the calls to the other functions of a mutual
   block).  Every equation holds by computation; the tactics that apply them stand at the end. *)
From SV Require Import Model.Common Model.ConfigTemplate Model.ConfigExtractor Model.Config.
Open Scope Z_scope.

Lemma decodes_block : forall steps, transform_decodes (TBlock steps) = tlist_decodes steps.
Proof. reflexivity. Qed.
Lemma decodes_if : forall m then_, transform_decodes (TIf m then_) = matcher_decodes m && tlist_decodes then_.
Proof. reflexivity. Qed.
Lemma decodes_switch : forall cases, transform_decodes (TSwitch cases) = clist_decodes cases.
Proof. reflexivity. Qed.
Lemma decodes_tcons : forall t ts, tlist_decodes (TCons t ts) = transform_decodes t && tlist_decodes ts.
Proof. reflexivity. Qed.
Lemma decodes_ccons : forall m then_ cs, clist_decodes (CCons m then_ cs) = matcher_decodes m && tlist_decodes then_ && clist_decodes cs.
Proof. reflexivity. Qed.

Lemma verify_t_block : forall q sch steps, verify_t q sch (TBlock steps) =
  (let* _ := check (match steps with TNil => false | _ => true end) err_empty in verify_tl q sch steps).
Proof. reflexivity. Qed.
Lemma verify_t_if : forall q sch m then_, verify_t q sch (TIf m then_) =
  (let* _ := verify_match sch m in
   let* _ := check (match then_ with TNil => false | _ => true end) err_empty in
   verify_tl q sch then_).
Proof. reflexivity. Qed.
Lemma verify_t_switch : forall q sch cases, verify_t q sch (TSwitch cases) =
  (let* _ := check (match cases with CNil => false | _ => true end) err_empty in verify_cl q sch cases).
Proof. reflexivity. Qed.
Lemma verify_tl_cons : forall q sch t ts, verify_tl q sch (TCons t ts) = (let* _ := verify_t q sch t in verify_tl q sch ts).
Proof. reflexivity. Qed.
Lemma verify_cl_cons : forall q sch m then_ cs, verify_cl q sch (CCons m then_ cs) =
  (let* _ := verify_match sch m in
   let* _ := check (match then_ with TNil => false | _ => true end) err_empty in
   let* _ := verify_tl q sch then_ in
   verify_cl q sch cs).
Proof. reflexivity. Qed.

Lemma construct_t_block : forall q sch reg steps, construct_t q sch reg (TBlock steps) =
  (let* (s, reg') := construct_tl q sch reg steps in Ok (RBlock s, reg')).
Proof. reflexivity. Qed.
Lemma construct_t_if : forall q sch reg m then_, construct_t q sch reg (TIf m then_) =
  (let* rm := construct_matcher sch m in
   let* (s, reg') := construct_tl q sch reg then_ in
   Ok (RIf rm s, reg')).
Proof. reflexivity. Qed.
Lemma construct_t_switch : forall q sch reg cases, construct_t q sch reg (TSwitch cases) =
  (let* (cs, reg') := construct_cl q sch reg cases in Ok (RSwitch cs, reg')).
Proof. reflexivity. Qed.
Lemma construct_tl_cons : forall q sch reg t ts, construct_tl q sch reg (TCons t ts) =
  (let* (rt, reg1) := construct_t q sch reg t in
   let* (rts, reg2) := construct_tl q sch reg1 ts in
   Ok (RTCons rt rts, reg2)).
Proof. reflexivity. Qed.
Lemma construct_cl_cons : forall q sch reg m then_ cs, construct_cl q sch reg (CCons m then_ cs) =
  (let* rm := construct_matcher sch m in
   let* (s, reg1) := construct_tl q sch reg then_ in
   let* (rcs, reg2) := construct_cl q sch reg1 cs in
   Ok (RCCons rm s rcs, reg2)).
Proof. reflexivity. Qed.

Lemma rt_safe_block : forall nf nc steps, rt_safe nf nc (RBlock steps) = rtl_safe nf nc steps.
Proof. reflexivity. Qed.
Lemma rt_safe_if : forall nf nc m then_, rt_safe nf nc (RIf m then_) = matcher_safe nf m && rtl_safe nf nc then_.
Proof. reflexivity. Qed.
Lemma rt_safe_switch : forall nf nc cases, rt_safe nf nc (RSwitch cases) = rcl_safe nf nc cases.
Proof. reflexivity. Qed.
Lemma rtl_safe_cons : forall nf nc t ts, rtl_safe nf nc (RTCons t ts) = rt_safe nf nc t && rtl_safe nf nc ts.
Proof. reflexivity. Qed.
Lemma rcl_safe_cons : forall nf nc m then_ cs, rcl_safe nf nc (RCCons m then_ cs) =
  matcher_safe nf m && rtl_safe nf nc then_ && rcl_safe nf nc cs.
Proof. reflexivity. Qed.

Lemma run_t_block : forall x nc steps f, run_t x nc (RBlock steps) f = run_tl x nc steps f.
Proof. reflexivity. Qed.
Lemma run_t_if : forall x nc m then_ f, run_t x nc (RIf m then_) f =
  (let* matched := run_matcher x m f in if matched then run_tl x nc then_ f else Ok (f, true)).
Proof. reflexivity. Qed.
Lemma run_t_switch : forall x nc cases f, run_t x nc (RSwitch cases) f = run_cl x nc cases f.
Proof. reflexivity. Qed.
Lemma run_tl_cons : forall x nc t ts f, run_tl x nc (RTCons t ts) f =
  (let* (f', pass) := run_t x nc t f in if pass then run_tl x nc ts f' else Ok (f', false)).
Proof. reflexivity. Qed.
Lemma run_cl_cons : forall x nc m then_ cs f, run_cl x nc (RCCons m then_ cs) f =
  (let* matched := run_matcher x m f in if matched then run_tl x nc then_ f else run_cl x nc cs f).
Proof. reflexivity. Qed.

Lemma refs_t_block : forall sch steps, refs_t sch (TBlock steps) = RefNonEmpty 3 (tl_empty steps) :: refs_tl sch steps.
Proof. reflexivity. Qed.
Lemma refs_t_if : forall sch m then_, refs_t sch (TIf m then_) =
  refs_matcher m ++ RefNonEmpty 7 (tl_empty then_) :: refs_tl sch then_.
Proof. reflexivity. Qed.
Lemma refs_t_switch : forall sch cases, refs_t sch (TSwitch cases) =
  RefNonEmpty 12 (match cases with CNil => true | _ => false end) :: refs_cl sch cases.
Proof. reflexivity. Qed.
Lemma refs_tl_cons : forall sch t ts, refs_tl sch (TCons t ts) = refs_t sch t ++ refs_tl sch ts.
Proof. reflexivity. Qed.
Lemma refs_cl_cons : forall sch m then_ cs, refs_cl sch (CCons m then_ cs) =
  refs_matcher m ++ RefNonEmpty 14 (tl_empty then_) :: refs_tl sch then_ ++ refs_cl sch cs.
Proof. reflexivity. Qed.

(* One tactic per family of functions: rewrite with its equations where such a constructor shows, then cbn that
   family alone, which leaves every call folded.  veq (for verify_t ..) and deq (transform_decodes ..) work in a
   hypothesis; ceq (construct_t ..), req (run_t ..) and feq (refs_t ..) in the goal; seq and seq_in (rt_safe ..)
   in the goal and in a hypothesis. *)
Ltac veq H := rewrite ?verify_t_block, ?verify_t_if, ?verify_t_switch, ?verify_tl_cons, ?verify_cl_cons in H;
              cbn [verify_t verify_tl verify_cl] in H.
Ltac deq H := rewrite ?decodes_block, ?decodes_if, ?decodes_switch, ?decodes_tcons, ?decodes_ccons in H;
              cbn [transform_decodes tlist_decodes clist_decodes] in H.
Ltac ceq := rewrite ?construct_t_block, ?construct_t_if, ?construct_t_switch, ?construct_tl_cons, ?construct_cl_cons;
            cbn [construct_t construct_tl construct_cl].
Ltac seq := cbn [fst snd]; rewrite ?rt_safe_block, ?rt_safe_if, ?rt_safe_switch, ?rtl_safe_cons, ?rcl_safe_cons;
            cbn [rt_safe rtl_safe rcl_safe].
Ltac seq_in H := cbn [fst snd] in H; rewrite ?rt_safe_block, ?rt_safe_if, ?rt_safe_switch, ?rtl_safe_cons, ?rcl_safe_cons in H;
            cbn [rt_safe rtl_safe rcl_safe] in H.
Ltac req := rewrite ?run_t_block, ?run_t_if, ?run_t_switch, ?run_tl_cons, ?run_cl_cons; cbn [run_t run_tl run_cl].
Ltac feq := rewrite ?refs_t_block, ?refs_t_if, ?refs_t_switch, ?refs_tl_cons, ?refs_cl_cons; cbn [refs_t refs_tl refs_cl].
