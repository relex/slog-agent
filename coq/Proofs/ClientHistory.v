(* C02 — the history variables of the client model are exactly what the run says happened. *)
From SV Require Import Model.Common Model.Client Spec.ClientSpec Proofs.ClientBase Proofs.ClientSafety.
From Coq Require Import Lia Permutation.

Lemma last_take_app : forall a b acc, last_take acc (a ++ b) = last_take (last_take acc a) b.
Proof. induction a as [|e a IH]; intros; simpl; [reflexivity|]. destruct e; apply IH. Qed.

(* each projection of a run distributes over concatenation *)
Lemma projections_app : forall a b,
  offered_of (a ++ b) = offered_of a ++ offered_of b /\
  taken_of (a ++ b) = taken_of a ++ taken_of b /\
  consumed_of (a ++ b) = consumed_of a ++ consumed_of b /\
  handed_of (a ++ b) = handed_of a ++ handed_of b /\
  sent_of (a ++ b) = sent_of a ++ sent_of b.
Proof.
  intros a b. induction a as [|e a (I1 & I2 & I3 & I4 & I5)].
  - repeat split; reflexivity.
  - repeat split; destruct e; try destruct r; simpl; congruence.
Qed.

Lemma finished_in_snoc : forall tr e, finished_in (tr ++ [e]) = finished_in tr || match e with EFinished => true | _ => false end.
Proof. intros. unfold finished_in. rewrite existsb_app. simpl. rewrite orb_false_r. reflexivity. Qed.

Record hist (tr : list event) (s : state) : Prop := {
  hs_offered : h_offered s = rev (offered_of tr);
  hs_taken : h_taken s = rev (taken_of tr);
  hs_consumed : h_consumed s = rev (consumed_of tr);
  hs_handed : h_handed s = rev (handed_of tr);
  hs_sent : h_sent s = rev (sent_of tr);
  hs_finished : h_finished s = finished_in tr;
  hs_acks : forall k a nx, In (k, a, nx) (h_acks s) ->
            exists p1 p2, tr = p1 ++ EAckRet k a :: p2 /\ last_take None p1 = Some nx;
  hs_next : forall ss nx, cur s = Some ss -> s_apc ss = AReading nx -> last_take None tr = Some nx
}.

Lemma last_take_snoc : forall tr e,
  last_take None (tr ++ [e]) = match e with EAckerTake c => Some c | _ => last_take None tr end.
Proof. intros. rewrite last_take_app. destruct e; reflexivity. Qed.

Lemma acks_ext : forall (tr : list event) e k a nx,
  (exists p1 p2, tr = p1 ++ EAckRet k a :: p2 /\ last_take None p1 = Some nx) ->
  exists p1 p2, tr ++ [e] = p1 ++ EAckRet k a :: p2 /\ last_take None p1 = Some nx.
Proof.
  intros tr e k a nx (p1 & p2 & -> & H1). exists p1, (p2 ++ [e]). rewrite <- app_assoc. simpl. auto.
Qed.

Lemma hist_reach : forall P tr s, reach_by P tr s -> hist tr s.
Proof.
  intros P. apply reach_by_ind.
  - constructor; simpl; intros; try reflexivity; try contradiction; discriminate.
  - intros tr s e s' _ [Ho Ht Hc Hh Hs Hf Ha Hn] Hst.
    destruct (projections_app tr [e]) as (E1 & E2 & E3 & E4 & E5).
    destruct Hst;
      (constructor;
       [ rewrite E1 | rewrite E2 | rewrite E3 | rewrite E4 | rewrite E5 | rewrite finished_in_snoc | | rewrite last_take_snoc ]);
      simpl; rewrite ?rev_app_distr, ?app_nil_r, ?orb_false_r; simpl; try assumption.
    all: try congruence.
    all: try solve [intros; apply acks_ext; eauto].
    all: try solve [intros ? ? ? [[= <- <- <-]|Hin]; [|apply acks_ext; eauto];
                    exists tr, []; split; [reflexivity|eauto]].
    all: try solve [intros ? ? [= <-]; st_simpl; intros; try discriminate; eauto].
    + symmetry. apply orb_true_r.
    + intros ? ? [= <-]. st_simpl. congruence.
Qed.

(* the observable events of a run *)
Definition obs_of (tr : list event) : list event := filter is_obs tr.

