(* Model/RewriterMem.v: a long-lived rewriter chain instance over a history of records whose fields alias a recycled
   buffer.
   - [history_own_values]: an instance whose inline nodes keep nothing (Direct = rinline.go) or only OWNED copies
     (CacheByValue) answers every call of every history exactly as the stateless value-level model does on the
     values the record has at that moment;
   - [history_spec]: hence, for a verified chain, every call returns rewrite_max / writes rewrite_spec of ITS record;
   - [cache_by_ref_refuted]: an instance that keeps the field string itself (a reference into the buffer) does not. *)
From SV Require Import Model.Common Model.Msgpack Model.Unescape Model.Serializer Model.RewriterMem
     Spec.MsgpackSpec Spec.SerializerSpec Proofs.CommonFacts Proofs.MsgpackProofs Proofs.SerializerProofs.
From Coq Require Import Lia ZifyBool ZifyN ZifyNat.
Ltac Zify.zify_post_hook ::= Z.div_mod_to_equations.
Open Scope N_scope.

Lemma blit_nil : forall dst, blit dst [] = (dst, O).
Proof. destruct dst; reflexivity. Qed.

(* copy of a concatenation = the copies of its parts, one behind the other *)
Lemma blit_app : forall a b dst,
  blit dst (a ++ b) =
  let (d1, e1) := blit dst a in
  match copy_at_opt d1 e1 b with Some (d2, e2) => (d2, (e1 + e2)%nat) | None => (d1, e1) end.
Proof.
  induction a as [|x a IH]; intros b dst.
  - cbn [app]. rewrite blit_nil. cbn [copy_at_opt]. destruct (blit dst b) as [d2 e2]. reflexivity.
  - destruct dst as [|h t].
    + cbn [app blit copy_at_opt]. destruct b; reflexivity.
    + cbn [app blit]. rewrite IH. destruct (blit t a) as [d1 e1]. cbn [copy_at_opt].
      destruct (copy_at_opt d1 e1 b) as [[d2 e2]|]; reflexivity.
Qed.

Lemma copy_at_opt_app : forall off a b buf,
  copy_at_opt buf off (a ++ b) =
  match copy_at_opt buf off a with
  | Some (d1, e1) =>
    match copy_at_opt d1 (off + e1) b with Some (d2, e2) => Some (d2, (e1 + e2)%nat) | None => Some (d1, e1) end
  | None => None
  end.
Proof.
  induction off as [|off IH]; intros a b buf.
  - cbn [copy_at_opt Nat.add]. rewrite blit_app. destruct (blit buf a) as [d1 e1].
    destruct (copy_at_opt d1 e1 b) as [[d2 e2]|]; reflexivity.
  - destruct buf as [|h t]; cbn [copy_at_opt]; [reflexivity|]. rewrite IH.
    destruct (copy_at_opt t off a) as [[d1 e1]|]; [|reflexivity].
    cbn [copy_at_opt Nat.add]. destruct (copy_at_opt d1 (off + e1) b) as [[d2 e2]|]; reflexivity.
Qed.

Lemma copy3 : forall dst a b c,
  exists d1 e1 d2 e2 d3 e3,
    copy_at dst 0 a = Ok (d1, e1) /\ copy_at d1 e1 b = Ok (d2, e2) /\ copy_at d2 (e1 + e2) c = Ok (d3, e3) /\
    copy_at dst 0 (a ++ b ++ c) = Ok (d3, (e1 + e2 + e3)%nat).
Proof.
  intros dst a b c. unfold copy_at.
  (* no copy starts behind the end: each position is within the buffer, whose length never changes *)
  pose proof (copy_at_opt_len 0 dst a) as C1. destruct (copy_at_opt dst 0 a) as [[d1 e1]|] eqn:E1; [|lia].
  pose proof (copy_at_opt_len e1 d1 b) as C2. destruct (copy_at_opt d1 e1 b) as [[d2 e2]|] eqn:E2; [|lia].
  pose proof (copy_at_opt_len (e1 + e2) d2 c) as C3. destruct (copy_at_opt d2 (e1 + e2) c) as [[d3 e3]|] eqn:E3; [|lia].
  exists d1, e1, d2, e2, d3, e3. rewrite E2, E3. repeat split; try reflexivity.
  rewrite copy_at_opt_app, E1. cbn [Nat.add]. rewrite copy_at_opt_app, E2, E3.
  rewrite Nat.add_assoc. reflexivity.
Qed.

(* instances that keep no reference into the buffer *)
Definition cache_wf (mode : inline_mode) (header : bytes) (st : option cache) : Prop :=
  match mode, st with
  | CacheByValue, Some c => k_prefix c = header ++ k_copy c ++ [32]
  | _, _ => True
  end.

Fixpoint wf (mode : inline_mode) (rw : rewriter_st) : Prop :=
  match rw with
  | SwInline h _ st nx => cache_wf mode h st /\ wf mode nx
  | _ => True
  end.

Lemma wf_instantiate : forall mode rw, wf mode (instantiate rw).
Proof. induction rw; cbn [instantiate wf]; auto. split; [destruct mode; exact I|assumption]. Qed.

Lemma erase_instantiate : forall rw, erase (instantiate rw) = rw.
Proof. induction rw; cbn [instantiate erase]; congruence. Qed.

Lemma prefix_of_own : forall mode st mem h r,
  mode <> CacheByRef -> cache_wf mode h st ->
  fst (prefix_of mode st mem h r) = h ++ deref mem r ++ [32] /\ cache_wf mode h (snd (prefix_of mode st mem h r)).
Proof.
  intros mode st mem h r Hm W. destruct mode; [| |contradiction].
  - cbn. split; [reflexivity|exact I].
  - unfold prefix_of. destruct st as [c|].
    + destruct (bytes_eqb (deref mem r) (k_copy c)) eqn:E.
      * apply bytes_eqb_eq in E. cbn [fst snd]. split; [|exact W]. cbn in W. rewrite W, E. reflexivity.
      * cbn. split; reflexivity.
    + cbn. split; reflexivity.
Qed.

Lemma get_ref_field : forall mem fields loc,
  get_field (map (deref mem) fields) loc =
  match get_ref fields loc with Ok r => Ok (deref mem r) | Err e => Err e | Panic s => Panic s end.
Proof.
  intros. unfold get_field, get_ref. rewrite nth_error_map. destruct (nth_error fields loc); reflexivity.
Qed.

Lemma obind_ok : forall A (o : outcome A), obind o (fun n => Ok n) = o.
Proof. destruct o; reflexivity. Qed.

Lemma max_st_sim : forall mode, mode <> CacheByRef -> forall value mem mr rw, wf mode rw ->
  fst (max_field_length_st mode rw value mem mr) = max_field_length (erase rw) value (load mem mr) /\
  wf mode (snd (max_field_length_st mode rw value mem mr)) /\
  erase (snd (max_field_length_st mode rw value mem mr)) = erase rw.
Proof.
  intros mode Hm value mem mr. induction rw as [| |h loc st nx IH]; intros W.
  - cbn. auto.
  - cbn. auto.
  - destruct W as [Wc Wn]. specialize (IH Wn). destruct IH as (I1 & I2 & I3).
    cbn [max_field_length_st erase max_field_length]. cbn [load r_fields]. rewrite get_ref_field.
    destruct (get_ref (mr_fields mr) loc) as [r|e|s]; cbn [obind fst snd wf erase]; [|auto|auto].
    fold (load mem mr).
    destruct (is_nil (deref mem r)) eqn:N.
    + destruct (max_field_length_st mode nx value mem mr) as [o nx'] eqn:EM. cbn [fst snd] in *.
      cbn [wf erase]. rewrite <- I1. repeat split; auto.
      * destruct o; reflexivity.
      * congruence.
    + pose proof (prefix_of_own mode st mem h r Hm Wc) as [P1 P2].
      destruct (prefix_of mode st mem h r) as [p st'] eqn:EP. cbn [fst snd] in P1, P2.
      destruct (max_field_length_st mode nx value mem mr) as [o nx'] eqn:EM. cbn [fst snd] in *.
      cbn [wf erase]. rewrite <- I1. repeat split; auto; [|congruence].
      destruct o; cbn [obind]; try reflexivity. subst p. rewrite !app_length. cbn [length]. f_equal. lia.
Qed.

Lemma write_st_sim : forall mode, mode <> CacheByRef -> forall value mem mr rw dst, wf mode rw ->
  fst (write_field_body_st mode rw value mem mr dst) = write_field_body (erase rw) value (load mem mr) dst /\
  wf mode (snd (write_field_body_st mode rw value mem mr dst)) /\
  erase (snd (write_field_body_st mode rw value mem mr dst)) = erase rw.
Proof.
  intros mode Hm value mem mr. induction rw as [| |h loc st nx IH]; intros dst W.
  - cbn [write_field_body_st fst snd erase wf]. auto.
  - cbn [write_field_body_st fst snd erase wf]. auto.
  - destruct W as [Wc Wn].
    cbn [write_field_body_st erase write_field_body]. cbn [load r_fields]. rewrite get_ref_field.
    destruct (get_ref (mr_fields mr) loc) as [r|e|s]; cbn [obind fst snd wf erase]; [|auto|auto].
    fold (load mem mr).
    destruct (is_nil (deref mem r)) eqn:N.
    + destruct (IH dst Wn) as (I1 & I2 & I3).
      destruct (write_field_body_st mode nx value mem mr dst) as [o nx'] eqn:EM. cbn [fst snd] in *.
      cbn [wf erase]. repeat split; auto. congruence.
    + pose proof (prefix_of_own mode st mem h r Hm Wc) as [P1 P2].
      destruct (prefix_of mode st mem h r) as [p st'] eqn:EP. cbn [fst snd] in P1, P2. subst p.
      destruct (copy3 dst h (deref mem r) [32]) as (d1 & e1 & d2 & e2 & d3 & e3 & C1 & C2 & C3 & C4).
      rewrite C4, C1. cbn [obind]. rewrite C2. cbn [obind]. rewrite C3. cbn [obind].
      destruct (window d3 (e1 + e2 + e3)) as [sub|e|s]; cbn [obind fst snd wf erase]; [|auto|auto].
      destruct (IH sub Wn) as (I1 & I2 & I3).
      destruct (write_field_body_st mode nx value mem mr sub) as [o nx'] eqn:EM. cbn [fst snd] in *.
      cbn [wf erase]. rewrite <- I1. split; [|split; [split; assumption|congruence]].
      destruct o as [[sub' n]|e|s]; reflexivity.
Qed.

Lemma run_call_sim : forall mode, mode <> CacheByRef -> forall rw c, wf mode rw ->
  fst (run_call mode rw c) = call_stateless (erase rw) c /\
  wf mode (snd (run_call mode rw c)) /\ erase (snd (run_call mode rw c)) = erase rw.
Proof.
  intros mode Hm rw c W. unfold run_call, call_stateless.
  set (value := deref (cl_mem c) (cl_value c)).
  destruct (max_st_sim mode Hm value (cl_mem c) (cl_rec c) rw W) as (_ & W1 & E1).
  destruct (max_field_length_st mode rw value (cl_mem c) (cl_rec c)) as [o0 rw1]. cbn [fst snd] in *.
  destruct (max_st_sim mode Hm value (cl_mem c) (cl_rec c) rw1 W1) as (M2 & W2 & E2).
  destruct (max_field_length_st mode rw1 value (cl_mem c) (cl_rec c)) as [m rw2]. cbn [fst snd] in *.
  destruct (write_st_sim mode Hm value (cl_mem c) (cl_rec c) rw2 (repeat 0 (cl_dstlen c)) W2) as (M3 & W3 & E3).
  destruct (write_field_body_st mode rw2 value (cl_mem c) (cl_rec c) (repeat 0 (cl_dstlen c))) as [w rw3].
  cbn [fst snd] in *. repeat split; [|assumption|congruence].
  rewrite M2, M3, E2, E1. reflexivity.
Qed.

(* for ALL histories: whatever the buffer held before, whatever records came before, the instance answers each call
   as the stateless model does on the values the record has at the moment of the call *)
Theorem history_own_values : forall mode, mode <> CacheByRef -> forall h rw, wf mode rw ->
  run_history mode rw h = map (call_stateless (erase rw)) h.
Proof.
  intros mode Hm. induction h as [|c h IH]; intros rw W; [reflexivity|].
  cbn [run_history map]. destruct (run_call_sim mode Hm rw c W) as (R & W' & E').
  destruct (run_call mode rw c) as [res rw']. cbn [fst snd] in *. rewrite (IH rw' W'), E', R. reflexivity.
Qed.

(* the result a call must have according to the documentation of the rewriters, computed from the values the
   record's fields have at the moment of the call *)
Definition call_spec (schema : list bytes) (ch : list rewriter_cfg) (c : call) : call_result :=
  let fields := map (deref (cl_mem c)) (mr_fields (cl_rec c)) in
  let value := deref (cl_mem c) (cl_value c) in
  let out := rewrite_spec schema fields (mr_unescaped (cl_rec c)) ch value in
  (Ok (rewrite_max schema fields ch value), Ok (out ++ repeat 0 (cl_dstlen c - length out), length out)).

Definition call_fits (schema : list bytes) (ch : list rewriter_cfg) (c : call) : Prop :=
  (length schema <= length (mr_fields (cl_rec c)))%nat /\
  (length (rewrite_spec schema (map (deref (cl_mem c)) (mr_fields (cl_rec c))) (mr_unescaped (cl_rec c)) ch
                        (deref (cl_mem c) (cl_value c))) <= cl_dstlen c)%nat.

Theorem history_spec : forall schema ch, ch <> [] -> verify_rewriters schema ch = true ->
  exists rw0, new_rewriters schema ch = Ok (Some rw0) /\
  forall mode, mode <> CacheByRef -> forall rw, erase rw = rw0 -> wf mode rw ->
  forall h, Forall (call_fits schema ch) h -> run_history mode rw h = map (call_spec schema ch) h.
Proof.
  intros schema ch Hne V. destruct (verified_rewriters_spec schema ch Hne V) as (rw0 & N & M).
  exists rw0. split; [exact N|]. intros mode Hm rw E W h F.
  rewrite (history_own_values mode Hm h rw W), E. apply map_ext_in. intros c Hin.
  rewrite Forall_forall in F. destruct (F c Hin) as [L Fit].
  unfold call_stateless, call_spec.
  destruct (M (load (cl_mem c) (cl_rec c)) (deref (cl_mem c) (cl_value c))) as [Mx Mw].
  { cbn [load r_fields]. rewrite map_length. exact L. }
  cbn [load r_fields r_unescaped] in *. rewrite Mx. f_equal.
  set (out := rewrite_spec schema (map (deref (cl_mem c)) (mr_fields (cl_rec c))) (mr_unescaped (cl_rec c)) ch
                           (deref (cl_mem c) (cl_value c))) in *.
  replace (cl_dstlen c) with (length out + (cl_dstlen c - length out))%nat at 1 by lia.
  rewrite repeat_app. apply Mw. apply repeat_length.
Qed.

(* the variant that keeps the field string (a reference into the recycled buffer) as cache key *)
Definition wit_schema : list bytes := [[99;108;115]; [109;115;103]].          (* "cls", "msg" *)
Definition wit_chain : list rewriter_cfg := [RcInline [99;108;115]; RcCopy].
Definition wit_rec : mrecord :=
  {| mr_fields := [ {| m_off := 0; m_len := 2 |}; {| m_off := 2; m_len := 2 |} ]; mr_unescaped := false |}.
Definition wit_call (mem : bytes) : call :=
  {| cl_mem := mem; cl_rec := wit_rec; cl_value := {| m_off := 2; m_len := 2 |}; cl_dstlen := 9 |}.
(* "AAhi" then, in the same buffer, "BBhi" *)
Definition wit_history : list call := [wit_call [65;65;104;105]; wit_call [66;66;104;105]].

Theorem cache_by_ref_refuted :
  exists rw0, new_rewriters wit_schema wit_chain = Ok (Some rw0) /\
    verify_rewriters wit_schema wit_chain = true /\ Forall (call_fits wit_schema wit_chain) wit_history /\
    run_history CacheByRef (instantiate rw0) wit_history <> map (call_spec wit_schema wit_chain) wit_history /\
    (* the second record is emitted with the FIRST record's value: "cls=AA hi" *)
    nth 1 (run_history CacheByRef (instantiate rw0) wit_history) (Panic 0, Panic 0)
    = (Ok 9%nat, Ok ([99;108;115;61;65;65;32;104;105], 9%nat)).
Proof.
  eexists. split; [vm_compute; reflexivity|]. split; [vm_compute; reflexivity|]. split.
  - repeat constructor; vm_compute; lia.
  - split; [vm_compute; discriminate|vm_compute; reflexivity].
Qed.

(* ... while the two other variants handle the same history (instance of the theorem; a test) *)
Example wit_history_direct_ok : forall rw0, new_rewriters wit_schema wit_chain = Ok (Some rw0) ->
  run_history Direct (instantiate rw0) wit_history = map (call_spec wit_schema wit_chain) wit_history /\
  run_history CacheByValue (instantiate rw0) wit_history = map (call_spec wit_schema wit_chain) wit_history.
Proof. intros rw0 H. vm_compute in H. inversion H; subst. split; vm_compute; reflexivity. Qed.
