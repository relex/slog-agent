(* Concrete runs: non-vacuity examples and witnesses for Props/C03.v and Props/C04.v. *)
From SV Require Import Model.Common Model.FileWrite Model.Buffer Model.SpillFaults Spec.BufferSpec
     Proofs.CommonFacts Proofs.FileWriteProofs Proofs.BufferInv Proofs.BufferProofs Proofs.BufferTheorems.
From Coq Require Import Lia Sorting.Sorted.

Definition n_a : name := [97; 46; 102; 102].   (* "a.ff" *)
Definition n_b : name := [98; 46; 102; 102].   (* "b.ff" *)
Definition n_c : name := [99; 46; 102; 102].   (* "c.ff" *)
Definition n_d : name := [100; 46; 102; 102].  (* "d.ff" *)
Definition n_e : name := [101; 46; 102; 102].  (* "e.ff" *)

Lemma replay_reachable : forall (ops : list rop) s h,
  replay match_ff 4096 0 ops None (init []) 0 = inl (s, h) -> reachable match_ff 4096 s.
Proof.
  intros ops s h H. destruct (accept_sound_lemma match_ff 4096 _ _ _ _ _ _ _ H) as (evs & Hr & _).
  exists [], evs. split; [apply dir_sorted_nil|exact Hr].
Qed.

(* The examples are evaluations of [replay] on literals.  Only the final state is evaluated and compared: the hash of
   the observations, 32-bit arithmetic in binary, is what makes evaluating a replay slow, and no example speaks of it. *)
Lemma inl_fst : forall {A B C} (r : A * B + C) a,
  match r with inl (a', _) => Some a' | inr _ => None end = Some a -> exists b, r = inl (a, b).
Proof. intros A B C [[a' b]|c] a H; inversion H. exists b. reflexivity. Qed.

(* ---- C03: a generation with all three outcomes ----
   window of 2, queue of 1, 11 bytes of disk: a (3 bytes) goes to the window and is confirmed; b is taken and
   handed back at shutdown (saved: 5 bytes); c (6 bytes) is spilled at once; d and e find the queue full or the
   space limit reached: dropped and counted; at shutdown c is already on disk *)
Definition ex_ops : list event :=
  [ERestart 1 2 11%Z true; ERegister;
   EAccept n_a [1; 2; 3] ws_ok; EAccept n_b [4; 5; 6; 7; 8] ws_ok; EAccept n_c [9; 9; 9; 9; 9; 9] ws_ok;
   EAccept n_d [7] ws_ok; EAccept n_e [8; 8] ws_ok;
   EConsTake; EConsumed 0; EConsTake; EDestroy; ELeftover 0 ws_ok; EConsFinish].

Definition ex_final : option state :=
  match replay match_ff 4096 0 (map ROp ex_ops) None (init []) 0 with inl (s, _) => Some s | inr _ => None end.

Lemma ex_conservation :
  exists s, ex_final = Some s /\ reachable match_ff 4096 s /\ settled s /\
    g_confirmed (st_gh s) = [n_a] /\ g_retained (st_gh s) = [n_b; n_c] /\ g_dropped (st_gh s) = [n_d; n_e] /\
    st_dir s = [(n_b, EFile [4; 5; 6; 7; 8]); (n_c, EFile [9; 9; 9; 9; 9; 9])] /\
    map c_id (taken (st_gh s)) = [n_a; n_b].
Proof.
  edestruct (inl_fst (replay match_ff 4096 0 (map ROp ex_ops) None (init []) 0)) as (h & E); [vm_compute; reflexivity|].
  eexists. split; [unfold ex_final; rewrite E; reflexivity|]. split; [eapply replay_reachable; exact E|].
  vm_compute. repeat split; reflexivity.
Qed.

(* ---- C03: loaded chunks are not bounded by the window ----
   window of 4; the feeder goroutine does not get to run; six chunks are accepted: all six sit loaded in the queue *)
Definition starved_run : list event :=
  [ERestart 8 4 1000%Z true;
   EAccept n_a [1] ws_ok; EAccept n_b [2] ws_ok; EAccept n_c [3] ws_ok; EAccept n_d [4] ws_ok;
   EAccept [101; 46; 102; 102] [5] ws_ok; EAccept [102; 46; 102; 102] [6] ws_ok].

Lemma ex_memory_witness :
  exists s, run match_ff 4096 (init []) starved_run = Some s /\ st_M s = 4%nat /\ st_win s = [] /\
            loaded_in_buffer s = 6%nat.
Proof. eexists. split; [vm_compute; reflexivity|]. vm_compute. repeat split; reflexivity. Qed.

(* ---- C04: a write that stops after k bytes, at every kind of fault, 3-chunk queue ---- *)

(* killed after 2 of 5 bytes of the middle chunk: after the restart a and nothing else is offered, the
   leftover b.ff.tmp is not recovered; nothing under the name b.ff *)
Definition crash_ops : list event :=
  [ERestart 4 1 1000%Z true; EAccept n_a [1; 2; 3] ws_ok; EAccept n_b [4; 5; 6; 7; 8] (ws_killed 2 2);
   ERestart 4 1 1000%Z true; ERegister; EConsTake; EConsumed 0].

Lemma ex_crash_mid_write :
  exists s h, replay match_ff 4096 0 (map ROp crash_ops) None (init []) 0 = inl (s, h) /\
    dir_get (st_dir s) n_b = None /\ dir_get (st_dir s) (tmp_name n_b) = Some (EFile [4; 5]) /\
    map (fun c => (c_id c, c_data c)) (g_offered (st_gh s)) = [(n_a, Some [1; 2; 3])] /\
    st_queue s = [] /\ st_fpc s = FRecv.
Proof.
  edestruct (inl_fst (replay match_ff 4096 0 (map ROp crash_ops) None (init []) 0)) as (h & E); [vm_compute; reflexivity|].
  eexists. exists h. split; [exact E|]. vm_compute. repeat split; reflexivity.
Qed.

(* short write of 2 of 5 bytes without an error from write(2): reported as an error by WriteFileAt, the chunk is
   dropped and counted, the others go on *)
Definition short_ops : list event :=
  [ERestart 4 1 1000%Z true; ERegister; EAccept n_a [1; 2; 3] ws_ok; EAccept n_b [4; 5; 6; 7; 8] (ws_short 2);
   EAccept n_c [9] ws_ok; EConsTake; EConsumed 0; EConsTake; EConsumed 0].

Lemma ex_short_write :
  exists s h, replay match_ff 4096 0 (map ROp short_ops) None (init []) 0 = inl (s, h) /\
    g_dropped (st_gh s) = [n_b] /\ m_dropped (st_met s) = 1%Z /\ m_ioerr (st_met s) = 1%Z /\
    map (fun c => (c_id c, c_data c)) (taken (st_gh s)) = [(n_a, Some [1; 2; 3]); (n_c, Some [9])] /\
    dir_get (st_dir s) n_b = None /\ dir_get (st_dir s) (tmp_name n_b) = None.
Proof.
  edestruct (inl_fst (replay match_ff 4096 0 (map ROp short_ops) None (init []) 0)) as (h & E); [vm_compute; reflexivity|].
  eexists. exists h. split; [exact E|]. vm_compute. repeat split; reflexivity.
Qed.

(* a damaged file among the recovered ones: an empty file, a directory and a leftover temporary file do not
   keep the good chunks from being delivered *)
Definition damaged_ops : list event :=
  [ETamper n_a (Some (EFile [1; 2])); ETamper n_b (Some (EFile [])); ETamper n_c (Some EDir);
   ETamper (tmp_name n_c) (Some (EFile [7; 7])); ETamper n_d (Some (EFile [8]));
   ERestart 8 2 1000%Z true; ERegister; EConsTake; EConsumed 0; EConsTake; EConsumed 0].

Lemma ex_damaged_recovery :
  exists s h, replay match_ff 4096 0 (map ROp damaged_ops) None (init []) 0 = inl (s, h) /\
    map (fun c => (c_id c, c_data c)) (taken (st_gh s)) = [(n_a, Some [1; 2]); (n_d, Some [8])] /\
    g_dropped (st_gh s) = [n_b; n_c] /\ m_dropped (st_met s) = 2%Z /\ st_queue s = [].
Proof.
  edestruct (inl_fst (replay match_ff 4096 0 (map ROp damaged_ops) None (init []) 0)) as (h & E); [vm_compute; reflexivity|].
  eexists. exists h. split; [exact E|]. vm_compute. repeat split; reflexivity.
Qed.

(* the matcher must reject the temporary names: with a matcher that accepts everything (as the one used by the
   package's own unit tests) the leftover of a crash is recovered and a truncated chunk is offered *)
Definition match_all (n : name) : bool := match n with [] => false | _ => true end.

Lemma ex_permissive_matcher :
  exists s h, replay match_all 4096 0 (map ROp crash_ops) None (init []) 0 = inl (s, h) /\
    map (fun c => (c_id c, c_data c)) (g_offered (st_gh s)) = [(n_a, Some [1; 2; 3]); (tmp_name n_b, Some [4; 5])] /\
    In (n_b, [4; 5; 6; 7; 8]) (st_ever s).
Proof.
  edestruct (inl_fst (replay match_all 4096 0 (map ROp crash_ops) None (init []) 0)) as (h & E); [vm_compute; reflexivity|].
  eexists. exists h. split; [exact E|]. vm_compute. split; [reflexivity|]. right. left. reflexivity.
Qed.

(* ---- C03: the feeder held at its first load (FIFO), loaded chunks pile up in the queue, then shutdown ----
   "0.ff" is the FIFO; chunks are accepted while the window is empty (all loaded) until the queue of 3 overflows;
   after the release the FIFO chunk is dropped as empty; at Destroy the chunk in the feeder's hand, the queue and
   the window are saved *)
Definition n_0 : name := [48; 46; 102; 102].   (* "0.ff" *)
Definition held_ops : list rop :=
  [RHold n_0 3 2 1000%Z; ROp (EAccept n_a [1] ws_ok); ROp (EAccept n_b [2; 2] ws_ok); ROp (EAccept n_c [3; 3; 3] ws_ok);
   ROp (EAccept n_d [4] ws_ok); RRelease; ROp EDestroy].

Lemma ex_held_feeder :
  exists s h, replay match_ff 4096 0 held_ops None (init []) 0 = inl (s, h) /\ st_fpc s = FStopped /\
    g_dropped (st_gh s) = [n_d; n_0] /\ g_retained (st_gh s) = [n_c; n_a; n_b] /\
    st_dir s = [(n_a, EFile [1]); (n_b, EFile [2; 2]); (n_c, EFile [3; 3; 3])].
Proof.
  edestruct (inl_fst (replay match_ff 4096 0 held_ops None (init []) 0)) as (h & E); [vm_compute; reflexivity|].
  eexists. exists h. split; [exact E|]. vm_compute. repeat split; reflexivity.
Qed.
