(* C12, part G of the numbering in the head of Model/Memory.v (the stores that outlive a record, Model/MemoryStores.v):
   a store of copies reads the same in every state of the pipeline ([mem_store_view_stable]) and routing keeps it
   a store of copies ([mem_store_route_copy]); [wit_store_copy_vs_ref] is a run on which a store that keeps the
   strings themselves reads differently. *)
From SV Require Import Model.Common Model.Memory Model.MemoryStores Proofs.MemoryProofs Proofs.MemoryWitnesses.
From Coq Require Import Lia.
Open Scope nat_scope.

Definition mem_entry_copied (e : list mem_stored) : Prop := Forall (fun s => exists b, s = StBytes b) e.
Definition mem_store_copied (st : mem_store) : Prop := Forall mem_entry_copied st.

(* a store of copies reads the same in every state of the pipeline: nothing that happens to records, buffers or
   pools afterwards can change a stored key set *)
Lemma mem_store_view_stable : forall st g g', mem_store_copied st -> mem_store_view g st = mem_store_view g' st.
Proof.
  intros st g g' H. unfold mem_store_view. apply map_ext_in. intros e He.
  unfold mem_store_copied in H. rewrite Forall_forall in H. specialize (H e He). apply map_ext_in. intros s Hs.
  unfold mem_entry_copied in H. rewrite Forall_forall in H. destruct (H s Hs) as (b & ->). reflexivity.
Qed.

Lemma mem_store_find_view : forall g st key i, mem_store_find g st key i =
  (fix go (v : list (list bytes)) (i : nat) : option nat :=
     match v with [] => None | e :: v' => if mem_keys_eqb e key then Some i else go v' (S i) end) (mem_store_view g st) i.
Proof. induction st as [|e st IH]; intros key i; cbn; [reflexivity|]. rewrite IH. reflexivity. Qed.

(* the code (copies): routing a record keeps the store a store of copies; either the record's key bytes are already
   there (the store is unchanged) or exactly these bytes are appended as a new entry *)
Lemma mem_store_route_copy : forall g st h keys st' i,
  mem_store_copied st -> mem_store_route KeepCopy g st h keys = Some (st', i) ->
  mem_store_copied st' /\ exists kf, mem_key_fields g h keys = Some kf /\
    ((st' = st /\ mem_store_find g st (map fst kf) 0 = Some i) \/
     (mem_store_find g st (map fst kf) 0 = None /\ i = length st /\ mem_store_view g st' = mem_store_view g st ++ [map fst kf])).
Proof.
  intros g st h keys st' i Hc H. unfold mem_store_route in H.
  destruct (mem_key_fields g h keys) as [kf|] eqn:Ek; [|discriminate].
  destruct (mem_store_find g st (map fst kf) 0) as [j|] eqn:Ef.
  - inversion H; subst. split; [exact Hc|]. exists kf. split; [reflexivity|]. left. split; [reflexivity|exact Ef].
  - inversion H; subst. split.
    + apply Forall_app. split; [exact Hc|]. constructor; [|constructor].
      unfold mem_entry_copied. apply Forall_forall. intros s0 Hs. apply in_map_iff in Hs. destruct Hs as (x & <- & _). eauto.
    + exists kf. split; [reflexivity|]. right. split; [exact Ef|]. split; [reflexivity|].
      unfold mem_store_view. rewrite map_app. cbn. f_equal. f_equal. rewrite map_map. reflexivity.
Qed.

(* what the copies are needed for: a witness with KeepRef *)
(* two records of the same size class whose "app" fields (index 4) differ at the same offsets *)
Definition wit_rec_a : bytes := (
  [60;49;54;51;62;49;32;50;48;49;57;45;48;56;45;49;53;84;49;53;58;53;48;58;52;54;90;32;104;111;115;116;49;32;97;112;112;65;32;
   49;50;51;32;115;114;99;32;45;32;104;101;108;108;111;32;119;111;114;108;100;44;32;116;104;105;115;32;105;115;32;97;32;109;
   101;115;115;97;103;101])%N.
Definition wit_rec_b : bytes := (
  [60;49;54;51;62;49;32;50;48;49;57;45;48;56;45;49;53;84;49;53;58;53;48;58;52;54;90;32;104;111;115;116;49;32;97;112;112;66;32;
   49;50;51;32;115;114;99;32;45;32;104;101;108;108;111;32;119;111;114;108;100;44;32;116;104;105;115;32;105;115;32;97;32;109;
   101;115;115;97;103;101])%N.

Definition wit_store_cfg : mem_config :=
  {| c_params := wit_params; c_nfields := 12; c_maxfields := 14; c_level_sites := Some 0%nat;
     c_cfg_init := wit_levels; c_extract := [TSimple (TDelFields [7%nat])]; c_transforms := [];
     c_outputs := [wit_out]; c_trunc_mode := TruncCopy; c_rw_sets_flag := false |}.

Definition wit_after (evs : list mem_event) : mem_gstate :=
  match mem_run wit_store_cfg (mem_init wit_store_cfg) evs with StepOk g => g | StepStop _ => mem_init wit_store_cfg end.

(* record A is parsed and routed (a new key set, entry 0), processed and released; record B then gets A's buffer *)
Definition wit_g_a := wit_after [EvParse None None wit_rec_a 1000%Z].
Definition wit_g_b := wit_after [EvParse None None wit_rec_a 1000%Z; EvTransform 0; EvOutput 0; EvParse (Some 0) (Some 0) wit_rec_b 2000%Z].

Definition wit_route_then (keep : mem_keep) : option (list (list bytes) * nat * list (list bytes) * nat) :=
  match mem_store_route keep wit_g_a [] 0 [4] with
  | Some (st1, ia) =>
    match mem_store_route keep wit_g_b st1 0 [4] with
    | Some (st2, ib) => Some (mem_store_view wit_g_a st1, ia, mem_store_view wit_g_b st2, ib)
    | None => None
    end
  | None => None
  end.

(* with copies: A's key set stays "appA", B gets a new entry (pipeline 1);
   with references: once B's bytes are in the recycled buffer the entry of A reads "appB" - B is sent to A's
   pipeline (index 0) and the key set "appA" has disappeared from the store *)
Lemma wit_store_copy_vs_ref :
  wit_route_then KeepCopy = Some ([[[97;112;112;65]%N]], 0, [[[97;112;112;65]%N]; [[97;112;112;66]%N]], 1) /\
  wit_route_then KeepRef  = Some ([[[97;112;112;65]%N]], 0, [[[97;112;112;66]%N]], 0).
Proof. split; vm_compute; reflexivity. Qed.
