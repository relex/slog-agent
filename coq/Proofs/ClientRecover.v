(* C02 — the repaired client (p_fix = true) can always recover, with or without a max session age: from any
   reachable state of a running client a healthy continuation gets every chunk ever taken reported delivered
   (scheduler + lexicographic measure). *)
From SV Require Import Model.Common Model.Client Spec.ClientSpec
     Proofs.ListFacts Proofs.ClientBase Proofs.ClientSafety Proofs.ClientHistory Proofs.ClientOrder Proofs.ClientTheorems Proofs.ClientLiveness Proofs.ClientFixed.
From Coq Require Import Lia Permutation Wf_nat.
Local Open Scope nat_scope.

Definition stopping (s : state) : bool := stop_sig s || in_closed s.

Definition is_closed (closed : list nat) (k : nat) : bool := existsb (Nat.eqb k) closed.

(* events of a continuation in which the client keeps running and the upstream behaves: no stop, no reconnect
   request, nothing new offered, every connect succeeds, every ack read returns an id, and a send / ping / ack read
   fails ONLY on a connection whose Close the client itself has executed ([closed]: the connections closed so far) *)
Definition healthy_at (closed : list nat) (e : event) : bool :=
  match e with
  | EOffer _ | EStop | EInClose | EReconnReq | EBugTimeout | ELeftover _ | EFinished => false
  | EConnRet _ ok => ok
  | ESendRet k _ r | EPingRet k r => match r with ROk => true | RErr => is_closed closed k end
  | EAckRet k a => match a with AId _ => true | AEmpty => false | AErr => is_closed closed k end
  | _ => true
  end.

Fixpoint healthy_from (closed : list nat) (tr : list event) : bool :=
  match tr with
  | [] => true
  | e :: r => healthy_at closed e && healthy_from (closed ++ closes_of [e]) r
  end.

Lemma healthy_from_app : forall a b cl,
  healthy_from cl (a ++ b) = healthy_from cl a && healthy_from (cl ++ closes_of a) b.
Proof.
  induction a as [|e a IH]; intros b cl.
  - simpl. rewrite app_nil_r. reflexivity.
  - cbn [app healthy_from]. rewrite IH, <- andb_assoc. f_equal. f_equal.
    rewrite <- app_assoc. f_equal. destruct e; reflexivity.
Qed.

Definition rank (s : state) : nat :=
  match pc s with
  | MStart | MFinal | MDone => 0
  | MRetryWait => 1
  | MHardWait _ _ => 2
  | MSoftWait _ => 3
  | MInput => 4
  | MEnqueue FInput _ => 5
  | MSend FInput _ => 6
  | MResend => 7 + 3 * length (lo s)
  | MEnqueue FResend _ => 8 + 3 * length (lo s)
  | MSend FResend _ => 9 + 3 * length (lo s)
  | MConnecting => match opener s with OResult _ => 10 | ODialing => 11 | _ => 12 end + 3 * length (lo s)
  end.

Definition arank (s : state) : nat :=
  match cur s with
  | Some ss => if s_ended ss then 0
               else 1 + 3 * length (s_achan ss) + match s_apc ss with AReading _ => 2 | AAcked _ => 1 | _ => 0 end
  | None => 0
  end.

Definition crank (s : state) : nat := length (close_pend s).

Definition closer (s s' : state) : Prop :=
  rank s' < rank s \/ (rank s' = rank s /\ arank s' < arank s) \/
  (rank s' = rank s /\ arank s' = arank s /\ crank s' < crank s).

Lemma is_closed_In : forall cl k, In k cl -> is_closed cl k = true.
Proof. intros cl k H. unfold is_closed. apply existsb_exists. exists k. split; [exact H|apply Nat.eqb_refl]. Qed.

Lemma by_step : forall P cl s e s',
  Step P s e s' -> healthy_at cl e = true -> closer s s' ->
  exists e s', healthy_at cl e = true /\ step P s e = Some s' /\ closer s s'.
Proof. intros P cl s e s' H1 H2 H3. exists e, s'. auto using Step_step. Qed.

(* the acknowledger can always make a step towards being idle, drained or ended *)
Lemma acker_step : forall P cl s ss,
  reach P s -> cur s = Some ss -> s_ended ss = false ->
  (s_apc ss = AIdle -> s_achan ss <> [] \/ s_abort ss = true) ->
  exists e s', healthy_at cl e = true /\ step P s e = Some s' /\ closer s s'.
Proof.
  intros P cl s ss Hr Hcur Hend Hidle.
  pose proof (ctl_inv_reach P s Hr) as Hi. destruct (i_sess s Hi ss Hcur) as (He1 & He2 & Hpend & _).
  destruct (s_apc ss) as [|nx|d|] eqn:Hapc;
    [destruct (s_achan ss) as [|d rest] eqn:Hach| | |rewrite (He2 eq_refl) in Hend; discriminate].
  1: destruct (Hidle eq_refl) as [H|Habort]; [congruence|].
  1: eapply by_step; [eapply S_ackerabort; eassumption|reflexivity|].
  2: eapply by_step; [eapply S_ackertake; eassumption|reflexivity|].
  3: eapply by_step; [eapply S_ack_known; eassumption|reflexivity|].
  4: eapply by_step; [eapply S_consumed; eassumption|reflexivity|].
  all: right; left; unfold rank, arank; st_simpl; rewrite Hcur, Hend, ?Hach, Hapc; simpl; split; [reflexivity|lia].
Qed.

(* the states the scheduler drives towards: a session boundary, or processInput with a drained, idle acknowledger *)
Definition settled (s : state) : bool :=
  match pc s with
  | MStart => true
  | MInput => match cur s with
              | Some ss => negb (s_ended ss) && match s_achan ss, s_apc ss with [], AIdle => true | _, _ => false end
              | None => false
              end
  | _ => false
  end.

Lemma filter_shorter : forall k l, In k l -> length (filter (fun x => negb (Nat.eqb k x)) l) < length l.
Proof.
  intros k l. induction l as [|a l IH]; intros H; [contradiction|]. simpl.
  destruct (Nat.eqb_spec k a); simpl.
  - pose proof (filter_length_le (fun x => negb (Nat.eqb k x)) l). lia.
  - destruct H as [H|H]; [congruence|]. specialize (IH H). lia.
Qed.

(* the step taken lowers [rank]: both sides are computed from what is known of the control state *)
Ltac rank_lt :=
  left; unfold rank; st_simpl; cbn [opener st_opener];
  repeat match goal with H : pc _ = _ |- _ => rewrite H | H : opener _ = _ |- _ => rewrite H | H : lo _ = _ |- _ => rewrite H end;
  simpl; lia.

Lemma one_step : forall P tr0 s,
  reach_by P tr0 s -> stopping s = false -> 1 <= p_cap P -> settled s = false ->
  exists e s', healthy_at (closes_of tr0) e = true /\ step P s e = Some s' /\ closer s s'.
Proof.
  intros P tr0 s Hrb Hlive Hcap Hset.
  assert (Hr : reach P s) by (exists tr0; exact Hrb).
  pose proof (ctl_inv_reach P s Hr) as Hi. pose proof (flags_reach P s Hr) as [Fs N1 N3 _ _].
  destruct (orb_false_elim _ _ Hlive) as [Hstop Hinc].
  assert (Hsess : between (pc s) = false -> exists ss, cur s = Some ss) by (apply (i_insess s Hi)).
  unfold settled in Hset.
  destruct (pc s) as [| | |f c|f c| |p|prev p| | |] eqn:Epc; try discriminate Hset.
  - (* MConnecting *)
    destruct (opener s) as [| | |[]] eqn:Eop; [exfalso; apply N3; reflexivity| | | |].
    1: eapply by_step; [eapply S_connstart; eassumption|reflexivity|].
    2: eapply by_step; [eapply (S_connret _ _ true); eassumption|reflexivity|].
    3: eapply by_step; [eapply S_conn_ok; eassumption|reflexivity|].
    4: eapply by_step; [eapply S_conn_fail; eassumption|reflexivity|].
    all: rank_lt.
  - (* MResend *)
    destruct (lo s) as [|c rest] eqn:Elo.
    + eapply by_step; [eapply S_resenddone; eassumption|reflexivity|].
      rank_lt.
    + eapply by_step; [eapply S_resendtake; eassumption|reflexivity|].
      rank_lt.
  - (* MSend *)
    destruct (Hsess ltac:(reflexivity)) as (ss & Hcur).
    eapply by_step; [eapply S_send_ok; eassumption|reflexivity|].
    destruct f; rank_lt.
  - (* MEnqueue *)
    destruct (Hsess ltac:(reflexivity)) as (ss & Hcur).
    destruct (s_ended ss) eqn:Eend.
    + eapply by_step; [eapply S_enqended; eassumption|reflexivity|].
      destruct f; rank_lt.
    + destruct (Nat.ltb_spec (length (s_achan ss)) (p_cap P)) as [Eroom|Eroom].
      * eapply by_step; [eapply S_enqueue; eassumption|reflexivity|].
        destruct f; rank_lt.
      * apply (acker_step P _ s ss Hr Hcur Eend). intros _. left. intro E. rewrite E in Eroom. simpl in Eroom. lia.
  - (* MInput, not settled: the acknowledger has work to do, or it has ended (it closed the connection: the next
       ping fails once Close has been executed) *)
    destruct (Hsess ltac:(reflexivity)) as (ss & Hcur). rewrite Hcur in Hset.
    destruct (s_ended ss) eqn:Eend.
    + destruct (Fs ss Hcur) as [[Hacl Habt] Hq].
      destruct (Hq Eend) as [Hq'|[Hq'|Hq']]; try congruence.
      destruct (close_tracked_reach P tr0 s Hrb ss Hcur Hq') as [Hp|Hc].
      * destruct (close_pend s) as [|k' rest] eqn:Ecp; [contradiction|].
        destruct (Nat.eq_dec (s_id ss) k') as [<-|Ek].
        { eapply by_step; [eapply S_close_first; eassumption|reflexivity|].
          right. right. unfold rank, arank, crank. st_simpl. cbn [close_pend opener st_misc]. rewrite Ecp. simpl. auto. }
        { assert (Hin : In (s_id ss) rest) by (destruct Hp as [Hp|Hp]; [congruence|exact Hp]).
          eapply by_step; [eapply S_close_later; eassumption|reflexivity|].
          right. right. unfold rank, arank, crank. st_simpl. cbn [close_pend opener st_misc]. rewrite Ecp.
          pose proof (filter_shorter (s_id ss) rest Hin). simpl. repeat split; auto. lia. }
      * eapply by_step; [eapply S_ping_err; eassumption|apply is_closed_In; exact Hc|].
        rank_lt.
    + apply (acker_step P _ s ss Hr Hcur Eend).
      intros Ha. left. intro Hn. rewrite Ha, Hn in Hset. discriminate Hset.
  - (* MSoftWait *)
    destruct (Hsess ltac:(reflexivity)) as (ss & Hcur).
    eapply by_step; [eapply S_softdone; eassumption|reflexivity|].
    rank_lt.
  - (* MHardWait *)
    destruct (Hsess ltac:(reflexivity)) as (ss & Hcur).
    destruct (s_ended ss) eqn:Eend.
    + destruct (i_sess s Hi ss Hcur) as (He1 & _). destruct (He1 Eend) as [Hun _].
      eapply by_step; [eapply S_collected; eassumption|reflexivity|].
      destruct p; rank_lt.
    + apply (acker_step P _ s ss Hr Hcur Eend).
      intros _. right. destruct (Fs ss Hcur) as [Hab _]. exact Hab.
  - (* MRetryWait *)
    eapply by_step; [eapply S_retrytimeout; eassumption|reflexivity|].
    rank_lt.
  - (* MFinal *) unfold stopping in Hlive. congruence.
  - (* MDone *) unfold stopping in Hlive. congruence.
Qed.

Lemma healthy_at_stopping : forall P cl s e s',
  healthy_at cl e = true -> step P s e = Some s' -> stopping s' = stopping s.
Proof.
  intros P cl s e s' Hh Hs. apply step_Step in Hs. destruct Hs; try discriminate Hh; reflexivity.
Qed.

Lemma to_settled : forall P, 1 <= p_cap P ->
  forall n m l tr0 s, rank s = n -> arank s = m -> crank s = l -> reach_by P tr0 s -> stopping s = false ->
  exists tr s', run P s tr = Some s' /\ healthy_from (closes_of tr0) tr = true /\ settled s' = true.
Proof.
  intros P Hcap n. induction n as [n IHn] using lt_wf_ind.
  intros m. induction m as [m IHm] using lt_wf_ind.
  intros l. induction l as [l IHl] using lt_wf_ind.
  intros tr0 s Hn Hm Hl Hr Hlive.
  destruct (settled s) eqn:Eset.
  1: { exists [], s. auto. }
  destruct (one_step P tr0 s Hr Hlive Hcap Eset) as (e & s1 & He & Hs & Hc).
  assert (Hr1 : reach_by P (tr0 ++ [e]) s1) by (eapply reach_by_snoc; eauto).
  assert (Hl1 : stopping s1 = false) by (rewrite (healthy_at_stopping P _ s e s1 He Hs); exact Hlive).
  assert (exists tr s', run P s1 tr = Some s' /\ healthy_from (closes_of (tr0 ++ [e])) tr = true /\ settled s' = true)
    as (tr & s' & R & F & Pc).
  { destruct Hc as [Hlt|[[Heq Hlt]|(Heq1 & Heq2 & Hlt)]].
    - exact (IHn (rank s1) ltac:(lia) (arank s1) (crank s1) _ s1 eq_refl eq_refl eq_refl Hr1 Hl1).
    - exact (IHm (arank s1) ltac:(lia) (crank s1) _ s1 ltac:(lia) eq_refl eq_refl Hr1 Hl1).
    - exact (IHl (crank s1) ltac:(lia) _ s1 ltac:(lia) ltac:(lia) eq_refl Hr1 Hl1). }
  exists (e :: tr), s'. cbn [run healthy_from]. rewrite Hs, He. rewrite closes_of_app in F. auto.
Qed.

Lemma healthy_from_stopping : forall P tr cl s s',
  healthy_from cl tr = true -> run P s tr = Some s' -> stopping s' = stopping s.
Proof.
  intros P tr. induction tr as [|e tr IH]; intros cl s s' Hf Hr; simpl in *.
  - inversion Hr; reflexivity.
  - apply andb_prop in Hf. destruct Hf as [He Hf]. destruct (step P s e) as [s1|] eqn:E; [|discriminate Hr].
    rewrite (IH _ s1 s' Hf Hr). eapply healthy_at_stopping; eauto.
Qed.

(* the scripts of ClientLiveness contain no failure at all: they are healthy whatever has been closed *)
Lemma healthy_from_rounds : forall k f l cl, healthy_from cl (flat_map (round k f) l) = true.
Proof.
  intros k f l. induction l as [|c l IH]; intros cl; [reflexivity|]. cbn [flat_map]. rewrite healthy_from_app, IH.
  destruct f; reflexivity.
Qed.

Lemma healthy_from_script : forall k L Q cl, healthy_from cl (healthy k L Q) = true.
Proof. intros. unfold healthy. rewrite !healthy_from_app, !healthy_from_rounds. reflexivity. Qed.

Lemma healthy_from_no_offer : forall tr cl, healthy_from cl tr = true -> offered_of tr = [] /\ ~ In EBugTimeout tr.
Proof.
  induction tr as [|e tr IH]; intros cl Hf; [simpl; auto|].
  cbn [healthy_from] in Hf. apply andb_prop in Hf. destruct Hf as [He Hf]. destruct (IH _ Hf) as (I1 & I2).
  destruct e; try discriminate He; simpl; (split; [exact I1|]); intros [H|H]; try discriminate H; auto.
Qed.

Lemma handed_of_app : forall a b, handed_of (a ++ b) = handed_of a ++ handed_of b.
Proof. intros a b. apply projections_app. Qed.

(* a healthy continuation offers nothing and stays inside the contract *)
Lemma healthy_from_extends : forall cl tr0 tr,
  healthy_from cl tr = true -> in_contract tr0 -> distinct_input tr0 -> in_contract (tr0 ++ tr) /\ distinct_input (tr0 ++ tr).
Proof.
  intros cl tr0 tr Hf Hc Hd. destruct (healthy_from_no_offer _ _ Hf) as (Ho & Hb). split.
  - intro H. apply in_app_or in H. destruct H; auto.
  - unfold distinct_input. rewrite (proj1 (projections_app tr0 tr)), Ho, app_nil_r. exact Hd.
Qed.

(* from a settled state the healthy script (a fresh session, or the rest of the queue on the running one) leaves
   nothing held and nothing queued *)
Lemma settled_finish : forall P s, p_fix P = true -> 1 <= p_cap P -> reach P s -> stopping s = false -> settled s = true ->
  exists tr s', run P s tr = Some s' /\ (forall cl, healthy_from cl tr = true) /\ holdings s' = [] /\ inq s' = [].
Proof.
  intros P s Hfix Hcap Hr Hlive Hset. unfold settled in Hset.
  destruct (orb_false_elim _ _ Hlive) as [Hstop _].
  destruct (pc s) eqn:Epc; try discriminate Hset.
  - destruct (progress_lemma P s Hcap Epc Hstop) as (s2 & R2 & _ & _ & L2 & Q2 & La2 & (ss2 & C2 & Hh2)).
    eexists. exists s2. split; [exact R2|]. split; [apply healthy_from_script|].
    split; [unfold holdings; rewrite L2, La2, C2, Hh2; reflexivity|exact Q2].
  - destruct (cur s) as [ss|] eqn:Hcur; [|discriminate Hset].
    apply andb_prop in Hset. destruct Hset as [Hend Hq].
    destruct (s_achan ss) eqn:Hach; [|discriminate Hq]. destruct (s_apc ss) eqn:Hapc; try discriminate Hq.
    pose proof (pend_shape_reach P s Hfix Hr ss Hcur) as Hps. unfold pend_shape in Hps. rewrite Hapc in Hps.
    pose proof (ctl_inv_reach P s Hr) as Hi. pose proof (i_last s Hi) as Hl. pose proof (i_lo s Hi) as Hlo. rewrite Epc in Hl, Hlo.
    assert (Hqt : quiet s (s_id ss)) by (exists ss; repeat split; auto).
    destruct (rounds_ok P FInput (s_id ss) (inq s) s Hcap Epc eq_refl Hqt) as (s2 & R2 & P2 & I2 & Q2 & L2 & _).
    cbn [loop_pc source other] in *.
    eexists. exists s2. split; [exact R2|]. split; [apply healthy_from_rounds|]. split; [|exact I2].
    destruct Q2 as (ss2 & C2 & _ & A2 & Pn2 & _ & La2).
    unfold holdings, sess_holdings. rewrite L2, Hlo, La2, C2, A2, Pn2. reflexivity.
Qed.

(* For the repaired client, with or without a max session age: from ANY reachable state of a client that has not
   been asked to stop there is a continuation in which it keeps running and the upstream behaves, after which every
   chunk ever taken from the queue has been reported delivered, nothing is held, nothing was handed back and the
   queue is empty. *)
Lemma recoverable_lemma : forall P tr0 s,
  1 <= p_cap P -> p_fix P = true ->
  reach_by P tr0 s -> in_contract tr0 -> distinct_input tr0 -> stop_sig s = false -> in_closed s = false ->
  exists tr s', run P s tr = Some s' /\ healthy_from (closes_of tr0) tr = true /\
                holdings s' = [] /\ inq s' = [] /\
                Permutation (taken_of (tr0 ++ tr)) (consumed_of (tr0 ++ tr)) /\ handed_of (tr0 ++ tr) = [].
Proof.
  intros P tr0 s Hcap Hfix Hr0 Hc0 Hd0 Hstop Hinc.
  assert (Hlive : stopping s = false) by (unfold stopping; rewrite Hstop, Hinc; reflexivity).
  destruct (to_settled P Hcap (rank s) (arank s) (crank s) tr0 s eq_refl eq_refl eq_refl Hr0 Hlive) as (tr1 & s1 & R1 & F1 & P1).
  assert (Hl1 : stopping s1 = false) by (rewrite (healthy_from_stopping P tr1 _ s s1 F1 R1); exact Hlive).
  assert (Hreach1 : reach P s1) by (exists (tr0 ++ tr1); exact (reach_by_app P _ _ s s1 Hr0 R1)).
  destruct (settled_finish P s1 Hfix Hcap Hreach1 Hl1 P1) as (tr2 & s2 & R2 & F2 & Hhold & Q2).
  exists (tr1 ++ tr2), s2.
  assert (Hrun : run P s (tr1 ++ tr2) = Some s2) by (rewrite run_app, R1; exact R2).
  assert (Hf : healthy_from (closes_of tr0) (tr1 ++ tr2) = true).
  { rewrite healthy_from_app, F1. apply F2. }
  split; [exact Hrun|]. split; [exact Hf|].
  split; [exact Hhold|]. split; [exact Q2|].
  pose proof (reach_by_app P _ _ s s2 Hr0 Hrun) as Hr2.
  destruct (healthy_from_extends _ tr0 _ Hf Hc0 Hd0) as [Hc2 Hd2].
  destruct (resolved_lemma P _ s2 Hr2 Hc2 Hd2) as [Hperm _].
  assert (Hhand : handed_of (tr0 ++ tr1 ++ tr2) = []).
  { assert (Hl2 : stopping s2 = false) by (rewrite (healthy_from_stopping P _ _ s s2 Hf Hrun); exact Hlive).
    pose proof (f_none s2 (flags_reach P s2 (reach_by_reach P _ s2 Hr2))) as N1.
    pose proof (handed_only_at_end P _ s2 Hr2) as Fh. unfold stopping in Hl2.
    destruct (pc s2) as [| | | | | |[]|? []| | |]; congruence. }
  split; [|exact Hhand].
  rewrite Hhold, Hhand in Hperm. simpl in Hperm. rewrite ?app_nil_r in Hperm. exact Hperm.
Qed.

(* ... and no healthy continuation can lead the repaired client into a state from which that is no longer possible:
   after ANY healthy continuation a healthy completion exists. This is what the original code lacks, but it is not the
   formal negation of liveness_gap_lemma: there the continuations are those of Forall (healthy_ev c), here those of
   healthy_from, and neither class contains the other (see ClientLiveness.healthy). *)
Lemma never_stuck_lemma : forall P tr0 s tr1 s1,
  1 <= p_cap P -> p_fix P = true ->
  reach_by P tr0 s -> in_contract tr0 -> distinct_input tr0 -> stop_sig s = false -> in_closed s = false ->
  healthy_from (closes_of tr0) tr1 = true -> run P s tr1 = Some s1 ->
  exists tr2 s2, run P s1 tr2 = Some s2 /\ healthy_from (closes_of (tr0 ++ tr1)) tr2 = true /\
                 holdings s2 = [] /\ inq s2 = [] /\
                 Permutation (taken_of (tr0 ++ tr1 ++ tr2)) (consumed_of (tr0 ++ tr1 ++ tr2)) /\
                 handed_of (tr0 ++ tr1 ++ tr2) = [].
Proof.
  intros P tr0 s tr1 s1 Hcap Hfix Hr0 Hc0 Hd0 Hstop Hinc Hf1 R1.
  assert (Hlive : stopping s = false) by (unfold stopping; rewrite Hstop, Hinc; reflexivity).
  assert (Hl1 : stopping s1 = false) by (rewrite (healthy_from_stopping P tr1 _ s s1 Hf1 R1); exact Hlive).
  unfold stopping in Hl1. apply orb_false_elim in Hl1. destruct Hl1 as [Hs1 Hi1].
  pose proof (reach_by_app P _ _ s s1 Hr0 R1) as Hr1.
  destruct (healthy_from_extends _ tr0 _ Hf1 Hc0 Hd0) as [Hc1 Hd1].
  destruct (recoverable_lemma P (tr0 ++ tr1) s1 Hcap Hfix Hr1 Hc1 Hd1 Hs1 Hi1) as (tr2 & s2 & H).
  exists tr2, s2. rewrite <- !app_assoc in H. exact H.
Qed.
