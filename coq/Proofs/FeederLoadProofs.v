(* Proofs for Model/FeederLoad.v (C05): the output feeder with load failures of spilled chunks.

   Invariant (for the feeder that gives a chunk up at once, lg_defer = false): the chain
   transmitted ++ window ++ feeder hand ++ queue  is a SUB-LIST of the creation history - every event moves a chunk
   along the chain, appends a new chunk at its end (Accept) or removes one (failed load, queue overflow).  The ids of
   the creation history increase (id clock), hence everything order-related follows for all fault scripts. *)
From Coq Require Import List Arith Bool Lia PeanoNat.
From SV Require Import Model.Common Model.System Model.RecoveryOrder Model.FeederLoad Proofs.SystemLists Proofs.SystemOrderLists
  Proofs.RecoveryOrderProofs.
Import ListNotations.
Open Scope nat_scope.

Lemma sublist_trans : forall A (a b c : list A), sublist a b -> sublist b c -> sublist a c.
Proof.
  intros A a b c H1 H2. revert a H1. induction H2 as [|x b' c' H2 IH|x b' c' H2 IH]; intros a0 H1.
  - assumption.
  - apply sub_skip. apply IH. assumption.
  - inversion H1; subst.
    + apply sub_skip. apply IH. assumption.
    + apply sub_keep. apply IH. assumption.
Qed.

Lemma sublist_app_r : forall A (a b l : list A), sublist a b -> sublist a (b ++ l).
Proof.
  intros A a b l H. pose proof (sublist_app _ a b [] l H (sublist_nil_l _ l)) as P. rewrite app_nil_r in P. exact P.
Qed.

Lemma sublist_snoc : forall A (a b : list A) x, sublist a b -> sublist (a ++ [x]) (b ++ [x]).
Proof. intros. apply sublist_app; [assumption|apply sublist_refl]. Qed.

Lemma lids_app : forall a b, lids (a ++ b) = lids a ++ lids b.
Proof. intros. unfold lids. apply map_app. Qed.

Definition lgood (clock : nat) (l : list lchunk) : Prop := incr (lids l) /\ (forall c, In c l -> lid c <= clock).

Definition linv (s : lstate) : Prop := sublist (lchain s) (l_created s) /\ lgood (l_clock s) (l_created s).

Lemma lgood_snoc : forall cr ck c spill, lgood ck cr -> ck < rc_id c -> lgood (rc_id c) (cr ++ [LC c spill]).
Proof.
  intros cr ck c spill [H2 H3] E. split.
  - rewrite lids_app. apply incr_app. split; [exact H2|]. split; [apply incr_single|].
    intros x y Hx Hy. cbn in Hy. destruct Hy as [<-|[]]. unfold lids in Hx. apply in_map_iff in Hx.
    destruct Hx as [c0 [<- Hc0]]. specialize (H3 c0 Hc0). unfold lid at 2. cbn [lc_chunk]. lia.
  - intros c0 Hc0. apply in_app_or in Hc0. destruct Hc0 as [Hc0|[<-|[]]].
    + specialize (H3 _ Hc0). lia.
    + unfold lid. cbn [lc_chunk]. lia.
Qed.

Lemma lstep_inv : forall g s e s', lg_defer g = false -> linv s -> lstep g s e = Some s' -> linv s'.
Proof.
  intros g [q h rt w o d cr ck] e s' Hd [H1 HG] Hs.
  unfold linv, lchain, lpending in *.
  cbn [l_queue l_hand l_retries l_window l_out l_dropped l_created l_clock] in *.
  destruct e as [c spill| |ok|]; unfold lstep in Hs;
    cbn [l_queue l_hand l_retries l_window l_out l_dropped l_created l_clock] in Hs.
  - (* Accept *)
    destruct (Nat.ltb ck (rc_id c)) eqn:E; [|discriminate]. apply Nat.ltb_lt in E.
    destruct (Nat.ltb (length q) (lg_qcap g)); inversion Hs; subst s';
      cbn [l_queue l_hand l_retries l_window l_out l_dropped l_created l_clock].
    + split; [|apply (lgood_snoc cr ck); assumption].
      replace (o ++ w ++ map fst h ++ q ++ [LC c spill]) with ((o ++ w ++ map fst h ++ q) ++ [LC c spill])
        by (repeat rewrite <- app_assoc; reflexivity).
      apply sublist_snoc. exact H1.
    + split; [|apply (lgood_snoc cr ck); assumption]. apply sublist_app_r. exact H1.
  - (* Take *)
    destruct h as [|? ?]; [|discriminate]. destruct q as [|c rest].
    + rewrite Hd in Hs. discriminate.
    + inversion Hs; subst s'. cbn [l_queue l_hand l_retries l_window l_out l_dropped l_created l_clock map fst app].
      cbn [map app] in H1. split; assumption.
  - (* Feed *)
    destruct h as [|[c retry] [|? ?]]; try discriminate. cbn [map fst app] in H1. destruct ok.
    + destruct (lg_wcap g) as [|wc].
      * destruct w as [|? ?]; [|discriminate]. inversion Hs; subst s'.
        cbn [l_queue l_hand l_retries l_window l_out l_dropped l_created l_clock map fst app]. split; [|exact HG].
        rewrite <- app_assoc. cbn [app] in *. exact H1.
      * destruct (Nat.ltb (length w) (S wc)); [|discriminate]. inversion Hs; subst s'.
        cbn [l_queue l_hand l_retries l_window l_out l_dropped l_created l_clock map fst app]. split; [|exact HG].
        rewrite <- app_assoc. cbn [app]. exact H1.
    + destruct (lc_spilled c); [|discriminate]. rewrite Hd in Hs. cbn [andb] in Hs. inversion Hs; subst s'.
      cbn [l_queue l_hand l_retries l_window l_out l_dropped l_created l_clock map fst app]. split; [|exact HG].
      apply (sublist_trans _ _ (o ++ w ++ c :: q)); [|exact H1].
      apply sublist_app; [apply sublist_refl|]. apply sublist_app; [apply sublist_refl|]. apply sub_skip. apply sublist_refl.
  - (* Consume *)
    destruct w as [|c rest]; [discriminate|]. inversion Hs; subst s'.
    cbn [l_queue l_hand l_retries l_window l_out l_dropped l_created l_clock]. split; [|exact HG].
    rewrite <- app_assoc. cbn [app] in *. exact H1.
Qed.

Lemma lsteps_inv : forall g es s s', lg_defer g = false -> linv s -> lsteps g s es = Some s' -> linv s'.
Proof.
  intros g. induction es as [|e r IH]; intros s s' Hd Hi Hs; cbn [lsteps] in Hs.
  - inversion Hs; subst. assumption.
  - destruct (lstep g s e) as [s1|] eqn:E; [|discriminate]. apply (IH s1); auto. apply (lstep_inv g s e); assumption.
Qed.

Lemma linit_inv : forall backlog clock, lgood clock backlog -> linv (linit backlog clock).
Proof.
  intros backlog clock H. unfold linv, linit, lchain, lpending.
  cbn [l_queue l_hand l_retries l_window l_out l_dropped l_created l_clock map app]. split; [apply sublist_refl|exact H].
Qed.

(* For all backlogs in id order, capacities, event lists - i.e. all interleavings of worker, feeder and consumer and
   ALL FAULT SCRIPTS (which loads fail) - a feeder that gives up a chunk it cannot load hands the chunks to the consumer
   as a sub-sequence of the creation order; ids increase in transmission order, the pending chunks are in creation order
   and each is newer than everything transmitted (nothing older is still to come). *)
Lemma load_failure_order_lemma : forall g backlog clock es s,
  lg_defer g = false -> lgood clock backlog -> lsteps g (linit backlog clock) es = Some s ->
  sublist (l_out s) (l_created s) /\ incr (lids (l_out s)) /\ incr (lids (lpending s)) /\
  (forall u q, In u (lids (l_out s)) -> In q (lids (lpending s)) -> u < q).
Proof.
  intros g backlog clock es s Hd Hg Hs.
  destruct (lsteps_inv g es _ s Hd (linit_inv _ _ Hg) Hs) as [H1 [H2 _]].
  assert (I : incr (lids (l_out s) ++ lids (lpending s))).
  { rewrite <- lids_app. apply (incr_sublist _ (lids (l_created s))); [|exact H2]. apply sublist_map. exact H1. }
  apply incr_app in I. destruct I as [I1 [I2 I3]]. repeat split; auto.
  apply (sublist_trans _ _ (lchain s)); [|exact H1]. unfold lchain. apply sublist_app_r. apply sublist_refl.
Qed.

(* every stream (connection, key set): if the records were put into chunks in arrival order, they are handed to the
   consumer in arrival order - whatever loads fail *)
Lemma load_failure_stream_order_lemma : forall g backlog clock es s k,
  lg_defer g = false -> lgood clock backlog -> lsteps g (linit backlog clock) es = Some s ->
  incr (rseqs k (ltoks (l_created s))) -> incr (rseqs k (ltoks (l_out s))).
Proof.
  intros g backlog clock es s k Hd Hg Hs Hc.
  destruct (load_failure_order_lemma g backlog clock es s Hd Hg Hs) as [S _].
  apply (incr_sublist _ (rseqs k (ltoks (l_created s)))); [|exact Hc].
  unfold rseqs, ltoks, rtoks. apply sublist_map. apply sublist_filter_mono. apply sublist_flat_map. apply sublist_map. exact S.
Qed.

(* a failed load loses exactly the chunk in the feeder's hand: one step, nothing else moves *)
Lemma load_failure_drops_lemma : forall g q c retry rt w o d cr ck,
  lg_defer g = false -> lc_spilled c = true ->
  lstep g (LS q [(c, retry)] rt w o d cr ck) (LFeed false) = Some (LS q [] rt w o (d ++ [c]) cr ck).
Proof. intros g q c retry rt w o d cr ck Hd Hc. unfold lstep. cbn. rewrite Hc, Hd. reflexivity. Qed.

(* the variant that retries a failed load behind the queued chunks (seeded change C05/8) *)
Definition defer_backlog : list lchunk := map lnth_chunk [0; 1; 2].    (* ids 1, 2, 3: records 0, 1, 2 of connection 0 *)

(* chunk 1 is delivered; the read of chunk 2 fails once; chunk 3 is delivered; the queue is empty: chunk 2 is retried *)
Definition defer_events : list levent :=
  [LTake; LFeed true; LConsume; LTake; LFeed false; LTake; LFeed true; LConsume; LTake; LFeed true; LConsume].

Lemma defer_backlog_good : lgood 3 defer_backlog.
Proof.
  unfold lgood, defer_backlog. cbn. repeat split.
  - intros y [<-|[<-|[]]]; lia.
  - intros y [<-|[]]; lia.
  - intros ? [].
  - intros c [<-|[<-|[<-|[]]]]; cbn; lia.
Qed.

Lemma defer_variant_refuted_lemma :
  exists g backlog clock es s,
    lg_defer g = true /\ lgood clock backlog /\ lsteps g (linit backlog clock) es = Some s /\
    lids (l_out s) = [1; 3; 2] /\ l_dropped s = [] /\ ~ incr (lids (l_out s)) /\ ~ incr (rseqs 0 (ltoks (l_out s))).
Proof.
  exists (LCFG 8 1 true), defer_backlog, 3, defer_events.
  eexists. split; [reflexivity|]. split; [exact defer_backlog_good|]. split; [vm_compute; reflexivity|].
  cbn. split; [reflexivity|]. split; [reflexivity|]. split.
  - intros [_ [H _]]. specialize (H 2 (or_introl eq_refl)). lia.
  - intros [_ [H _]]. specialize (H 1 (or_introl eq_refl)). lia.
Qed.

(* non-vacuity: the same fault script on the code as it is - chunk 2 is lost, 1 and 3 are transmitted in order *)
Lemma load_failure_example_lemma :
  exists s, lgood 3 defer_backlog /\ lsteps (LCFG 8 1 false) (linit defer_backlog 3) (firstn 8 defer_events) = Some s /\
    lids (l_out s) = [1; 3] /\ lids (l_dropped s) = [2] /\ lpending s = [] /\
    lsteps (LCFG 8 1 false) s [LTake] = None.
Proof.
  eexists. split; [exact defer_backlog_good|]. split; [vm_compute; reflexivity|]. cbn. repeat split; reflexivity.
Qed.
