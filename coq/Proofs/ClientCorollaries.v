(* C02 — the theorems transported to accepted observed traces: what the invariants say about every trace of
   the real client that the acceptor accepted (stated on observable events only), and an example run. *)
From SV Require Import Model.Common Model.Client Model.ClientAccept Spec.ClientSpec
     Proofs.ClientBase Proofs.ClientSafety Proofs.ClientHistory Proofs.ClientOrder Proofs.ClientTheorems
     Proofs.ClientAcceptProofs.
From Coq Require Import Lia Permutation.

Lemma filter_split : forall (A : Type) (f : A -> bool) l o1 x o2,
  filter f l = o1 ++ x :: o2 -> exists l1 l2, l = l1 ++ x :: l2 /\ filter f l1 = o1 /\ filter f l2 = o2.
Proof.
  intros A f. induction l as [|a l IH]; intros o1 x o2 H; simpl in H.
  - destruct o1; discriminate H.
  - destruct (f a) eqn:E.
    + destruct o1 as [|y o1]; simpl in H.
      * inversion H; subst. exists [], l. simpl. auto.
      * inversion H; subst. destruct (IH _ _ _ H2) as (l1 & l2 & -> & F1 & F2).
        exists (y :: l1), l2. simpl. rewrite E, F1. auto.
    + destruct (IH _ _ _ H) as (l1 & l2 & -> & F1 & F2). exists (a :: l1), l2. simpl. rewrite E. auto.
Qed.

(* what a run says happened is said by its observable events *)
Lemma obs_projections : forall tr,
  offered_of (obs_of tr) = offered_of tr /\ consumed_of (obs_of tr) = consumed_of tr /\
  handed_of (obs_of tr) = handed_of tr /\ finished_in (obs_of tr) = finished_in tr.
Proof.
  induction tr as [|e tr (I1 & I2 & I3 & I4)]; [repeat split; reflexivity|]. unfold finished_in in *.
  repeat split; destruct e; simpl; congruence.
Qed.

(* every trace the acceptor accepts (searching inside the contract only) satisfies, on its observable events:
   a confirmation is preceded by a completed transmission of that chunk and a successful ack read on the same
   connection; with distinct ids and the client finished, the chunks the model says were taken are exactly the
   confirmed and handed-back ones, each once *)
Lemma accepted_trace_lemma : forall P os out,
  Forall (fun e => is_obs e = true) os ->
  accept_out P false os = str_accept ++ colon :: out ->
  (forall o1 c o2, os = o1 ++ EConsumed c :: o2 ->
     exists k a, In (ESendRet k c ROk) o1 /\ In (EAckRet k a) o1 /\ (a = AId c \/ a = AEmpty)) /\
  exists s, render_proj s = out /\
    (NoDup (offered_of os) -> finished_in os = true ->
     Permutation (rev (h_taken s)) (consumed_of os ++ handed_of os) /\ NoDup (consumed_of os ++ handed_of os)).
Proof.
  intros P os out Hf Ha.
  destruct (accept_sound_lemma P false os out Hf Ha) as (tr & s & Hr & Ho & Hc & Hp).
  specialize (Hc eq_refl). split.
  - intros o1 c o2 E. rewrite <- Ho in E. unfold obs_of in E.
    destruct (filter_split _ _ _ _ _ _ E) as (t1 & t2 & -> & F1 & F2).
    destruct (confirm_after_ack_lemma P t1 c t2 s Hr) as (k & Hs & (p1 & p2 & a & Hpre & Hd)).
    exists k, a. subst o1. split; [apply filter_In; split; [exact Hs|reflexivity]|].
    split.
    + apply filter_In. split; [|reflexivity]. rewrite Hpre. apply in_or_app. right. left. reflexivity.
    + destruct Hd as [Hd|[Hd _]]; auto.
  - exists s. split; [exact Hp|]. intros Hn Hfin.
    rewrite <- Ho in *. destruct (obs_projections tr) as (E1 & E2 & E3 & E4).
    rewrite E1 in Hn. rewrite E4 in Hfin. rewrite E2, E3.
    destruct (resolved_exactly_once_at_end P tr s Hr Hc Hn Hfin) as [H1 H2].
    split; [|exact H2]. rewrite (hs_taken _ _ (hist_reach P tr s Hr)), rev_involutive. exact H1.
Qed.

(* a concrete, non-trivial run inside the hypotheses of the theorems *)
(* two chunks; the second send fails on connection 1; both are re-sent in id order on connection 2 and
   acknowledged (one with its id, one with the empty id); stop; nothing is handed back *)
Definition example_run : list event :=
  [EOffer 1%N; EOffer 2%N; EMainSpawn; EConnStart 1; EConnRet 1 true; EMainConn; EResendDone;
   ETake 1%N; ESendRet 1 1%N ROk; EEnqueue; ETake 2%N; ESendRet 1 2%N RErr; EAckerTake 1%N; EAckRet 1 AErr;
   EClose 1; ECollected; ERetryTimeout;
   EMainSpawn; EConnStart 2; EConnRet 2 true; EMainConn;
   EResendTake 1%N; ESendRet 2 1%N ROk; EEnqueue; EResendTake 2%N; ESendRet 2 2%N ROk; EEnqueue; EResendDone;
   EAckerTake 1%N; EAckRet 2 (AId 1%N); EConsumed 1%N; EAckerTake 2%N; EAckRet 2 AEmpty; EConsumed 2%N;
   EInClose; EStop; EInClosedSeen; EAckerAbort; ECollected; EAborter; EClose 2; EFinished].

Lemma example_lemma :
  exists s, reach_by (mkParams 2 false true) example_run s /\ in_contract example_run /\ distinct_input example_run /\
            finished_in example_run = true /\
            taken_of example_run = [1; 2]%N /\ consumed_of example_run = [1; 2]%N /\ handed_of example_run = [] /\
            sent_on 1 example_run = [1%N] /\ sent_on 2 example_run = [1; 2]%N /\
            h_los s = [(2%nat, [1; 2]%N); (1%nat, [])].
Proof.
  destruct (run (mkParams 2 false true) init example_run) as [s|] eqn:E; [|vm_compute in E; discriminate E].
  exists s. split; [exact E|]. vm_compute in E. inversion E; subst s. clear E.
  split; [unfold in_contract, example_run; simpl; intuition discriminate|].
  split; [unfold distinct_input; simpl; repeat constructor; simpl; intuition discriminate|].
  repeat split; reflexivity.
Qed.
