(* Proofs about Model/Composite.v (sysloginput's composite parser: parser + extraction transforms +
   CountRecordPassToDrop + Release) against the accounting relations of Spec/SyslogSpec.v: [release_spec], the
   accounting of one call and of a stream for every extraction function with [keeps_raw_length]
   ([composite_accounting_lemma], [composite_stream_lemma]), and the order release-then-count refuted
   ([release_first_refuted_lemma]).  At the end [totals_ok], the running totals of a drop transform are ordered
   (0 <= dropped <= matched), and [run_xform_totals]: every step of [run_xform] keeps it. *)
From SV Require Import Model.Common Model.Utf8 Model.Parser Model.Composite Spec.Utf8Spec Spec.SyslogSpec
  Proofs.CommonFacts Proofs.Utf8Proofs Proofs.ParserProofs.
From Coq Require Import Lia ZifyBool ZifyN ZifyNat.
Ltac Zify.zify_post_hook ::= Z.div_mod_to_equations.
Open Scope N_scope.

Lemma release_spec : forall r refs,
  (1 <= refs)%Z ->
  exists c', release (new_cell refs r) = Ok c' /\ c_refs c' = (refs - 1)%Z /\
             (refs = 1%Z -> c_rec c' = cleared r) /\ ((1 < refs)%Z -> c_rec c' = r).
Proof.
  intros r refs H. unfold release, new_cell. cbn [c_refs c_rec].
  destruct (refs - 1 <? 0)%Z eqn:E1; [lia|]. destruct (0 <? refs - 1)%Z eqn:E2.
  - eexists. split; [reflexivity|]. cbn [c_refs c_rec]. split; [reflexivity|]. split; intros; [lia|reflexivity].
  - eexists. split; [reflexivity|]. cbn [c_refs c_rec]. split; [lia|]. split; intros; [reflexivity|lia].
Qed.

Lemma release_panics_without_reference : forall r refs,
  (refs <= 0)%Z -> release (new_cell refs r) = Panic site_refcount.
Proof.
  intros r refs H. unfold release, new_cell. cbn [c_refs]. destruct (refs - 1 <? 0)%Z eqn:E1; [reflexivity|lia].
Qed.

Lemma pass_to_drop_after_pass : forall cnt c1 len,
  counted_passed cnt c1 len -> counted_dropped_any cnt (count_pass_to_drop c1 len) len.
Proof.
  intros cnt c1 len [A [B [C D]]]. unfold counted_dropped_any, count_pass_to_drop. cbn. repeat split; lia.
Qed.

Lemma pass_to_drop_overflow : forall c len,
  overflow_n (count_pass_to_drop c len) = overflow_n c /\ overflow_bytes (count_pass_to_drop c len) = overflow_bytes c.
Proof. intros. split; reflexivity. Qed.

Lemma set_field_raw_length : forall r i v, raw_length (set_field r i v) = raw_length r.
Proof. reflexivity. Qed.

Lemma del_fields_raw_length : forall keys r,
  raw_length (fold_left (fun r0 k => set_field r0 k []) keys r) = raw_length r.
Proof.
  induction keys as [|k keys IH]; intros r; [reflexivity|]. cbn [fold_left]. rewrite IH. reflexivity.
Qed.

Lemma run_xform_raw_length : forall x r lab,
  raw_length (snd (fst (run_xform x r lab))) = raw_length r.
Proof.
  intros [conds pct label m d|keys] r lab; unfold run_xform.
  - destruct (negb (xmatch conds r)); [reflexivity|]. destruct (pct =? 100)%Z; [reflexivity|].
    destruct ((0 <? m) && (Z.quot (100 * d) m <? pct))%Z; reflexivity.
  - cbn [fst snd]. apply del_fields_raw_length.
Qed.

Lemma run_transforms_raw_length : forall xs r lab,
  raw_length (snd (fst (run_transforms xs r lab))) = raw_length r.
Proof.
  induction xs as [|x xs IH]; intros r lab; [reflexivity|]. cbn [run_transforms].
  pose proof (run_xform_raw_length x r lab) as H.
  destruct (run_xform x r lab) as [[[d x'] r'] lab']. cbn [fst snd] in H. destruct d; [exact H|].
  pose proof (IH r' lab') as H2. destruct (run_transforms xs r' lab') as [[[d2 xs'] r''] lab'']. cbn [fst snd] in *. lia.
Qed.

Definition keeps_raw_length {X : Type} (extract : X -> record -> bool * record * X) : Prop :=
  forall x r, raw_length (snd (fst (extract x r))) = raw_length r.

Lemma extract_transforms_keeps_raw_length : keeps_raw_length extract_transforms.
Proof.
  intros [xs lab] r. unfold extract_transforms. cbn [fst snd].
  pose proof (run_transforms_raw_length xs r lab) as H.
  destruct (run_transforms xs r lab) as [[[d xs'] r'] lab']. exact H.
Qed.

(* the transforms come back because drop transforms carry running totals; their number does not change *)
Lemma run_transforms_length : forall xs r lab,
  length (snd (fst (fst (run_transforms xs r lab)))) = length xs.
Proof.
  induction xs as [|x xs IH]; intros r lab; [reflexivity|]. cbn [run_transforms].
  destruct (run_xform x r lab) as [[[d x'] r'] lab']. destruct d; [reflexivity|].
  pose proof (IH r' lab') as H. destruct (run_transforms xs r' lab') as [[[d2 xs'] r''] lab'']. cbn [fst snd length] in *. lia.
Qed.

Definition overflow_ok (c c' : counters) (len : nat) : Prop := same_overflow c c' \/ one_overflow c c' len.

(* the statement of the property for one message through the composite parser *)
Lemma composite_accounting_lemma : forall (X : Type) (extract : X -> record -> bool * record * X) refs0 cfg cnt x input,
  cfg_ok cfg -> (1 <= refs0)%Z -> keeps_raw_length extract ->
  exists res cnt' x',
    composite_parse false refs0 extract cfg cnt x input = (Ok res, cnt', x') /\
    match res with
    | Some r => counted_passed cnt cnt' (length input) /\ raw_length r = length input
    | None => counted_dropped_any cnt cnt' (length input)
    end /\
    overflow_ok cnt cnt' (length input).
Proof.
  intros X extract refs0 cfg cnt x input Hc Hrefs Hx. unfold composite_parse.
  destruct (accounting_lemma cfg cnt input Hc) as [res [c1 [Hp Hres]]]. rewrite Hp.
  destruct res as [r|].
  - destruct Hres as [Hpass [Hraw Hov]].
    pose proof (Hx x r) as Hr. destruct (extract x r) as [[d r'] x']. cbn [fst snd] in Hr.
    destruct d.
    + destruct (release_spec r' refs0 Hrefs) as [c' [Hrel _]]. rewrite Hrel.
      exists None. eexists. exists x'. split; [reflexivity|]. unfold new_cell. cbn [c_rec]. rewrite Hr, Hraw. split.
      * apply pass_to_drop_after_pass. exact Hpass.
      * unfold overflow_ok, same_overflow, one_overflow in *. cbn [count_pass_to_drop overflow_n overflow_bytes]. exact Hov.
    + exists (Some r'), c1, x'. split; [reflexivity|]. split; [split; [exact Hpass|lia]|exact Hov].
  - exists None, c1, x. split; [reflexivity|]. destruct Hres as (A & B & C & D & E).
    split; [repeat split; assumption|left; exact E].
Qed.

(* what the composite parser returns: nil when the parser refuses the message or the extraction drops its
   record, else the parser's record after the extraction *)
Lemma composite_result_lemma : forall (X : Type) (extract : X -> record -> bool * record * X) refs0 cfg cnt x input,
  cfg_ok cfg -> (1 <= refs0)%Z ->
  fst (fst (composite_parse false refs0 extract cfg cnt x input)) =
    match fst (parse cfg cnt input) with
    | Ok (Some r) => if fst (fst (extract x r)) then Ok None else Ok (Some (snd (fst (extract x r))))
    | o => o
    end.
Proof.
  intros X extract refs0 cfg cnt x input Hc Hrefs. unfold composite_parse.
  destruct (parse cfg cnt input) as [[[r|]|e|s] c1]; cbn [fst]; try reflexivity.
  destruct (extract x r) as [[d r'] x']. cbn [fst snd]. destruct d; [|reflexivity].
  destruct (release_spec r' refs0 Hrefs) as [c' [Hrel _]]. rewrite Hrel. reflexivity.
Qed.

Lemma composite_no_panic_lemma : forall (X : Type) (extract : X -> record -> bool * record * X) refs0 cfg cnt x input,
  cfg_ok cfg -> (1 <= refs0)%Z ->
  is_panic (fst (fst (composite_parse false refs0 extract cfg cnt x input))) = false.
Proof.
  intros X extract refs0 cfg cnt x input Hc Hrefs. rewrite composite_result_lemma by assumption.
  destruct (accounting_lemma cfg cnt input Hc) as [res [c1 [Hp _]]]. rewrite Hp. cbn [fst].
  destruct res as [r|]; [|reflexivity]. destruct (fst (fst (extract x r))); reflexivity.
Qed.

(* extractions that never drop and keep the record: the composite parser is the parser *)
Lemma composite_passthrough_lemma : forall (X : Type) (extract : X -> record -> bool * record * X) rf refs0 cfg cnt x input,
  (forall x r, extract x r = (false, r, x)) ->
  composite_parse rf refs0 extract cfg cnt x input = (parse cfg cnt input, x).
Proof.
  intros X extract rf refs0 cfg cnt x input H. unfold composite_parse.
  destruct (parse cfg cnt input) as [[[r|]|e|s] c]; try reflexivity. rewrite H. reflexivity.
Qed.

Definition stream_outs {X : Type} (rs : list (outcome (option record) * counters * X)) : list (outcome (option record)) :=
  map (fun r => fst (fst r)) rs.

Definition stream_final {X : Type} (rs : list (outcome (option record) * counters * X)) (cnt : counters) : counters :=
  last (map (fun r => snd (fst r)) rs) cnt.

Lemma stream_final_cons : forall (X : Type) (r : outcome (option record) * counters * X) rs cnt,
  stream_final (r :: rs) cnt = stream_final rs (snd (fst r)).
Proof.
  intros X r rs cnt. apply last_cons.
Qed.

Lemma composite_stream_lemma : forall (X : Type) (extract : X -> record -> bool * record * X) refs0 cfg msgs cnt x,
  cfg_ok cfg -> (1 <= refs0)%Z -> keeps_raw_length extract ->
  let rs := composite_stream false refs0 extract cfg cnt x msgs in
  let outs := stream_outs rs in
  let fin := stream_final rs cnt in
  length rs = length msgs /\
  Forall (fun o => is_panic o = false) outs /\
  passed_n fin = passed_n cnt + delivered_n msgs outs /\
  passed_bytes fin = passed_bytes cnt + delivered_bytes msgs outs /\
  dropped_n fin = dropped_n cnt + refused_n msgs outs /\
  dropped_bytes fin = dropped_bytes cnt + refused_bytes msgs outs /\
  delivered_n msgs outs + refused_n msgs outs = N.of_nat (length msgs) /\
  delivered_bytes msgs outs + refused_bytes msgs outs = sum_lengths msgs.
Proof.
  intros X extract refs0 cfg msgs cnt x Hc Hrefs Hx. revert cnt x.
  induction msgs as [|m ms IH]; intros cnt x.
  - cbn. repeat split; try lia. constructor.
  - cbn [composite_stream].
    destruct (composite_accounting_lemma X extract refs0 cfg cnt x m Hc Hrefs Hx) as [res [c1 [x1 [E [Hres _]]]]].
    rewrite E. cbn [fst snd].
    specialize (IH c1 x1). cbn zeta in IH.
    set (rs := composite_stream false refs0 extract cfg c1 x1 ms) in *.
    destruct IH as [I0 [I1 [I2 [I3 [I4 [I5 [I6 I7]]]]]]].
    cbn zeta. rewrite stream_final_cons. cbn [fst snd].
    unfold stream_outs in *. cbn [map fst snd length].
    split; [lia|]. split; [constructor; [reflexivity|exact I1]|].
    cbn [sum_lengths fold_right]. fold (sum_lengths ms).
    destruct res as [r|]; [destruct Hres as [[A [B [C D]]] _]|destruct Hres as [A [B [C D]]]];
      cbn [delivered_n delivered_bytes refused_n refused_bytes]; repeat split; lia.
Qed.

(* for every message whose record an extraction drops, on an allocator with one output: the record count
   moves from passed to dropped, but the bytes stay in passed and never reach dropped *)
Lemma release_first_lemma : forall (X : Type) (extract : X -> record -> bool * record * X) cfg cnt x input r c1,
  cfg_ok cfg -> keeps_raw_length extract ->
  parse cfg cnt input = (Ok (Some r), c1) -> fst (fst (extract x r)) = true ->
  exists cnt' x',
    composite_parse true 1 extract cfg cnt x input = (Ok None, cnt', x') /\
    passed_n cnt' = passed_n cnt /\ dropped_n cnt' = dropped_n cnt + 1 /\
    passed_bytes cnt' = passed_bytes cnt + N.of_nat (length input) /\
    dropped_bytes cnt' = dropped_bytes cnt.
Proof.
  intros X extract cfg cnt x input r c1 Hc Hx Hp Hd. unfold composite_parse. rewrite Hp.
  destruct (accounting_lemma cfg cnt input Hc) as [res [c1' [Hp' Hres]]]. rewrite Hp in Hp'. injection Hp' as <- <-.
  destruct Hres as [[A [B [C D]]] _].
  destruct (extract x r) as [[d r'] x']. cbn [fst snd] in Hd. subst d.
  unfold release, new_cell. cbn [c_refs c_rec]. change (1 - 1 <? 0)%Z with false. change (0 <? 1 - 1)%Z with false.
  cbn iota. exists (count_pass_to_drop c1 (raw_length (cleared r'))), x'. split; [reflexivity|].
  unfold count_pass_to_drop, cleared. cbn. repeat split; lia.
Qed.

(* with two or more outputs the first Release does not recycle the record: the swap is invisible *)
Lemma release_first_masked_lemma : forall (X : Type) (extract : X -> record -> bool * record * X) refs0 cfg cnt x input,
  (2 <= refs0)%Z ->
  composite_parse true refs0 extract cfg cnt x input = composite_parse false refs0 extract cfg cnt x input.
Proof.
  intros X extract refs0 cfg cnt x input H. unfold composite_parse.
  destruct (parse cfg cnt input) as [[[r|]|e|s] c1]; try reflexivity.
  destruct (extract x r) as [[d r'] x']. destruct d; [|reflexivity].
  destruct (release_spec r' refs0) as (c' & -> & _ & _ & Hr); [lia|]. rewrite Hr by lia. reflexivity.
Qed.

(* concrete witness: the line of the package's unit test, an extraction "drop: match app = my-app1, 100 %" *)
Definition example_drop : list xform := [XDrop [(4%nat, [109;121;45;97;112;112;49])] 100 [76;49] 0 0].
Definition example_line : bytes := render 163 example_header example_msg.

Lemma example_composite_lemma :
  cfg_ok example_cfg /\
  composite_parse false 1 extract_transforms example_cfg counters_zero (example_drop, []) example_line =
    (Ok None, {| passed_n := 0; passed_bytes := 0; dropped_n := 1; dropped_bytes := 74; overflow_n := 0; overflow_bytes := 0 |},
     (example_drop, [([76;49], (1, 74))])).
Proof. split; [reflexivity|vm_compute; reflexivity]. Qed.

Lemma release_first_refuted_lemma :
  exists cfg cnt xs input cnt' x',
    cfg_ok cfg /\
    composite_parse true 1 extract_transforms cfg cnt (xs, []) input = (Ok None, cnt', x') /\
    ~ counted_dropped_any cnt cnt' (length input) /\
    total_bytes cnt' = total_bytes cnt + N.of_nat (length input) /\
    passed_n cnt' = 0 /\ passed_bytes cnt' = N.of_nat (length input).
Proof.
  exists example_cfg, counters_zero, example_drop, example_line.
  eexists. eexists. split; [reflexivity|]. split; [vm_compute; reflexivity|].
  split; [|split; [reflexivity|split; reflexivity]].
  unfold counted_dropped_any. intros [_ [A _]]. vm_compute in A. discriminate A.
Qed.

(* the running totals of a drop transform stay ordered: 0 <= dropped <= matched *)
Definition totals_ok (x : xform) : Prop :=
  match x with XDrop _ _ _ m d => (0 <= d <= m)%Z | XDel _ => True end.

Lemma run_xform_totals : forall x r lab, totals_ok x -> totals_ok (snd (fst (fst (run_xform x r lab)))).
Proof.
  intros [conds pct label m d|keys] r lab H; unfold run_xform; [|exact I].
  destruct (negb (xmatch conds r)); [exact H|]. destruct (pct =? 100)%Z; [exact H|].
  destruct ((0 <? m) && (Z.quot (100 * d) m <? pct))%Z; cbn in *; lia.
Qed.
