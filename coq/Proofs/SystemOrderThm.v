(* The order theorems of C05 over all order-safe runs of Model/System.v. *)
From Coq Require Import List Arith Bool Lia PeanoNat NArith Permutation.
From SV Require Import Model.Common Model.System Model.SystemAccept Model.SystemOrderCase Proofs.SystemLists Proofs.SystemProofs Proofs.SystemAlo
  Proofs.SystemOrderLists Proofs.SystemOrder Proofs.SystemOrderTok.
Import ListNotations.
Open Scope nat_scope.

Lemma memn_spec : forall x l, memn x l = true <-> In x l.
Proof. exact mem_nat_spec. Qed.

Lemma memn_ext : forall x s1 s2, (forall y, In y s1 <-> In y s2) -> memn x s1 = memn x s2.
Proof.
  intros x s1 s2 H. destruct (memn x s1) eqn:E1, (memn x s2) eqn:E2; auto.
  - apply memn_spec in E1. apply H in E1. apply memn_spec in E1. congruence.
  - apply memn_spec in E2. apply H in E2. apply memn_spec in E2. congruence.
Qed.

Lemma fo_ext : forall l s1 s2, (forall y, In y s1 <-> In y s2) -> fo s1 l = fo s2 l.
Proof.
  induction l as [|x l IH]; intros s1 s2 H; cbn; [reflexivity|].
  rewrite (memn_ext x s1 s2 H). destruct (memn x s2); [apply IH; assumption|].
  f_equal. apply IH. intros y. cbn. rewrite H. tauto.
Qed.

Lemma fo_app : forall a b seen, fo seen (a ++ b) = fo seen a ++ fo (a ++ seen) b.
Proof.
  induction a as [|x a IH]; intros b seen; cbn; [reflexivity|].
  destruct (memn x seen) eqn:E.
  - rewrite IH. f_equal. apply fo_ext. intros y. cbn. rewrite !in_app_iff. apply memn_spec in E.
    intuition (subst; auto).
  - cbn. f_equal. rewrite IH. f_equal. apply fo_ext. intros y. cbn. rewrite !in_app_iff. cbn. tauto.
Qed.

Lemma fo_all_seen : forall l seen, (forall x, In x l -> In x seen) -> fo seen l = [].
Proof.
  induction l as [|x l IH]; intros seen H; cbn; [reflexivity|].
  assert (E : memn x seen = true) by (apply memn_spec; apply H; left; reflexivity). rewrite E.
  apply IH. intros y Hy. apply H. right. assumption.
Qed.

Lemma fo_fresh : forall l seen, NoDup l -> (forall x, In x l -> ~ In x seen) -> fo seen l = l.
Proof.
  induction l as [|x l IH]; intros seen Hn H; cbn; [reflexivity|].
  inversion Hn as [|? ? Hx Hl]; subst.
  assert (E : memn x seen = false).
  { destruct (memn x seen) eqn:E; [|reflexivity]. apply memn_spec in E. exfalso. apply (H x); [left; reflexivity|assumption]. }
  rewrite E. f_equal. apply IH; [assumption|]. intros y Hy [<-|Hs]; [contradiction|]. apply (H y); [right; assumption|assumption].
Qed.

Lemma fo_in : forall l seen x, In x (fo seen l) -> In x l.
Proof.
  induction l as [|y l IH]; intros seen x H; cbn in H; [destruct H|].
  destruct (memn y seen); [right; eapply IH; eassumption|]. destruct H as [<-|H]; [left; reflexivity|right; eapply IH; eassumption].
Qed.

Section Stream.
Variables k p : nat.

(* the records of stream (k, p) in the order in which the upstream received them (duplicates included) *)
Definition delivered (s : state) : list nat := flat_map (fun c => sq k p (c_toks c)) (rev (recvp p s)).

Lemma order_of_receipts : forall l,
  ro l ->
  (forall c, In c l -> incr (sq k p (c_toks c))) ->
  (forall c c', In c l -> In c' l -> c_id c < c_id c' -> forall x y, In x (sq k p (c_toks c)) -> In y (sq k p (c_toks c')) -> x < y) ->
  incr (first_occ (flat_map (fun c => sq k p (c_toks c)) (rev l))).
Proof.
  induction l as [|c l IH]; intros Hro Hin Hid; [exact I|].
  cbn [rev]. rewrite flat_map_app. cbn [flat_map]. rewrite app_nil_r. unfold first_occ. rewrite fo_app. rewrite app_nil_r.
  destruct Hro as [Hc Hro].
  assert (IHl : incr (first_occ (flat_map (fun c => sq k p (c_toks c)) (rev l)))).
  { apply IH; [exact Hro|intros; apply Hin; right; assumption|intros c1 c2 H1 H2; apply Hid; right; assumption]. }
  unfold first_occ in IHl.
  destruct Hc as [Hc|Hc].
  - (* a retransmission: nothing new *)
    rewrite (fo_all_seen (sq k p (c_toks c))); [rewrite app_nil_r; exact IHl|].
    intros x Hx. apply in_flat_map. exists c. split; [apply -> in_rev; assumption|assumption].
  - (* a first transmission: every record of it is newer than everything delivered before *)
    assert (Lt : forall x y, In x (flat_map (fun c => sq k p (c_toks c)) (rev l)) -> In y (sq k p (c_toks c)) -> x < y).
    { intros x y Hx Hy. apply in_flat_map in Hx. destruct Hx as [a [Ha Hx]]. apply in_rev in Ha.
      apply (Hid a c); [right; assumption|left; reflexivity|apply Hc; assumption|assumption|assumption]. }
    rewrite (fo_fresh (sq k p (c_toks c))).
    + apply incr_app. split; [exact IHl|]. split; [apply Hin; left; reflexivity|].
      intros x y Hx Hy. apply Lt; [eapply fo_in; exact Hx|exact Hy].
    + apply incr_NoDup. apply Hin. left. reflexivity.
    + intros x Hx Hs. specialize (Lt x x Hs Hx). lia.
Qed.

End Stream.

Lemma order_invariants : forall k p es s,
  steps init es = Some s -> order_safe es = true -> aux s /\ cons_inv s /\ ordp p s /\ ordt k p s.
Proof.
  intros k p es s H Hs.
  refine (steps_inv (fun e => order_safe_event e = true) (fun s => aux s /\ cons_inv s /\ ordp p s /\ ordt k p s) _ es init s
            _ (proj1 (forallb_forall _ _) Hs) H); [|auto using aux_init, cons_init, ordp_init, ordt_init].
  intros s0 e s1 (Ha & Hc & Ho & Ht) G E.
  split; [eapply aux_step; eauto|]. split; [eapply cons_step; eauto|]. split; [eapply ordp_step; eauto|].
  eapply ordt_step; eauto. exact (P4 _ _ Ho).
Qed.

(* per_stream_order: the first deliveries of the records of a stream are in arrival order *)
Lemma per_stream_order_lemma : forall k p es s,
  steps init es = Some s -> order_safe es = true -> incr (first_occ (delivered k p s)).
Proof.
  intros k p es s H Hs. destruct (order_invariants k p es s H Hs) as [Ha [Hc [Ho Ht]]].
  unfold delivered. apply order_of_receipts.
  - exact (P10 _ _ Ho).
  - intros c Hin. apply recvp_in in Hin. destruct Hin as [Hin Ep].
    apply (T2 _ _ _ Ht c); [unfold all_chunks; rewrite !in_app_iff; tauto|exact Ep].
  - intros c c' Hin Hin' Hlt. apply recvp_in in Hin. apply recvp_in in Hin'. destruct Hin as [Hin Ep]. destruct Hin' as [Hin' Ep'].
    apply (T3 _ _ _ Ht c c'); auto; unfold all_chunks; rewrite !in_app_iff; tauto.
Qed.

(* per_connection_creation_order: on the current upstream connection of a pipeline the chunks were transmitted in
   increasing id (= creation) order, and every chunk of the pipeline that is still to be transmitted (leftovers,
   window, feeder, queue) is newer than every chunk already transmitted on this connection: no older undelivered
   chunk is skipped.  The same chain orders retransmission (leftovers first, sorted) before new chunks. *)
Lemma per_connection_creation_order_lemma : forall p es s,
  steps init es = Some s -> order_safe es = true ->
  incr (idsp p (unacked s)) /\
  incr (idsp p (leftovers s) ++ idsp p (window s) ++ idsp p (fhand s) ++ idsp p (queue s)) /\
  (forall u q, In u (idsp p (unacked s)) ->
               In q (idsp p (leftovers s) ++ idsp p (window s) ++ idsp p (fhand s) ++ idsp p (queue s)) -> u < q).
Proof.
  intros p es s H Hs. destruct (order_invariants 0 p es s H Hs) as [_ [_ [Ho _]]].
  pose proof (P5 _ _ Ho) as C. unfold chain in C. apply incr_app in C. tauto.
Qed.

(* recovery order: after a restart the queue of a pipeline holds its chunk files in increasing id order *)
Lemma recovery_sorted_lemma : forall p es s s',
  steps init es = Some s -> order_safe es = true -> step s ERestart = Some s' ->
  incr (idsp p (queue s')) /\ (forall c, In c (files s) -> c_pipe c = p -> In (c_id c) (idsp p (queue s'))).
Proof.
  intros p es s s' H Hs Hr. destruct (order_invariants 0 p es s H Hs) as [_ [_ [Ho _]]].
  assert (Ho' : ordp p s') by (apply (ordp_step p s ERestart s' Ho eq_refl Hr)).
  pose proof (P5 _ _ Ho') as C. split.
  - unfold chain in C. rewrite !incr_app in C. tauto.
  - clear C Ho'. cbn [step] in Hr. destruct (gphase_eqb (phase s) Stopped); [|discriminate Hr]. injection Hr as <-.
    intros c Hc Ep. cbn [queue]. unfold recovered_queue. apply idsp_in.
    exists (new_item c false true). split; [apply sort_items_in; apply (in_map (fun c => new_item c false true)); assumption|]. split; [apply item_on_eq; exact Ep|reflexivity].
Qed.

Lemma incrb_spec : forall l, incrb l = true <-> incr l.
Proof.
  induction l as [|x l IH]; cbn; [tauto|]. rewrite andb_true_iff, forallb_forall, IH. split.
  - intros [H1 H2]. split; [|assumption]. intros y Hy. apply Nat.ltb_lt. apply H1. assumption.
  - intros [H1 H2]. split; [|assumption]. intros y Hy. apply Nat.ltb_lt. apply H1. assumption.
Qed.

Lemma deliveredb_eq : forall k p s, deliveredb k p s = delivered k p s.
Proof. reflexivity. Qed.

(* the boolean order check printed by the acceptor follows from the theorem *)
Lemma order_check_lemma : forall es s, steps init es = Some s -> order_safe es = true -> order_check s = true.
Proof.
  intros es s H Hs. unfold order_check. apply forallb_forall. intros [k p] _. cbn [fst snd].
  apply incrb_spec. rewrite deliveredb_eq. eapply per_stream_order_lemma; eassumption.
Qed.

Lemma first_receipts_by_id_lemma :
  forall k p es s, steps init es = Some s -> order_safe es = true ->
  ro (recvp p s) /\
  (forall c c', In c (received s) -> In c' (received s) -> c_pipe c = p -> c_pipe c' = p -> c_id c < c_id c' ->
     forall x y, In x (sq k p (c_toks c)) -> In y (sq k p (c_toks c')) -> x < y).
Proof.
  intros k p es s H Hs. destruct (order_invariants k p es s H Hs) as [_ [_ [Ho Ht]]]. split; [exact (P10 _ _ Ho)|].
  intros c c' Hc Hc'. apply (T3 _ _ _ Ht c c'); unfold all_chunks; rewrite !in_app_iff; tauto.
Qed.
