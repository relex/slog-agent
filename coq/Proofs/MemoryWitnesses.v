(* C12: concrete configurations and histories: witnesses of the refuted statements (the code before the
   repair of truncate) and a non-trivial instance of the hypotheses of the theorems.  Everything here is
   evaluated by vm_compute. *)
From SV Require Import Model.Common Model.Memory Proofs.MemoryProofs Proofs.MemoryStatic.
Open Scope N_scope.

Definition wit_levels : list bytes :=
  [ [111;102;102]; [102;97;116;97;108]; [99;114;105;116]; [101;114;114;111;114]; [119;97;114;110];
    [110;111;116;105;99;101]; [105;110;102;111]; [100;101;98;117;103] ].

(* "abc" ++ EURO SIGN ++ "defghijk" *)
Definition wit_literal : bytes := [97;98;99;226;130;172;100;101;102;103;104;105;106;107].

Definition wit_params : mem_params := {| p_min_pool := 48; p_max_msg := 200; p_max_rec := 456 |}.

Definition wit_out : mem_outcfg := {| oc_env := [3%nat]; oc_hidden := []; oc_rewrite := [] |}.

(* transformations:  addFields x1: "abc(euro)defghijk"   then   truncate key: x1, maxLen: 5, suffix: ".." *)
Definition wit_cfg (mode : mem_trunc_mode) : mem_config :=
  {| c_params := wit_params; c_nfields := 12; c_maxfields := 14; c_level_sites := Some 0%nat;
     c_cfg_init := wit_levels ++ [wit_literal];
     c_extract := [TSimple (TDelFields [7%nat])];
     c_transforms := [TSimple (TAddLit 9 8); TSimple (TTruncate 9 5 [46;46])];
     c_outputs := [wit_out]; c_trunc_mode := mode; c_rw_sets_flag := false |}.

(* "<163>1 2019-08-15T15:50:46Z host1 app 123 src - hello world, this is a message" (longer than 48 bytes: pooled) *)
Definition wit_input : bytes :=
  [60;49;54;51;62;49;32;50;48;49;57;45;48;56;45;49;53;84;49;53;58;53;48;58;52;54;90;32;104;111;115;116;49;32;97;112;112;32;
   49;50;51;32;115;114;99;32;45;32;104;101;108;108;111;32;119;111;114;108;100;44;32;116;104;105;115;32;105;115;32;97;32;109;
   101;115;115;97;103;101].

(* the same record twice; the second time the pool hands back the struct and the buffer of the first *)
Definition wit_events : list mem_event :=
  [EvParse None None wit_input 1000; EvTransform 0; EvOutput 0;
   EvParse (Some 0%nat) (Some 0%nat) wit_input 1000; EvTransform 0; EvOutput 0].

Definition wit_x1_of (g : mem_gstate) (rid : nat) : list bytes :=
  map (fun e => match find (fun kv => Nat.eqb (fst kv) 9) (d_fields (snd e)) with Some kv => snd kv | None => [] end)
      (filter (fun e => Nat.eqb (fst (fst e)) rid) (g_out g)).

(* a history and what is observed of its final state are evaluated together, once *)
Lemma wit_run_ok : forall (res : mem_step_res) (P : mem_gstate -> Prop),
  match res with StepOk g => P g | StepStop _ => False end -> exists g, res = StepOk g /\ P g.
Proof. intros [g|s] P H; [exists g; split; [reflexivity|exact H]|contradiction]. Qed.

(* before the repair (truncate in place): the first record gets "abc..", the second - the same bytes, after the
   first - gets "abc....", and the configuration string has been modified *)
Lemma wit_inplace_run :
  exists g, mem_run (wit_cfg TruncInPlace) (mem_init (wit_cfg TruncInPlace)) wit_events = StepOk g /\
            wit_x1_of g 0 = [[97;98;99;46;46]] /\ wit_x1_of g 1 = [[97;98;99;46;46;46;46]] /\
            g_cfg g <> c_cfg_init (wit_cfg TruncInPlace) /\ g_dirty g = true.
Proof.
  apply wit_run_ok. vm_compute.
  split; [reflexivity|]. split; [reflexivity|]. split; [discriminate|reflexivity].
Qed.

(* after the repair both get "abc.." and the configuration memory is untouched *)
Lemma wit_copy_run :
  exists g, mem_run (wit_cfg TruncCopy) (mem_init (wit_cfg TruncCopy)) wit_events = StepOk g /\
            wit_x1_of g 0 = [[97;98;99;46;46]] /\ wit_x1_of g 1 = [[97;98;99;46;46]] /\
            g_cfg g = c_cfg_init (wit_cfg TruncCopy) /\
            (* the second record really reused struct 0 and buffer 0 *)
            length (g_slots g) = 1%nat /\ length (g_bufs g) = 1%nat /\ g_next_rid g = 2%nat.
Proof.
  apply wit_run_ok. vm_compute. repeat split.
Qed.

(* truncate on "facility" (a Go string constant) before the repair: a write to read-only memory *)
Definition wit_cfg_facility (mode : mem_trunc_mode) : mem_config :=
  {| c_params := wit_params; c_nfields := 12; c_maxfields := 14; c_level_sites := Some 0%nat;
     c_cfg_init := wit_levels;
     c_extract := [TSimple (TDelFields [7%nat])];
     c_transforms := [TSimple (TTruncate 0 2 [126])];
     c_outputs := [wit_out]; c_trunc_mode := mode; c_rw_sets_flag := false |}.

Lemma wit_facility_fault :
  mem_run (wit_cfg_facility TruncInPlace) (mem_init (wit_cfg_facility TruncInPlace))
          [EvParse None None wit_input 1000; EvTransform 0] = StepStop Fault.
Proof. vm_compute. reflexivity. Qed.

Lemma wit_facility_copy_ok :
  exists g, mem_run (wit_cfg_facility TruncCopy) (mem_init (wit_cfg_facility TruncCopy))
                    [EvParse None None wit_input 1000; EvTransform 0; EvOutput 0] = StepOk g /\
            map (fun e => d_fields (snd e)) (g_out g) <> [].
Proof. apply wit_run_ok. vm_compute. discriminate. Qed.

(* BEFORE the repair a539f2f (property C10) the unescape rewriter set the flag on the shared record (c_rw_sets_flag = true):
   with two outputs that both rewrite "log" with unescape, the second output was not unescaped *)
Definition wit_rw : mem_outcfg := {| oc_env := [3%nat]; oc_hidden := []; oc_rewrite := [(8%nat, {| rw_inline := []; rw_unescape := true |})] |}.
Definition wit_cfg_flag (flag : bool) : mem_config :=
  {| c_params := wit_params; c_nfields := 12; c_maxfields := 14; c_level_sites := Some 0%nat;
     c_cfg_init := wit_levels; c_extract := [TSimple (TDelFields [7%nat])]; c_transforms := [];
     c_outputs := [wit_rw; wit_rw]; c_trunc_mode := TruncCopy; c_rw_sets_flag := flag |}.
(* "<163>1 2019-08-15T15:50:46Z host1 app 123 src - a\nb ........................" *)
Definition wit_escaped : bytes :=
  [60;49;54;51;62;49;32;50;48;49;57;45;48;56;45;49;53;84;49;53;58;53;48;58;52;54;90;32;104;111;115;116;49;32;97;112;112;32;
   49;50;51;32;115;114;99;32;45;32;97;92;110;98;32;46;46;46;46;46;46;46;46;46;46;46;46;46;46;46;46;46;46;46;46;46;46;46;46].
Definition wit_log_of (g : mem_gstate) (k : nat) : list bytes :=
  map (fun e => match find (fun kv => Nat.eqb (fst kv) 8) (d_fields (snd e)) with Some kv => firstn 4 (snd kv) | None => [] end)
      (filter (fun e => Nat.eqb (snd (fst e)) k) (g_out g)).

Lemma wit_flag_shared :
  exists g, mem_run (wit_cfg_flag true) (mem_init (wit_cfg_flag true))
                    [EvParse None None wit_escaped 1000; EvTransform 0; EvOutput 0; EvOutput 0] = StepOk g /\
            wit_log_of g 0 = [[97;10;98;32]] /\ wit_log_of g 1 = [[97;92;110;98]].
Proof. apply wit_run_ok. vm_compute. repeat split. Qed.

Lemma wit_flag_not_shared :
  exists g, mem_run (wit_cfg_flag false) (mem_init (wit_cfg_flag false))
                    [EvParse None None wit_escaped 1000; EvTransform 0; EvOutput 0; EvOutput 0] = StepOk g /\
            wit_log_of g 0 = [[97;10;98;32]] /\ wit_log_of g 1 = [[97;10;98;32]].
Proof. apply wit_run_ok. vm_compute. repeat split. Qed.

(* a dropped or malformed record with several outputs is released once only: it never returns to the pool *)
Definition wit_cfg_drop (nout : nat) : mem_config :=
  {| c_params := wit_params; c_nfields := 12; c_maxfields := 14; c_level_sites := Some 0%nat;
     c_cfg_init := wit_levels; c_extract := [TSimple (TDelFields [7%nat])];
     c_transforms := [TDrop [CAny 3]];
     c_outputs := repeat wit_out nout; c_trunc_mode := TruncCopy; c_rw_sets_flag := false |}.

Definition wit_slot_states (g : mem_gstate) : list (nat * Z) :=
  map (fun s => (match sl_state s with SInPool => 0 | SLive _ => 1 | SAbandoned => 2 end, r_refc (sl_rec s)))%nat (g_slots g).

Lemma wit_drop_one_output :
  exists g, mem_run (wit_cfg_drop 1) (mem_init (wit_cfg_drop 1)) [EvParse None None wit_input 1000; EvTransform 0] = StepOk g /\
            wit_slot_states g = [(0%nat, 0%Z)] /\ map b_free (g_bufs g) = [true].
Proof. apply wit_run_ok. vm_compute. repeat split. Qed.

Lemma wit_drop_two_outputs :
  exists g, mem_run (wit_cfg_drop 2) (mem_init (wit_cfg_drop 2)) [EvParse None None wit_input 1000; EvTransform 0] = StepOk g /\
            wit_slot_states g = [(2%nat, 1%Z)] /\ map b_free (g_bufs g) = [false].
Proof. apply wit_run_ok. vm_compute. repeat split. Qed.

(* a configuration for which the hypothesis about in-place targets holds even with the unrepaired (in place)
   truncate: the truncated field is "log", which only ever holds bytes of the record's own buffer or fresh copies *)
Definition wit_cfg_own (mode : mem_trunc_mode) : mem_config :=
  {| c_params := wit_params; c_nfields := 12; c_maxfields := 14; c_level_sites := Some 0%nat;
     c_cfg_init := wit_levels ++ [wit_literal];
     c_extract := [TSimple (TDelFields [7%nat])];
     c_transforms := [TSimple (TAddLit 9 8); TSimple (TUnescape 8%nat); TIf [CAny 4%nat] [TTruncate 8 10 [46%N;46%N]]];
     c_outputs := [wit_out; wit_rw]; c_trunc_mode := mode; c_rw_sets_flag := false |}.

Lemma wit_static_own : mem_static_targets_own (wit_cfg_own TruncInPlace) = true.
Proof. vm_compute. reflexivity. Qed.

Lemma wit_static_shared : mem_static_targets_own (wit_cfg TruncInPlace) = false.
Proof. vm_compute. reflexivity. Qed.

(* a history with two records in flight at once, reuse of struct and buffer, two outputs *)
Definition wit_events2 : list mem_event :=
  [EvParse None None wit_input 1000; EvParse None None wit_escaped 2000; EvTransform 1; EvTransform 0;
   EvOutput 0; EvOutput 1; EvOutput 1; EvOutput 0;
   EvParse (Some 1%nat) (Some 1%nat) wit_input 1000; EvTransform 1; EvOutput 1; EvOutput 1].

Lemma wit_own_run :
  exists g, mem_run (wit_cfg_own TruncInPlace) (mem_init (wit_cfg_own TruncInPlace)) wit_events2 = StepOk g /\
            length (g_out g) = 6%nat /\ g_next_rid g = 3%nat /\ length (g_slots g) = 2%nat /\
            (* record 0 and record 2 are the same bytes; record 2 ran on recycled memory *)
            map snd (filter (fun e => Nat.eqb (fst (fst e)) 0) (g_out g)) = map snd (filter (fun e => Nat.eqb (fst (fst e)) 2) (g_out g)).
Proof. apply wit_run_ok. vm_compute. repeat split. Qed.
