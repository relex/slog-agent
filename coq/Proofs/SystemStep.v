(* The transition function of Model/System.v as a relation: one constructor per branch of [step], the guards as
   hypotheses, the new state as an update of the old one.  Proofs by cases on a step go through [step_Step]. *)
From Coq Require Import List Arith Bool PeanoNat.
From SV Require Import Model.Common Model.System Proofs.SystemLists.
Import ListNotations.
Open Scope nat_scope.

Lemma gphase_eqb_eq : forall a b, gphase_eqb a b = true <-> a = b.
Proof. destruct a, b; cbn; split; intros H; try reflexivity; discriminate H. Qed.
Lemma pphase_eqb_eq : forall a b, pphase_eqb a b = true <-> a = b.
Proof. destruct a, b; cbn; split; intros H; try reflexivity; discriminate H. Qed.
Lemma cphase_eqb_eq : forall a b, cphase_eqb a b = true <-> a = b.
Proof. destruct a, b; cbn; split; intros H; try reflexivity; discriminate H. Qed.

Lemma upd_same : forall A (f : nat -> A) p v, upd f p v p = v.
Proof. intros. unfold upd. rewrite Nat.eqb_refl. reflexivity. Qed.
Lemma upd_other : forall A (f : nat -> A) p v q, q <> p -> upd f p v q = f q.
Proof. intros. unfold upd. apply Nat.eqb_neq in H. rewrite H. reflexivity. Qed.

Lemma all_done_spec : forall s, all_done s = true <-> forall p, In p (pipes s) -> pph s p = PDone.
Proof.
  intros s. unfold all_done. rewrite forallb_forall. split; intros H p Hp; apply pphase_eqb_eq; auto.
Qed.

(* the state in which the current chunk of a pipeline has been cut off: [c] is what stays open, [id] the id used *)
Definition cut_chunk (s : state) (c : list tok) (id : nat) : state :=
  mkState (phase s) (open_conns s) (ingested s) (conn_buf s) (sink_batch s) (key_buf s) (chans s) (hand s) c
    id (pipes s) (pph s) (cph s) (queue s) (fhand s) (window s) (leftovers s) (unacked s)
    (files s) (acked s) (dropped s) (filtered s) (lost s) (received s).

Inductive Step (s : state) : event -> state -> Prop :=
| SConnOpen k (Gph : phase s = Running) (Op : ~ In k (open_conns s)) :
    Step s (EConnOpen k)
      (set_in s (k :: open_conns s) (ingested s) (conn_buf s) (sink_batch s) (key_buf s) (chans s) (pipes s) (lost s))
| SIngest t (Op : In (t_conn t) (open_conns s)) (Fr : stamp_fresh t (ingested s) = true) :
    Step s (EIngest t)
      (set_in s (open_conns s) (t :: ingested s) (conn_buf s ++ [t]) (sink_batch s) (key_buf s) (chans s) (pipes s) (lost s))
| SFrame k t rest (Tf : take_first (on_conn k) (conn_buf s) = Some (t, rest)) :
    Step s (EFrame k)
      (set_in s (open_conns s) (ingested s) rest (sink_batch s ++ [t]) (key_buf s) (chans s) (pipes s) (lost s))
| SSinkSend k mine others (Pt : partition (on_conn k) (sink_batch s) = (mine, others)) (Ne : mine <> []) :
    Step s (ESinkSend k)
      (set_in s (open_conns s) (ingested s) (conn_buf s) others (key_buf s ++ mine) (chans s) (add_pipes mine (pipes s)) (lost s))
| SKeyFlush k p mine others (Pt : partition (on_cp k p) (key_buf s) = (mine, others)) (Ne : mine <> []) :
    Step s (EKeyFlush k p)
      (set_in s (open_conns s) (ingested s) (conn_buf s) (sink_batch s) others (chans s ++ [(p, mine)]) (pipes s) (lost s))
| SFlushTimeout k p mine others (Pt : partition (on_cp k p) (key_buf s) = (mine, others)) (Ne : mine <> []) :
    Step s (EFlushTimeout k p)
      (set_in s (open_conns s) (ingested s) (conn_buf s) (sink_batch s) others (chans s) (pipes s) (lost s ++ mine))
| SConnEnd k kb kb' sb sb' cb cb' (Op : In k (open_conns s)) (Ptk : partition (on_conn k) (key_buf s) = (kb, kb'))
    (Pts : partition (on_conn k) (sink_batch s) = (sb, sb')) (Ptc : partition (on_conn k) (conn_buf s) = (cb, cb')) :
    Step s (EConnEnd k)
      (set_in s (remove_nat k (open_conns s)) (ingested s) cb' sb' kb' (chans s ++ singleton_batches (kb ++ sb ++ cb))
         (add_pipes (kb ++ sb ++ cb) (pipes s)) (lost s))
| SStopReq (Gph : phase s = Running) :
    Step s EStopReq (set_phase s Stopping)
| SInputsStopped (Gph : phase s = Stopping) (Op : open_conns s = []) :
    Step s EInputsStopped (set_phase s Draining)
| SWorkerTake p b rest (Pph : pph s p = PRun) (Nh : none_of (on_pipe p) (hand s) = true)
    (Tf : take_first (batch_on p) (chans s) = Some (b, rest)) :
    Step s (EWorkerTake p) (set_work s rest (hand s ++ snd b) (cur s) (filtered s))
| SWorkerKeep p t rest (Tf : take_first (on_pipe p) (hand s) = Some (t, rest)) (Kp : t_keep t = true) :
    Step s (EWorkerStep p) (set_work s (chans s) rest (cur s ++ [t]) (filtered s))
| SWorkerFilter p t rest (Tf : take_first (on_pipe p) (hand s) = Some (t, rest)) (Kp : t_keep t = false) :
    Step s (EWorkerStep p) (set_work s (chans s) rest (cur s) (filtered s ++ [t]))
| SChunkClose p id o mine others (Pph : pph s p = PRun) (Pt : partition (on_pipe p) (cur s) = (mine, others))
    (Ne : mine <> []) (Lt : lastid s < id) :
    Step s (EChunkClose p id o) (do_accept (cut_chunk s others id) (mkChunk id p mine) o)
| SWorkerStop p id o (Gph : phase s = Draining) (Pph : pph s p = PRun) (Ip : In p (pipes s))
    (Nch : none_of (batch_on p) (chans s) = true) (Nh : none_of (on_pipe p) (hand s) = true)
    (Ncu : none_of (on_pipe p) (cur s) = true) :
    Step s (EWorkerStop p id o) (set_pph s p PWStopped)
| SWorkerStopClose p id o mine others (Gph : phase s = Draining) (Pph : pph s p = PRun) (Ip : In p (pipes s))
    (Nch : none_of (batch_on p) (chans s) = true) (Nh : none_of (on_pipe p) (hand s) = true)
    (Pt : partition (on_pipe p) (cur s) = (mine, others)) (Ne : mine <> []) (Lt : lastid s < id) :
    Step s (EWorkerStop p id o) (set_pph (do_accept (cut_chunk s others id) (mkChunk id p mine) o) p PWStopped)
| SFeederTake p q rest (Al : feeder_alive (pph s p) = true) (Nf : none_of (item_on p) (fhand s) = true)
    (Tf : take_first (item_on p) (queue s) = Some (q, rest)) :
    Step s (EFeederTake p) (set_buf s rest (fhand s ++ [q]) (window s) (leftovers s) (unacked s) (files s) (acked s) (dropped s))
| SFeederLoad p q rest (Tf : take_first (item_on p) (fhand s) = Some (q, rest)) (Ld : q_loaded q = false) :
    Step s (EFeederLoad p true)
      (set_buf s (queue s) (new_item (q_chunk q) true (q_saved q) :: rest) (window s) (leftovers s) (unacked s)
         (files s) (acked s) (dropped s))
| SFeederLoadFail p q rest (Tf : take_first (item_on p) (fhand s) = Some (q, rest)) (Ld : q_loaded q = false) :
    Step s (EFeederLoad p false)
      (set_buf s (queue s) rest (window s) (leftovers s) (unacked s) (files s) (acked s) (dropped s ++ [q_chunk q]))
| SFeederPush p q rest (Tf : take_first (item_on p) (fhand s) = Some (q, rest)) (Ld : q_loaded q = true)
    (Al : feeder_alive (pph s p) = true) :
    Step s (EFeederPush p) (set_buf s (queue s) rest (window s ++ [q]) (leftovers s) (unacked s) (files s) (acked s) (dropped s))
| SDestroy p (Pph : pph s p = PWStopped) :
    Step s (EDestroy p) (set_pph s p PDestroying)
| SFeederBreak p (Pph : pph s p = PDestroying) :
    Step s (EFeederBreak p) (set_pph s p PSaving)
| SSaveQueue p ok q rest fl dr (Pph : pph s p = PSaving) (Tf : take_first (item_on p) (queue s) = Some (q, rest))
    (Pe : persist q ok (files s) (dropped s) = (fl, dr)) :
    Step s (ESave p WQueue ok) (set_buf s rest (fhand s) (window s) (leftovers s) (unacked s) fl (acked s) dr)
| SSaveHand p ok q rest fl dr (Pph : pph s p = PSaving) (Tf : take_first (item_on p) (fhand s) = Some (q, rest))
    (Pe : persist q ok (files s) (dropped s) = (fl, dr)) :
    Step s (ESave p WHand ok) (set_buf s (queue s) rest (window s) (leftovers s) (unacked s) fl (acked s) dr)
| SSaveWindow p ok q rest fl dr (Pph : pph s p = PSaving) (Cph : cph s p = CDone)
    (Tf : take_first (item_on p) (window s) = Some (q, rest)) (Pe : persist q ok (files s) (dropped s) = (fl, dr)) :
    Step s (ESave p WWindow ok) (set_buf s (queue s) (fhand s) rest (leftovers s) (unacked s) fl (acked s) dr)
| SFeederEnd p (Pph : pph s p = PSaving) (Cph : cph s p = CDone) (Nq : none_of (item_on p) (queue s) = true)
    (Nf : none_of (item_on p) (fhand s) = true) (Nw : none_of (item_on p) (window s) = true) :
    Step s (EFeederEnd p) (set_pph s p PDone)
| SConnect p (Cph : cph s p = CIdle) (Ip : In p (pipes s)) :
    Step s (EConnect p) (set_cph s p CSess)
| SSendLeft p q rest (Cph : cph s p = CSess) (Tf : take_first (item_on p) (leftovers s) = Some (q, rest)) :
    Step s (ESendLeft p)
      (add_received (set_buf s (queue s) (fhand s) (window s) rest (unacked s ++ [q]) (files s) (acked s) (dropped s)) (q_chunk q))
| SSendNew p q rest (Cph : cph s p = CSess) (Nl : none_of (item_on p) (leftovers s) = true)
    (Tf : take_first (item_on p) (window s) = Some (q, rest)) :
    Step s (ESendNew p)
      (add_received (set_buf s (queue s) (fhand s) rest (leftovers s) (unacked s ++ [q]) (files s) (acked s) (dropped s)) (q_chunk q))
| SSendNewFail p q rest mine others (Cph : cph s p = CSess) (Nl : none_of (item_on p) (leftovers s) = true)
    (Tf : take_first (item_on p) (window s) = Some (q, rest))
    (Pt : partition (item_on p) (unacked s) = (mine, others)) :
    Step s (ESendNewFail p)
      (set_cph (set_buf s (queue s) (fhand s) rest (sort_items (leftovers s ++ mine ++ [q])) others (files s) (acked s) (dropped s))
         p CIdle)
| SSrvAck p id q rest (Cph : cph s p = CSess) (Tf : take_first (item_is p id) (unacked s) = Some (q, rest)) :
    Step s (ESrvAck p id)
      (set_buf s (queue s) (fhand s) (window s) (leftovers s) (unacked s) (files s) (acked s ++ [q_chunk q]) (dropped s))
| SAckRead p id q rest (Cph : cph s p = CSess) (Tf : take_first (item_is p id) (unacked s) = Some (q, rest))
    (Ak : In (q_chunk q) (acked s)) :
    Step s (EAckRead p id)
      (set_buf s (queue s) (fhand s) (window s) (leftovers s) rest
         (if q_saved q then remove_file (q_chunk q) (files s) else files s) (acked s) (dropped s))
| SSessionEnd p mine others (Cph : cph s p = CSess) (Pt : partition (item_on p) (unacked s) = (mine, others)) :
    Step s (ESessionEnd p)
      (set_cph (set_buf s (queue s) (fhand s) (window s) (sort_items (leftovers s ++ mine)) others (files s) (acked s) (dropped s))
         p CIdle)
| SClientStop p (Cph : cph s p = CIdle) (Pph : pph s p = PSaving) :
    Step s (EClientStop p) (set_cph s p CHanding)
| SHandback p ok q rest fl dr (Cph : cph s p = CHanding) (Tf : take_first (item_on p) (leftovers s) = Some (q, rest))
    (Pe : persist q ok (files s) (dropped s) = (fl, dr)) :
    Step s (EHandback p ok) (set_buf s (queue s) (fhand s) (window s) rest (unacked s) fl (acked s) dr)
| SClientDone p (Cph : cph s p = CHanding) (Nl : none_of (item_on p) (leftovers s) = true) :
    Step s (EClientDone p) (set_cph s p CDone)
| SStopped (Gph : phase s = Draining) (Ad : all_done s = true) :
    Step s EStopped (set_phase s Stopped)
| SRestart (Gph : phase s = Stopped) :
    Step s ERestart
      (mkState Running [] (ingested s) [] [] [] [] [] [] (lastid s) (add_pipe_list (map c_pipe (files s)) [])
         (fun _ => PRun) (fun _ => CIdle) (recovered_queue (files s)) [] [] [] [] (files s) (acked s) (dropped s)
         (filtered s) (lost s) (received s))
| SObsDisk l (Gph : phase s = Stopped) (Ob : same_pairs l (disk_listing s) = true) :
    Step s (EObsDisk l) s
| SObsDrops n (Gph : phase s = Stopped) (Ob : length (dropped s) <= n) :
    Step s (EObsDrops n) s.

Lemma close_chunk_inv : forall s p id o s', close_chunk s p id o = Some s' ->
  exists mine others, partition (on_pipe p) (cur s) = (mine, others) /\ mine <> [] /\ lastid s < id /\
    s' = do_accept (cut_chunk s others id) (mkChunk id p mine) o.
Proof.
  intros s p id o s' H. unfold close_chunk in H. destruct (partition (on_pipe p) (cur s)) as [mine others].
  exists mine, others. destruct mine as [|t mine]; [discriminate H|].
  destruct (Nat.ltb (lastid s) id) eqn:L; [|discriminate H]. apply Nat.ltb_lt in L. inversion H.
  repeat split; [discriminate|assumption].
Qed.

(* case analysis of a hypothesis [H : (if/match ... ) = Some _] along its guards *)
Ltac step_case H :=
  repeat match type of H with
  | (match ?x with _ => _ end) = Some _ => let E := fresh "E" in destruct x eqn:E; try discriminate H
  | (if ?x then _ else _) = Some _ => let E := fresh "E" in destruct x eqn:E; try discriminate H
  | (let (_, _) := ?x in _) = Some _ => let E := fresh "E" in destruct x eqn:E; try discriminate H
  end.

(* split the conjunctions of boolean guards, and read the phase and membership tests as propositions *)
Ltac guard_props :=
  repeat match goal with
  | E : _ && _ = true |- _ => apply andb_true_iff in E; destruct E
  | E : negb _ = true |- _ => apply negb_true_iff in E
  | E : gphase_eqb _ _ = true |- _ => apply gphase_eqb_eq in E
  | E : pphase_eqb _ _ = true |- _ => apply pphase_eqb_eq in E
  | E : cphase_eqb _ _ = true |- _ => apply cphase_eqb_eq in E
  | E : mem_nat _ _ = true |- _ => apply mem_nat_spec in E
  | E : mem_nat _ _ = false |- _ => apply not_true_iff_false in E; rewrite mem_nat_spec in E
  | E : existsb (chunk_eqb _) _ = true |- _ => apply existsb_chunk_in in E
  | E : Nat.leb _ _ = true |- _ => apply Nat.leb_le in E
  | E : close_chunk _ _ _ _ = Some _ |- _ => apply close_chunk_inv in E; destruct E as (? & ? & ? & ? & ? & ->)
  end.

Lemma step_Step : forall s e s', step s e = Some s' -> Step s e s'.
Proof.
  intros s e s' H. destruct e; cbn [step] in H.
  all: try match goal with w : where_ |- _ => destruct w end.
  all: step_case H; inversion H; subst; guard_props.
  all: try (econstructor; eassumption).
  all: try (econstructor; try eassumption; discriminate).
  constructor; [assumption|]. destruct (open_conns s); [reflexivity|discriminate].
Qed.
