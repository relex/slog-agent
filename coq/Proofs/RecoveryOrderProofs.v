(* Proofs for Model/RecoveryOrder.v (C05): start-up recovery of a backlog interleaved with new chunks.

   Invariant: the chain  transmitted ++ window ++ feeder hand ++ queue ++ not-yet-recovered  is strictly increasing
   in chunk id, per connection strictly increasing in sequence number, below the id clock and bounded by the stamps
   seen so far.  Every event except Accept only moves chunks along the chain or removes some; Accept appends a newer
   chunk at the END of the queue - which is the end of the chain only if nothing is left to recover.  That is the
   one place where [rv_accept_waits] is used. *)
From Coq Require Import List Arith Bool Lia PeanoNat.
From SV Require Import Model.Common Model.System Model.RecoveryOrder Proofs.SystemLists Proofs.SystemOrderLists.
Import ListNotations.
Open Scope nat_scope.

Lemma sublist_flat_map : forall A B (f : A -> list B) a b, sublist a b -> sublist (flat_map f a) (flat_map f b).
Proof.
  induction 1; cbn; [constructor| |].
  - replace (flat_map f a) with ([] ++ flat_map f a) by reflexivity. apply sublist_app; [apply sublist_nil_l|assumption].
  - apply sublist_app; [apply sublist_refl|assumption].
Qed.

Lemma rids_app : forall a b, rids (a ++ b) = rids a ++ rids b.
Proof. intros. unfold rids. apply map_app. Qed.

Lemma rtoks_app : forall a b, rtoks (a ++ b) = rtoks a ++ rtoks b.
Proof. intros. unfold rtoks. apply flat_map_app. Qed.

Lemma rseqs_app : forall k a b, rseqs k (a ++ b) = rseqs k a ++ rseqs k b.
Proof. intros. unfold rseqs. rewrite filter_app, map_app. reflexivity. Qed.

Lemma in_rseqs : forall k l q, In q (rseqs k l) <-> In (k, q) l.
Proof.
  intros k l q. unfold rseqs. rewrite in_map_iff. split.
  - intros [[k' q'] [E H]]. cbn in E. subst q'. apply filter_In in H. destruct H as [H1 H2]. cbn in H2.
    apply Nat.eqb_eq in H2. subst k'. assumption.
  - intros H. exists (k, q). split; [reflexivity|]. apply filter_In. split; [assumption|]. cbn. apply Nat.eqb_refl.
Qed.

Definition dominated (seen l : list (nat * nat)) : Prop :=
  forall k q, In (k, q) l -> exists h, In (k, h) seen /\ q <= h.

Definition rgood (clock : nat) (seen : list (nat * nat)) (l : list rchunk) : Prop :=
  incr (rids l) /\ (forall c, In c l -> rc_id c <= clock) /\ (forall k, incr (rseqs k (rtoks l))) /\ dominated seen (rtoks l).

Lemma rsteps_inv : forall g v (P : rstate -> Prop), (forall s e s', rstep g v s e = Some s' -> P s -> P s') ->
  forall es s s', rsteps g v s es = Some s' -> P s -> P s'.
Proof.
  intros g v P Hstep. induction es as [|e es IH]; intros s s' H Hs; cbn in H.
  - inversion H; subst. exact Hs.
  - destruct (rstep g v s e) as [s1|] eqn:E; [|discriminate]. apply (IH s1 s' H). exact (Hstep s e s1 E Hs).
Qed.

Lemma rgood_sublist : forall clock seen a b, sublist a b -> rgood clock seen b -> rgood clock seen a.
Proof.
  intros clock seen a b S [H1 [H2 [H3 H4]]]. repeat split.
  - apply (incr_sublist _ (rids b)); [apply sublist_map; assumption|assumption].
  - intros c Hc. apply H2. apply (sublist_in _ _ _ S). assumption.
  - intros k. apply (incr_sublist _ (rseqs k (rtoks b))); [|apply H3].
    unfold rseqs. apply sublist_map. apply sublist_filter_mono. apply sublist_flat_map. assumption.
  - intros k q Hq. apply H4. apply (sublist_in _ _ _ (sublist_flat_map _ _ rc_toks _ _ S)). assumption.
Qed.

Lemma rgood_mono : forall clock clock' seen seen' l, clock <= clock' -> (forall t, In t seen -> In t seen') ->
  rgood clock seen l -> rgood clock' seen' l.
Proof.
  intros clock clock' seen seen' l Hc Hs [H1 [H2 [H3 H4]]]. repeat split; auto.
  - intros c Hc'. specialize (H2 c Hc'). lia.
  - intros k q Hq. destruct (H4 k q Hq) as [h [Hh Hle]]. exists h. split; [apply Hs; assumption|assumption].
Qed.

Lemma tok_fresh_spec : forall seen k q, tok_fresh seen (k, q) = true -> forall h, In (k, h) seen -> h < q.
Proof.
  intros seen k q H h Hh. unfold tok_fresh in H. rewrite forallb_forall in H. specialize (H (k, h) Hh). cbn in H.
  rewrite Nat.eqb_refl in H. cbn in H. apply Nat.ltb_lt. assumption.
Qed.

Lemma toks_fresh_spec : forall k toks seen, toks_fresh seen toks = true ->
  incr (rseqs k toks) /\ (forall q h, In (k, q) toks -> In (k, h) seen -> h < q).
Proof.
  intros k. induction toks as [|[k' q'] r IH]; intros seen H.
  - split; [exact I|intros ? ? []].
  - cbn [toks_fresh] in H. apply andb_true_iff in H. destruct H as [Hf Hr]. destruct (IH _ Hr) as [I1 I2]. split.
    + unfold rseqs. cbn [filter fst]. destruct (Nat.eqb k' k) eqn:E.
      * apply Nat.eqb_eq in E. subst k'. cbn [map snd]. split; [|exact I1].
        intros y Hy. apply in_rseqs in Hy. apply (I2 y q' Hy). left. reflexivity.
      * exact I1.
    + intros q h [Hq|Hq] Hh.
      * inversion Hq; subst. apply (tok_fresh_spec _ _ _ Hf). assumption.
      * apply (I2 q h Hq). right. assumption.
Qed.

Lemma rgood_snoc : forall clock seen l id toks, rgood clock seen l -> clock < id -> toks_fresh seen toks = true ->
  rgood id (rev toks ++ seen) (l ++ [RC id toks]).
Proof.
  intros clock seen l id toks [H1 [H2 [H3 H4]]] Hid Hf. repeat split.
  - rewrite rids_app. apply incr_app. split; [assumption|]. split; [apply incr_single|].
    intros x y Hx Hy. unfold rids in Hx. apply in_map_iff in Hx. destruct Hx as [c [<- Hc]]. specialize (H2 c Hc).
    cbn in Hy. destruct Hy as [<-|[]]. lia.
  - intros c Hc. apply in_app_or in Hc. destruct Hc as [Hc|[<-|[]]]; [specialize (H2 c Hc); lia|cbn; lia].
  - intros k. rewrite rtoks_app, rseqs_app. destruct (toks_fresh_spec k toks seen Hf) as [F1 F2].
    unfold rtoks at 2. cbn [flat_map rc_toks]. rewrite app_nil_r. apply incr_app. split; [apply H3|]. split; [assumption|].
    intros x y Hx Hy. apply in_rseqs in Hx. apply in_rseqs in Hy. destruct (H4 k x Hx) as [h [Hh Hle]].
    specialize (F2 y h Hy Hh). lia.
  - intros k q Hq. rewrite rtoks_app in Hq. apply in_app_or in Hq. destruct Hq as [Hq|Hq].
    + destruct (H4 k q Hq) as [h [Hh Hle]]. exists h. split; [apply in_or_app; right; assumption|assumption].
    + unfold rtoks in Hq. cbn [flat_map rc_toks] in Hq. rewrite app_nil_r in Hq. exists q. split; [|lia].
      apply in_or_app. left. apply -> in_rev. assumption.
Qed.

Lemma recovering_false : forall s, recovering s = false -> r_todo s = [].
Proof. intros s H. unfold recovering in H. destruct (r_todo s); [reflexivity|discriminate]. Qed.

Lemma rstep_good : forall g v s e s', rv_accept_waits v = true -> rstep g v s e = Some s' ->
  rgood (r_clock s) (r_seen s) (rchain s) -> rgood (r_clock s') (r_seen s') (rchain s').
Proof.
  intros g v s e s' Hv H G. destruct s as [todo queue fh w out sk dr clock seen].
  unfold rchain, rpending in *. cbn [r_todo r_queue r_fhand r_window r_out r_skipped r_dropped r_clock r_seen] in *.
  destruct e; cbn [rstep r_todo r_queue r_fhand r_window r_out r_skipped r_dropped r_clock r_seen] in H.
  - (* RRecover *)
    destruct todo as [|c rest]; [discriminate|]. destruct (Nat.ltb (length queue) (rg_qcap g)); inversion H; subst; clear H; cbn.
    + replace ((queue ++ [c]) ++ rest) with (queue ++ c :: rest) by (rewrite <- app_assoc; reflexivity). exact G.
    + apply (rgood_sublist _ _ _ _ (sublist_app _ _ _ _ _ (sublist_refl _ out) (sublist_app _ _ _ _ _ (sublist_refl _ w)
              (sublist_app _ _ _ _ _ (sublist_refl _ fh) (sublist_app _ _ _ _ _ (sublist_refl _ queue) (sublist_nil_l _ (c :: rest))))))).
      exact G.
  - (* RAccept *)
    rewrite Hv in H. cbn [negb orb] in H.
    destruct (negb (recovering _)) eqn:R; [|discriminate]. apply negb_true_iff in R. apply recovering_false in R. cbn in R. subst todo.
    destruct (Nat.ltb clock id) eqn:C; [|discriminate]. apply Nat.ltb_lt in C.
    destruct (toks_fresh seen toks) eqn:F; [|discriminate]. cbn [andb] in H.
    destruct (Nat.ltb (length queue) (rg_qcap g)); inversion H; subst; clear H; cbn.
    + replace (out ++ w ++ fh ++ (queue ++ [RC id toks]) ++ []) with ((out ++ w ++ fh ++ queue ++ []) ++ [RC id toks])
        by (rewrite !app_nil_r, <- !app_assoc; reflexivity).
      apply (rgood_snoc clock); assumption.
    + apply (rgood_mono clock id seen); [lia|intros t Ht; apply in_or_app; right; assumption|exact G].
  - (* RFeederTake *)
    destruct (negb (rv_feeder_waits v) || negb (recovering _)); [|discriminate].
    destruct fh; [|discriminate]. destruct queue as [|c rest]; [discriminate|]. inversion H; subst; clear H; cbn. exact G.
  - (* RFeederLoadFail *)
    destruct fh as [|c [|? ?]]; try discriminate. inversion H; subst; clear H; cbn.
    apply (rgood_sublist _ _ _ _ (sublist_app _ _ _ _ _ (sublist_refl _ out) (sublist_app _ _ _ _ _ (sublist_refl _ w)
              (sublist_app _ _ _ _ _ (sublist_nil_l _ [c]) (sublist_refl _ (queue ++ todo)))))).
    exact G.
  - (* RFeederPush *)
    destruct fh as [|c [|? ?]]; try discriminate. destruct (Nat.ltb (length w) (rg_wcap g)); [|discriminate].
    inversion H; subst; clear H; cbn. rewrite <- app_assoc. exact G.
  - (* RConsume *)
    destruct w as [|c rest]; [discriminate|]. inversion H; subst; clear H; cbn. rewrite <- app_assoc. exact G.
Qed.

(* For ALL backlogs, capacities, event lists (interleavings of the recovery loop, the worker, the feeder and the
   consumer) and both feeder variants: if Accept is possible only after the recovery loop, the chunks are transmitted
   in creation order, every stream in arrival order, what is pending is in creation order too, and everything pending
   is newer than everything transmitted (no older undelivered chunk is skipped). *)
Lemma recovery_order_lemma : forall g v backlog clock seen es s,
  rv_accept_waits v = true -> rgood clock seen backlog -> rsteps g v (rinit backlog clock seen) es = Some s ->
  incr (rids (r_out s)) /\ (forall k, incr (rseqs k (rtoks (r_out s)))) /\ incr (rids (rpending s)) /\
  (forall u q, In u (rids (r_out s)) -> In q (rids (rpending s)) -> u < q).
Proof.
  intros g v backlog clock seen es s Hv G H.
  destruct (rsteps_inv g v (fun s => rgood (r_clock s) (r_seen s) (rchain s)) (fun s e s' => rstep_good g v s e s' Hv) es _ s H G)
    as [H1 [_ [H3 _]]]. unfold rchain in H1, H3. rewrite rids_app in H1. apply incr_app in H1.
  destruct H1 as [A [B C]]. repeat split; try assumption.
  intros k. specialize (H3 k). rewrite rtoks_app, rseqs_app in H3. apply incr_app in H3. tauto.
Qed.

(* A chunk created after the restart is never transmitted while a recovered chunk is still undelivered. *)
Lemma recovery_new_chunk_waits_lemma : forall g v backlog clock seen es s c b,
  rv_accept_waits v = true -> rgood clock seen backlog -> rsteps g v (rinit backlog clock seen) es = Some s ->
  In c (r_out s) -> clock < rc_id c -> In b (rpending s) -> clock < rc_id b.
Proof.
  intros g v backlog clock seen es s c b Hv G H Hc Hn Hb.
  destruct (recovery_order_lemma g v backlog clock seen es s Hv G H) as [_ [_ [_ X]]].
  specialize (X (rc_id c) (rc_id b) (in_map rc_id _ _ Hc) (in_map rc_id _ _ Hb)). lia.
Qed.

(* nothing has been skipped, and what the recovery loop has still to queue fits the queue *)
Definition noskip (g : rcfg) (s : rstate) : Prop :=
  r_skipped s = [] /\ (r_todo s <> [] -> length (r_queue s) + length (r_todo s) <= rg_qcap g).

Lemma rstep_noskip : forall g v s e s', rv_accept_waits v = true -> rstep g v s e = Some s' -> noskip g s -> noskip g s'.
Proof.
  intros g v s e s' Hv H [J1 J2]. unfold noskip. destruct s as [todo queue fh w out sk dr clock seen].
  cbn [r_todo r_queue r_fhand r_window r_out r_skipped r_dropped r_clock r_seen] in *. subst sk.
  destruct e; cbn [rstep r_todo r_queue r_fhand r_window r_out r_skipped r_dropped r_clock r_seen] in H.
  - destruct todo as [|c rest]; [discriminate|]. destruct (Nat.ltb (length queue) (rg_qcap g)) eqn:L; inversion H; subst; clear H; cbn.
    + split; [reflexivity|]. intros _. rewrite app_length. cbn. assert (X : c :: rest <> []) by discriminate.
      specialize (J2 X). cbn in J2. lia.
    + apply Nat.ltb_ge in L. assert (X : c :: rest <> []) by discriminate. specialize (J2 X). cbn in J2. lia.
  - rewrite Hv in H. cbn [negb orb] in H.
    destruct (negb (recovering _)) eqn:R; [|discriminate]. apply negb_true_iff in R. apply recovering_false in R. cbn in R. subst todo.
    destruct (Nat.ltb clock id); [|discriminate]. destruct (toks_fresh seen toks); [|discriminate]. cbn [andb] in H.
    destruct (Nat.ltb (length queue) (rg_qcap g)); inversion H; subst; clear H; cbn; (split; [reflexivity|intros X; contradiction]).
  - destruct (negb (rv_feeder_waits v) || negb (recovering _)); [|discriminate].
    destruct fh; [|discriminate]. destruct queue as [|c rest]; [discriminate|]. inversion H; subst; clear H; cbn.
    split; [reflexivity|]. intros X. specialize (J2 X). cbn in J2. lia.
  - destruct fh as [|c [|? ?]]; try discriminate. inversion H; subst; clear H; cbn. split; [reflexivity|exact J2].
  - destruct fh as [|c [|? ?]]; try discriminate. destruct (Nat.ltb (length w) (rg_wcap g)); [|discriminate].
    inversion H; subst; clear H; cbn. split; [reflexivity|exact J2].
  - destruct w as [|c rest]; [discriminate|]. inversion H; subst; clear H; cbn. split; [reflexivity|exact J2].
Qed.

(* If the backlog fits the queue no chunk file is skipped by the recovery loop. *)
Lemma recovery_complete_lemma : forall g v backlog clock seen es s,
  rv_accept_waits v = true -> length backlog <= rg_qcap g -> rsteps g v (rinit backlog clock seen) es = Some s ->
  r_skipped s = [].
Proof.
  intros g v backlog clock seen es s Hv Hl H.
  apply (rsteps_inv g v (noskip g) (fun s e s' => rstep_noskip g v s e s' Hv) es _ s H).
  split; [reflexivity|intros _; cbn; lia].
Qed.

(* The recovery loop alone takes the start state to the state of the atomic restart of Model/System.v: the queue is
   the listing, nothing else has happened, and (only) now Accept is possible. *)
Lemma recovery_loop_run : forall g v todo queue clock seen,
  length queue + length todo <= rg_qcap g ->
  rsteps g v (RS todo queue [] [] [] [] [] clock seen) (rep (length todo) [RRecover])
  = Some (RS [] (queue ++ todo) [] [] [] [] [] clock seen).
Proof.
  intros g v. induction todo as [|c rest IH]; intros queue clock seen Hl.
  - cbn. rewrite app_nil_r. reflexivity.
  - cbn [length rep app rsteps rstep r_todo r_queue r_fhand r_window r_out r_skipped r_dropped r_clock r_seen].
    cbn [length] in Hl. assert (L : Nat.ltb (length queue) (rg_qcap g) = true) by (apply Nat.ltb_lt; lia). rewrite L.
    rewrite IH; [rewrite <- app_assoc; reflexivity|rewrite app_length; cbn; lia].
Qed.

Lemma recovery_sync_is_atomic_lemma : forall g v backlog clock seen,
  length backlog <= rg_qcap g ->
  rsteps g v (rinit backlog clock seen) (rep (length backlog) [RRecover]) = Some (RS [] backlog [] [] [] [] [] clock seen).
Proof. intros. unfold rinit. rewrite recovery_loop_run; [reflexivity|cbn; lia]. Qed.

(* With Accept enabled during the recovery loop (the seeded variant) the statement is false: two recovered chunks,
   the worker delivers a new chunk between the two iterations of the loop. *)
Definition seeded_backlog : list rchunk := [RC 1 [(0, 0)]; RC 2 [(0, 1)]].
Definition seeded_events : list revent :=
  [RRecover; RAccept 3 [(0, 2)]; RRecover;
   RFeederTake; RFeederPush; RConsume; RFeederTake; RFeederPush; RConsume; RFeederTake; RFeederPush; RConsume].

Lemma seeded_backlog_good : rgood 2 [(0, 1)] seeded_backlog.
Proof.
  unfold rgood, seeded_backlog. cbn. repeat split.
  - intros y [<-|[]]. lia.
  - intros ? [].
  - intros c [<-|[<-|[]]]; cbn; lia.
  - intros k. destruct k; cbn; [|exact I]. repeat split; [intros y [<-|[]]; lia|intros ? []].
  - intros k q [E|[E|[]]]; inversion E; subst; exists 1; split; cbn; auto.
Qed.

Lemma recovery_seeded_variant_refuted_lemma :
  exists g backlog clock seen es s,
    rgood clock seen backlog /\ length backlog <= rg_qcap g /\ rsteps g rv_seeded (rinit backlog clock seen) es = Some s /\
    rids (r_out s) = [1; 3; 2] /\ ~ incr (rids (r_out s)) /\ ~ incr (rseqs 0 (rtoks (r_out s))).
Proof.
  exists (RCFG 8 4), seeded_backlog, 2, [(0, 1)], seeded_events.
  eexists. split; [exact seeded_backlog_good|]. split; [cbn; lia|]. split; [vm_compute; reflexivity|].
  cbn. split; [reflexivity|]. split.
  - intros [_ [H _]]. specialize (H 2 (or_introl eq_refl)). lia.
  - intros [_ [H _]]. specialize (H 1 (or_introl eq_refl)). lia.
Qed.

(* the same events are not even a run of the code as it is: Accept is not possible between two iterations *)
Lemma seeded_events_not_a_real_run : rsteps (RCFG 8 4) rv_real (rinit seeded_backlog 2 [(0, 1)]) seeded_events = None.
Proof. vm_compute. reflexivity. Qed.

(* non-vacuity: a run of the code as it is with a backlog of two chunks, two new chunks (the second accepted while the
   consumer is already transmitting) - four chunks transmitted in creation order *)
Lemma recovery_example_lemma :
  exists es s, rgood 2 [(0, 1)] seeded_backlog /\ rsteps (RCFG 8 1) rv_real (rinit seeded_backlog 2 [(0, 1)]) es = Some s /\
    rids (r_out s) = [1; 2; 3; 5] /\ rseqs 0 (rtoks (r_out s)) = [0; 1; 2; 3; 4] /\ rpending s = [].
Proof.
  exists [RRecover; RRecover; RAccept 3 [(0, 2)]; RFeederTake; RFeederPush; RConsume; RFeederTake; RFeederPush;
          RAccept 5 [(0, 3); (0, 4)]; RConsume; RFeederTake; RFeederPush; RConsume; RFeederTake; RFeederPush; RConsume].
  eexists. split; [exact seeded_backlog_good|]. split; [vm_compute; reflexivity|]. cbn. repeat split.
Qed.

(* a run of consecutive ids is one range: what the replay (run_recovery_case) prints for the code as it is, which
   transmits in creation order *)
Lemma incr_ranges_consecutive : forall n a, ranges_acc a a (seq_from (S a) n) = [(a, a + n)].
Proof.
  assert (X : forall n lo hi, ranges_acc lo hi (seq_from (S hi) n) = [(lo, hi + n)]).
  { induction n as [|n IH]; intros lo hi; cbn [seq_from ranges_acc].
    - rewrite Nat.add_0_r. reflexivity.
    - rewrite Nat.eqb_refl. rewrite IH. f_equal. f_equal. lia. }
  intros n a. apply X.
Qed.
