(* C02 — facts that hold for the REPAIRED acknowledger (p_fix = true: an ACK with an unknown id ends the session):
   shape of the pending map, who closed the connection of an ended acknowledger, and the theorem
   "after an unknown-id ACK the session ends and every pending chunk is in the next leftovers". *)
From SV Require Import Model.Common Model.Client Spec.ClientSpec
     Proofs.ClientBase Proofs.ClientSafety Proofs.ClientHistory Proofs.ClientOrder Proofs.ClientTheorems.
From Coq Require Import Lia Permutation.
Local Open Scope nat_scope.

(* the pending map of the repaired acknowledger holds exactly the chunk it waits an ACK for *)
Definition pend_shape (ss : sess) : Prop :=
  match s_apc ss with
  | AIdle => s_pending ss = []
  | AReading c | AAcked c => s_pending ss = [c]
  | AEnded => True
  end.

Lemma pdel_single : forall c, pdel c [c] = [].
Proof. intros. unfold pdel. simpl. rewrite N.eqb_refl. reflexivity. Qed.

Lemma pend_shape_reach : forall P s, p_fix P = true -> reach P s -> forall ss, cur s = Some ss -> pend_shape ss.
Proof.
  intros P s Hfix Hr. revert s Hr.
  apply (reach_ind P (fun s => forall ss, cur s = Some ss -> pend_shape ss)).
  - simpl. discriminate.
  - intros s e s' IH Hs. destruct Hs; st_simpl; try assumption.
    all: try congruence.
    all: intros ss0 E; try discriminate E; try (inversion E; subst; clear E); unfold pend_shape in *; st_simpl.
    all: try (match goal with H : cur _ = Some ?x |- _ => pose proof (IH _ H) as I3 end).
    all: try solve [reflexivity].
    all: repeat match goal with H : s_apc _ = _ |- _ => rewrite H in * end.
    all: try solve [exact I3].
    + (* EAckerTake *) rewrite I3. reflexivity.
    + (* EAckRet AId known *) rewrite I3 in *. match goal with H : In _ [_] |- _ => destruct H as [<-|[]] end. reflexivity.
    + (* EConsumed *) rewrite I3. apply pdel_single.
Qed.

Fixpoint closes_of (tr : list event) : list nat :=
  match tr with [] => [] | EClose k :: r => k :: closes_of r | _ :: r => closes_of r end.

Lemma closes_of_app : forall a b, closes_of (a ++ b) = closes_of a ++ closes_of b.
Proof. induction a as [|e a IH]; intros b; [reflexivity|]. destruct e; simpl; rewrite ?IH; reflexivity. Qed.

(* abortConn schedules Close: a session with the RunOnce flag set has its Close pending or executed *)
Definition close_tracked (tr : list event) (s : state) : Prop :=
  forall ss, cur s = Some ss -> s_creq ss = true -> In (s_id ss) (close_pend s) \/ In (s_id ss) (closes_of tr).

(* a step of the session: its connection is tracked if it was, or if the step has just asked for Close *)
Lemma tracked_sess : forall cp closes ss ss',
  (s_creq ss = true -> In (s_id ss) cp \/ In (s_id ss) closes) -> s_id ss' = s_id ss ->
  s_creq ss' = true -> In (s_id ss') (cp ++ creq_new ss ss') \/ In (s_id ss') closes.
Proof.
  intros cp closes ss ss' IH Hid Hq. rewrite Hid. destruct (s_creq ss) eqn:E.
  - destruct (IH eq_refl) as [I|I]; [left; apply in_or_app; left; exact I|right; exact I].
  - left. apply in_or_app. right. unfold creq_new. rewrite E, Hq. left. reflexivity.
Qed.

Lemma close_tracked_reach : forall P tr s, reach_by P tr s -> close_tracked tr s.
Proof.
  intros P. apply (reach_by_ind P close_tracked).
  - intros ss E. discriminate E.
  - intros tr s e s' _ IH Hs. unfold close_tracked in *.
    destruct Hs; rewrite closes_of_app; cbn [closes_of]; rewrite ?app_nil_r.
    all: intros ss0; cbn [cur close_pend st_main st_sess st_env st_misc st_inq st_opener st_hist h_add_sent h_add_ack h_add_consumed
       h_add_handed h_set_finished h_add_los collect_hard collect_soft].
    all: try exact (IH ss0).
    all: try match goal with H : cur _ = Some _ |- _ => rewrite ?H; specialize (IH _ H) end.
    all: try solve [intros [= <-]; apply tracked_sess; [exact IH|reflexivity]].
    all: try solve [intros E; try discriminate E; rewrite ?E; apply tracked_sess; [exact (IH _ E)|reflexivity]].
    + (* Close of the first pending connection *)
      intros E Hq. destruct (IH _ E Hq) as [I|I]; [|right; apply in_or_app; left; exact I].
      rewrite H in I. destruct I as [<-|I]; [right; apply in_or_app; right; left; reflexivity|left; exact I].
    + (* Close of a later one *)
      intros E Hq. destruct (IH _ E Hq) as [I|I]; [|right; apply in_or_app; left; exact I].
      rewrite H in I. destruct (Nat.eq_dec (s_id ss0) k) as [->|Hne]; [right; apply in_or_app; right; left; reflexivity|].
      left. destruct I as [I|I]; [left; exact I|right]. apply filter_In. split; [exact I|].
      apply negb_true_iff, Nat.eqb_neq. congruence.
    + (* a new session has not asked for Close *) intros [= <-] Hq. discriminate Hq.
    + (* ECollected, EBugTimeout: the session is over *) discriminate.
    + discriminate.
Qed.

(* an ended session keeps its snapshot until collectLeftovers merges it *)
Definition frozen (k : nat) (X : list chunk) (s : state) : Prop :=
  exists ss, cur s = Some ss /\ s_id ss = k /\ s_ended ss = true /\ s_apc ss = AEnded /\ s_unacked ss = Some X /\ s_creq ss = true.

Lemma frozen_step : forall P s e s' k X,
  ctl_inv s -> frozen k X s -> step P s e = Some s' ->
  (frozen k X s' /\ e <> ECollected /\ e <> EBugTimeout /\ (forall c, e <> EConsumed c) /\ (forall j a, e <> EAckRet j a)) \/
  (e = ECollected /\ cur s' = None /\ forall c, In c X -> In c (lo s')) \/
  e = EBugTimeout.
Proof.
  intros P s e s' k X Hi (ss & Hcur & Hid & Hend & Hapc & Hun & Hq) Hs.
  apply step_Step in Hs. destruct Hs.
  all: try (right; right; reflexivity).
  all: repeat match goal with Hc : cur ?st = Some ?a, H : cur ?st = Some ?x |- _ =>
         lazymatch x with a => fail | _ => rewrite Hc in H; inversion H; subst x; clear H end end.
  all: try (rewrite Hapc in *; discriminate).
  all: unfold frozen.
  all: try solve [left; split; [|repeat split; intros; discriminate];
                  eexists; st_simpl; split; [first [reflexivity|eassumption]|]; st_simpl; rewrite ?Hq; auto].
  - (* EMainConn with a connection: main is between sessions, there is no current session *)
    destruct (i_between s Hi) as [Hn _]; [match goal with H : pc _ = _ |- _ => rewrite H end; reflexivity|]. congruence.
  - (* ECollected *)
    right. left. split; [reflexivity|]. st_simpl. split; [reflexivity|].
    intros c Hc. unfold merged. apply new_leftovers_In. rewrite Hun in *. some_inv.
    rewrite !in_app_iff. auto.
Qed.

(* despite its name a fact about lists of events, with nothing of ECollected in it: an event absent from a run
   differs from every event of the run *)
Lemma no_collect_split : forall (tr : list event) e, ~ In e (tr) -> forall x, In x tr -> x <> e.
Proof. intros tr e H x Hx E. subst. contradiction. Qed.

Lemma frozen_run : forall P tr s s' k X,
  reach P s -> frozen k X s -> run P s tr = Some s' -> ~ In ECollected tr -> ~ In EBugTimeout tr ->
  frozen k X s' /\ (forall c, ~ In (EConsumed c) tr) /\ (forall j a, ~ In (EAckRet j a) tr).
Proof.
  intros P tr. induction tr as [|e tr IH]; intros s s' k X Hr Hf Hrun Hnc Hnb.
  - simpl in Hrun. inversion Hrun; subst. split; [exact Hf|]. split; intros; intros [].
  - simpl in Hrun. destruct (step P s e) as [s1|] eqn:E; [|discriminate Hrun].
    destruct (frozen_step P s e s1 k X (ctl_inv_reach P s Hr) Hf E) as [(Hf1 & N1 & N2 & N3 & N4)|[(He & _)|He]].
    + destruct (IH s1 s' k X (reach_step P s e s1 Hr E) Hf1 Hrun) as (F & C & A).
      { intro H. apply Hnc. right. exact H. } { intro H. apply Hnb. right. exact H. }
      split; [exact F|]. split.
      * intros c [H|H]; [exact (N3 c H)|exact (C c H)].
      * intros j a [H|H]; [exact (N4 j a H)|exact (A j a H)].
    + exfalso. apply Hnc. left. exact He.
    + exfalso. apply Hnb. left. exact He.
Qed.

(* After a successful ack read that carries an id which is not pending, the repaired acknowledger has ended
   (deferred snapshot taken, ackerEnded signalled), Close of the connection is requested (pending or executed),
   and whatever happens next inside the contract - any interleaving, any environment - the acknowledger reads no
   further ACK and confirms nothing, and the collectLeftovers that ends this session puts every chunk of the
   pending map into the leftovers of the next session. *)
Lemma unknown_ack_ends_session_lemma : forall P tr s ss k i s1,
  p_fix P = true -> reach_by P tr s -> cur s = Some ss -> ~ In i (s_pending ss) ->
  step P s (EAckRet k (AId i)) = Some s1 ->
  (exists ss1, cur s1 = Some ss1 /\ s_id ss1 = k /\ s_apc ss1 = AEnded /\ s_ended ss1 = true /\
               s_unacked ss1 = Some (s_pending ss) /\ s_creq ss1 = true /\
               (In k (close_pend s1) \/ In (EClose k) tr)) /\
  forall tr2 s2, run P s1 (tr2 ++ [ECollected]) = Some s2 -> ~ In ECollected tr2 -> in_contract tr2 ->
    cur s2 = None /\ (forall c, In c (s_pending ss) -> In c (lo s2)) /\
    (forall c, ~ In (EConsumed c) tr2) /\ (forall j a, ~ In (EAckRet j a) tr2).
Proof.
  intros P tr s ss k i s1 Hfix Hr Hcur Hni Hs.
  assert (Hr1 : reach_by P (tr ++ [EAckRet k (AId i)]) s1) by (eapply reach_by_snoc; eauto).
  pose proof (close_tracked_reach P _ s1 Hr1) as Hct.
  assert (Hfz : frozen k (s_pending ss) s1 /\ exists ss1, cur s1 = Some ss1 /\ s_id ss1 = k).
  { apply mem_false in Hni. unfold step in Hs. rewrite Hcur in Hs.
    destruct (s_apc ss) eqn:Ea; try discriminate Hs.
    destruct (Nat.eqb k (s_id ss)) eqn:Ek; [|discriminate Hs]. apply Nat.eqb_eq in Ek.
    rewrite Hni, Hfix in Hs. inversion Hs; subst s1. st_simpl.
    split; eexists; (split; [reflexivity|]); st_simpl; rewrite ?orb_true_r; auto. }
  destruct Hfz as [Hfz (ssx & Hcx & Hix)].
  split.
  - destruct Hfz as (ss1 & C1 & I1 & E1 & A1 & U1 & Q1). exists ss1. repeat split; auto.
    destruct (Hct ss1 C1 Q1) as [H|H]; [left; rewrite <- I1; exact H|].
    right. rewrite closes_of_app in H. simpl in H. rewrite app_nil_r, I1 in H.
    clear -H. induction tr as [|e tr IH]; [contradiction|]. destruct e; simpl in H; try (right; apply IH; exact H).
    destruct H as [->|H]; [left; reflexivity|right; apply IH; exact H].
  - intros tr2 s2 Hrun Hnc Hcon. rewrite run_snoc in Hrun.
    destruct (run P s1 tr2) as [sm|] eqn:Em; [|discriminate Hrun].
    destruct (frozen_run P tr2 s1 sm k (s_pending ss) (reach_by_reach _ _ _ Hr1) Hfz Em Hnc Hcon) as (Fm & Cm & Am).
    destruct (frozen_step P sm ECollected s2 k (s_pending ss) (ctl_inv_reach P sm (reach_by_reach _ _ _ (reach_by_app P _ _ s1 sm Hr1 Em))) Fm Hrun)
      as [(_ & N & _)|[(_ & C2 & L2)|He]]; [congruence| |discriminate He].
    repeat split; auto.
Qed.
