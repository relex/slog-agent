(* C02 — basic facts about runs of the client LTS: the transition function as a relation, induction over runs,
   and the list functions of the model. *)
From SV Require Import Model.Common Model.Client Proofs.ListFacts.
From Coq Require Import Lia Permutation Sorted.

Lemma run_app : forall P tr1 tr2 s,
  run P s (tr1 ++ tr2) = match run P s tr1 with Some s1 => run P s1 tr2 | None => None end.
Proof.
  induction tr1 as [|e tr1 IH]; intros tr2 s; simpl; [reflexivity|].
  destruct (step P s e); [apply IH|reflexivity].
Qed.

Lemma run_snoc : forall P tr e s,
  run P s (tr ++ [e]) = match run P s tr with Some s1 => step P s1 e | None => None end.
Proof.
  intros. rewrite run_app. destruct (run P s tr); [|reflexivity]. simpl. destruct (step P s0 e); reflexivity.
Qed.

(* reachable states, with the run that leads to them *)
Definition reach_by (P : params) (tr : list event) (s : state) : Prop := run P init tr = Some s.
Definition reach (P : params) (s : state) : Prop := exists tr, reach_by P tr s.


Lemma mem_In : forall c l, mem c l = true <-> In c l.
Proof.
  intros c l. unfold mem. rewrite existsb_exists. split.
  - intros [x [Hx He]]. apply N.eqb_eq in He. subst. exact Hx.
  - intros H. exists c. split; [exact H|apply N.eqb_refl].
Qed.

Lemma mem_false : forall c l, mem c l = false <-> ~ In c l.
Proof. intros c l. rewrite <- mem_In. destruct (mem c l); intuition congruence. Qed.

Lemma padd_In : forall c x l, In x (padd c l) <-> x = c \/ In x l.
Proof.
  intros c x l. unfold padd. destruct (mem c l) eqn:E.
  - apply mem_In in E. split; [auto|]. intros [->|H]; assumption.
  - simpl. split; intros [H|H]; auto.
Qed.

Lemma pdel_In : forall c x l, In x (pdel c l) <-> x <> c /\ In x l.
Proof.
  intros c x l. unfold pdel. rewrite filter_In. split.
  - intros [H1 H2]. split; [|exact H1]. intro; subst. rewrite N.eqb_refl in H2. discriminate.
  - intros [H1 H2]. split; [exact H2|]. destruct (N.eqb_spec c x); [subst; contradiction|reflexivity].
Qed.


(* [step] as a relation: one constructor for each way a step can succeed, with its guard and the state it leads to *)
Inductive Step (P : params) (s : state) : event -> state -> Prop :=
| S_offer c : in_closed s = false ->
    Step P s (EOffer c) (st_env s (inq s ++ [c]) false (stop_sig s) (sig_flight s) (c :: h_offered s))
| S_stop : stop_sig s = false ->
    Step P s EStop (st_env s (inq s) (in_closed s) true (sig_flight s) (h_offered s))
| S_inclose : in_closed s = false ->
    Step P s EInClose (st_env s (inq s) true (stop_sig s) (sig_flight s) (h_offered s))
| S_reconnreq :
    Step P s EReconnReq (st_env s (inq s) (in_closed s) (stop_sig s) (S (sig_flight s)) (h_offered s))
| S_sigdeliver n : sig_flight s = S n ->
    Step P s ESigDeliver
         (st_misc s (aborter_done s) (close_pend s) n
                  (if in_process_input (pc s) && Nat.ltb (sig_pend s) 10 then S (sig_pend s) else sig_pend s))
| S_close_first k rest : close_pend s = k :: rest ->
    Step P s (EClose k) (st_misc s (aborter_done s) rest (sig_flight s) (sig_pend s))
| S_close_later k k' rest : close_pend s = k' :: rest -> k <> k' -> In k rest ->
    Step P s (EClose k)
         (st_misc s (aborter_done s) (k' :: filter (fun x => negb (Nat.eqb k x)) rest) (sig_flight s) (sig_pend s))
| S_aborter_sess ss : stop_sig s = true -> aborter_done s = false -> cur s = Some ss ->
    Step P s EAborter (st_sess (st_misc s true (close_pend s) (sig_flight s) (sig_pend s)) (sess_creq ss))
| S_aborter_idle : stop_sig s = true -> aborter_done s = false -> cur s = None ->
    Step P s EAborter (st_misc s true (close_pend s) (sig_flight s) (sig_pend s))
| S_spawn : pc s = MStart ->
    Step P s EMainSpawn (st_main (st_opener s OSpawned (nconn s)) (lo s) (last s) MConnecting (cur s))
| S_connstart : opener s = OSpawned ->
    Step P s (EConnStart (S (nconn s))) (st_opener s ODialing (S (nconn s)))
| S_connret ok : opener s = ODialing ->
    Step P s (EConnRet (nconn s) ok) (st_opener s (OResult ok) (nconn s))
| S_conn_ok : pc s = MConnecting -> opener s = OResult true ->
    Step P s EMainConn
         (h_add_los (st_main (st_opener s ONone (nconn s)) (lo s) None MResend (Some (new_sess (nconn s))))
                    (nconn s) (lo s))
| S_conn_fail : pc s = MConnecting -> opener s = OResult false ->
    Step P s EMainConn (st_main (st_opener s ONone (nconn s)) (lo s) (last s) MRetryWait (cur s))
| S_stopconn : pc s = MConnecting -> stop_sig s = true ->
    Step P s EMainStopConn (st_main s (lo s) (last s) MFinal (cur s))
| S_resendstop ss : pc s = MResend -> cur s = Some ss -> stop_sig s = true ->
    Step P s EResendStop (collect_hard s ss true PNone)
| S_resendtake c rest : pc s = MResend -> lo s = c :: rest ->
    Step P s (EResendTake c) (st_main s rest (Some c) (MSend FResend c) (cur s))
| S_resenddone : pc s = MResend -> lo s = [] -> stop_sig s = false ->
    Step P s EResendDone
         (st_misc (st_main s [] (last s) MInput (cur s)) (aborter_done s) (close_pend s) (sig_flight s) 0)
| S_send_ok f c ss : pc s = MSend f c -> cur s = Some ss ->
    Step P s (ESendRet (s_id ss) c ROk) (h_add_sent (st_main s (lo s) (last s) (MEnqueue f c) (cur s)) (s_id ss) c)
| S_send_err f c ss : pc s = MSend f c -> cur s = Some ss ->
    Step P s (ESendRet (s_id ss) c RErr)
         (collect_hard s ss (match f with FResend => true | FInput => false end) PDelay)
| S_enqueue f c ss : pc s = MEnqueue f c -> cur s = Some ss -> (length (s_achan ss) < p_cap P)%nat ->
    Step P s EEnqueue
         (st_main s (lo s) None (match f with FResend => MResend | FInput => MInput end)
                  (Some (sess_set_achan ss (s_achan ss ++ [c]))))
| S_enqstop f c ss : pc s = MEnqueue f c -> cur s = Some ss -> stop_sig s = true ->
    Step P s EEnqStop (collect_hard s ss (match f with FResend => true | FInput => false end) PNone)
| S_enqended f c ss : pc s = MEnqueue f c -> cur s = Some ss -> s_ended ss = true ->
    Step P s EEnqEnded (collect_hard s ss (match f with FResend => true | FInput => false end) PDelay)
| S_take c rest : pc s = MInput -> inq s = c :: rest ->
    Step P s (ETake c) (st_main (st_inq s rest (c :: h_taken s)) (lo s) (Some c) (MSend FInput c) (cur s))
| S_inclosedseen ss : pc s = MInput -> inq s = [] -> cur s = Some ss -> in_closed s = true ->
    Step P s EInClosedSeen (collect_hard s ss false PNone)
| S_maxage ss : pc s = MInput -> cur s = Some ss -> p_maxage P = true ->
    Step P s EMaxAge (collect_soft s ss PNow)
| S_sigseen ss n : pc s = MInput -> cur s = Some ss -> sig_pend s = S n ->
    Step P s ESigSeen (collect_soft (st_misc s (aborter_done s) (close_pend s) (sig_flight s) n) ss PNow)
| S_ping_ok ss : pc s = MInput -> cur s = Some ss ->
    Step P s (EPingRet (s_id ss) ROk) s
| S_ping_err ss : pc s = MInput -> cur s = Some ss ->
    Step P s (EPingRet (s_id ss) RErr) (collect_hard s ss false PDelay)
| S_softdone p ss : pc s = MSoftWait p -> cur s = Some ss ->
    Step P s ESoftDone (st_main s (lo s) (last s) (MHardWait false p) (Some (sess_abort ss)))
| S_collected prev p ss u : pc s = MHardWait prev p -> cur s = Some ss -> s_ended ss = true -> s_unacked ss = Some u ->
    Step P s ECollected (st_main s (merged s ss prev u) None (after_session p) None)
| S_bugtimeout prev p ss : pc s = MHardWait prev p -> cur s = Some ss -> s_ended ss = false ->
    Step P s EBugTimeout (st_main s (merged s ss prev []) None (after_session p) None)
| S_retrystop : pc s = MRetryWait -> stop_sig s = true ->
    Step P s ERetryStop (st_main s (lo s) (last s) MFinal (cur s))
| S_retrytimeout : pc s = MRetryWait ->
    Step P s ERetryTimeout (st_main s (lo s) (last s) MStart (cur s))
| S_leftover c rest : pc s = MFinal -> lo s = c :: rest ->
    Step P s (ELeftover c) (h_add_handed (st_main s rest (last s) MFinal (cur s)) c)
| S_finished : pc s = MFinal -> lo s = [] ->
    Step P s EFinished (h_set_finished (st_main s [] (last s) MDone (cur s)))
| S_ackertake ss c rest : cur s = Some ss -> s_apc ss = AIdle -> s_achan ss = c :: rest ->
    Step P s (EAckerTake c) (st_sess s (sess_acker ss rest (padd c (s_pending ss)) (AReading c)))
| S_ackerclosed ss : cur s = Some ss -> s_apc ss = AIdle -> s_achan ss = [] -> s_aclosed ss = true ->
    Step P s EAckerClosed (st_sess s (sess_end ss false))
| S_ackerabort ss : cur s = Some ss -> s_apc ss = AIdle -> s_abort ss = true ->
    Step P s EAckerAbort (st_sess s (sess_end ss false))
| S_ack_err ss nx : cur s = Some ss -> s_apc ss = AReading nx ->
    Step P s (EAckRet (s_id ss) AErr) (st_sess s (sess_end ss true))
| S_ack_empty ss nx : cur s = Some ss -> s_apc ss = AReading nx ->
    Step P s (EAckRet (s_id ss) AEmpty)
         (h_add_ack (st_sess s (sess_acker ss (s_achan ss) (s_pending ss) (AAcked nx))) (s_id ss) AEmpty nx)
| S_ack_known ss nx i : cur s = Some ss -> s_apc ss = AReading nx -> In i (s_pending ss) ->
    Step P s (EAckRet (s_id ss) (AId i))
         (h_add_ack (st_sess s (sess_acker ss (s_achan ss) (s_pending ss) (AAcked i))) (s_id ss) (AId i) nx)
| S_ack_unknown_end ss nx i : cur s = Some ss -> s_apc ss = AReading nx -> ~ In i (s_pending ss) -> p_fix P = true ->
    Step P s (EAckRet (s_id ss) (AId i)) (h_add_ack (st_sess s (sess_end ss true)) (s_id ss) (AId i) nx)
| S_ack_unknown_go ss nx i : cur s = Some ss -> s_apc ss = AReading nx -> ~ In i (s_pending ss) -> p_fix P = false ->
    Step P s (EAckRet (s_id ss) (AId i))
         (h_add_ack (st_sess s (sess_acker ss (s_achan ss) (s_pending ss) AIdle)) (s_id ss) (AId i) nx)
| S_consumed ss c : cur s = Some ss -> s_apc ss = AAcked c ->
    Step P s (EConsumed c) (h_add_consumed (st_sess s (sess_acker ss (s_achan ss) (pdel c (s_pending ss)) AIdle)) c).

(* case split on the innermost scrutinee of a [match] or [if] in H *)
Ltac break_hyp H :=
  match type of H with
  | context [match ?x with _ => _ end] =>
    match x with
    | context [match _ with _ => _ end] => fail 1
    | _ => destruct x eqn:?
    end
  | context [if ?x then _ else _] =>
    match x with
    | context [if _ then _ else _] => fail 1
    | _ => destruct x eqn:?
    end
  end.

Lemma step_Step : forall P s e s', step P s e = Some s' -> Step P s e s'.
Proof.
  intros P s e s' H. destruct e; unfold step in H; cbv zeta in H;
    repeat (lazymatch type of H with Some _ = Some _ => fail | _ => break_hyp H end; try discriminate H);
    inversion H; subst; clear H.
  all: repeat match goal with
       | H : _ && _ = true |- _ => apply andb_prop in H; destruct H
       | H : Nat.eqb _ _ = true |- _ => apply Nat.eqb_eq in H; subst
       | H : Nat.eqb _ _ = false |- _ => apply Nat.eqb_neq in H
       | H : N.eqb _ _ = true |- _ => apply N.eqb_eq in H; subst
       | H : negb _ = true |- _ => apply negb_true_iff in H
       | H : mem _ _ = true |- _ => apply mem_In in H
       | H : mem _ _ = false |- _ => apply mem_false in H
       | H : Nat.ltb _ _ = true |- _ => apply Nat.ltb_lt in H
       | H : existsb _ _ = true |- _ => apply existsb_exists in H; destruct H as (? & ? & ?)
       end.
  all: try (econstructor; eassumption).
  match goal with H : cur _ = Some _ |- _ => rewrite <- H end. econstructor; eassumption.
Qed.

Lemma Step_step : forall P s e s', Step P s e s' -> step P s e = Some s'.
Proof.
  intros P s e s' H. destruct H; unfold step.
  all: repeat match goal with
       | H : (_ < _)%nat |- _ => apply Nat.ltb_lt in H
       | H : In _ (s_pending _) |- _ => apply mem_In in H
       | H : ~ In _ (s_pending _) |- _ => apply mem_false in H
       | H : _ <> _ |- _ => apply Nat.eqb_neq in H
       end.
  all: repeat match goal with H : _ = _ |- _ => rewrite H end; rewrite ?Nat.eqb_refl, ?N.eqb_refl; try reflexivity.
  replace (existsb (Nat.eqb k) rest) with true; [reflexivity|].
  symmetry. apply existsb_exists. exists k. split; [assumption|apply Nat.eqb_refl].
Qed.

(* induction over runs: the invariant may mention the run so far *)
Lemma reach_by_ind : forall (P : params) (I : list event -> state -> Prop),
  I [] init ->
  (forall tr s e s', reach_by P tr s -> I tr s -> Step P s e s' -> I (tr ++ [e]) s') ->
  forall tr s, reach_by P tr s -> I tr s.
Proof.
  intros P I H0 Hs tr. induction tr as [|e tr IH] using rev_ind; intros s Hr.
  - unfold reach_by in Hr. simpl in Hr. inversion Hr; subst. exact H0.
  - unfold reach_by in Hr. rewrite run_snoc in Hr. destruct (run P init tr) as [s1|] eqn:E; [|discriminate].
    eapply Hs; [exact E | apply IH; exact E | apply step_Step; exact Hr].
Qed.

Lemma reach_ind : forall (P : params) (I : state -> Prop),
  I init ->
  (forall s e s', I s -> Step P s e s' -> I s') ->
  forall s, reach P s -> I s.
Proof.
  intros P I H0 Hs s [tr Hr]. revert tr s Hr.
  apply (reach_by_ind P (fun _ s => I s)); [exact H0|].
  intros tr s e s' _. apply Hs.
Qed.

Lemma reach_by_reach : forall P tr s, reach_by P tr s -> reach P s.
Proof. intros P tr s H. exists tr. exact H. Qed.

Lemma reach_by_app : forall P tr tr' s s', reach_by P tr s -> run P s tr' = Some s' -> reach_by P (tr ++ tr') s'.
Proof. intros P tr tr' s s' Hr Hs. unfold reach_by in *. rewrite run_app, Hr. exact Hs. Qed.

Lemma reach_by_snoc : forall P tr e s s', reach_by P tr s -> step P s e = Some s' -> reach_by P (tr ++ [e]) s'.
Proof. intros P tr e s s' Hr Hs. unfold reach_by in *. rewrite run_snoc, Hr. exact Hs. Qed.

Lemma reach_step : forall P s e s', reach P s -> step P s e = Some s' -> reach P s'.
Proof. intros P s e s' [tr Hr] Hs. exists (tr ++ [e]). eapply reach_by_snoc; eauto. Qed.

Lemma insert_perm : forall c l, Permutation (insert c l) (c :: l).
Proof.
  induction l as [|x l IH]; simpl; [constructor; constructor|].
  destruct (c <=? x); [reflexivity|].
  rewrite IH. apply perm_swap.
Qed.

Lemma isort_perm : forall l, Permutation (isort l) l.
Proof.
  induction l as [|x l IH]; simpl; [constructor|]. rewrite insert_perm. constructor. exact IH.
Qed.

Lemma insert_In : forall c x l, In x (insert c l) <-> x = c \/ In x l.
Proof.
  intros c x l. split; intro H; [apply (Permutation_in _ (insert_perm c l)) in H|
    apply (Permutation_in _ (Permutation_sym (insert_perm c l)))]; simpl in *; intuition congruence.
Qed.

Definition lt_sorted (l : list chunk) : Prop := StronglySorted N.lt l.
Definition le_sorted (l : list chunk) : Prop := StronglySorted N.le l.

Lemma insert_sorted : forall c l, le_sorted l -> le_sorted (insert c l).
Proof.
  induction l as [|x l IH]; intros Hs; simpl.
  - repeat constructor.
  - inversion Hs as [|? ? Hs' Hall]; subst. destruct (N.leb_spec c x).
    + constructor; [exact Hs|]. constructor; [exact H|].
      eapply Forall_impl; [|exact Hall]. intros a Ha. simpl in Ha. lia.
    + constructor; [apply IH; exact Hs'|].
      apply Forall_forall. intros y Hy. apply insert_In in Hy. destruct Hy as [->|Hy]; [lia|].
      rewrite Forall_forall in Hall. apply Hall. exact Hy.
Qed.

Lemma isort_sorted : forall l, le_sorted (isort l).
Proof. induction l; simpl; [constructor|apply insert_sorted; assumption]. Qed.

Lemma dedup_adj_In : forall x l, In x (dedup_adj l) <-> In x l.
Proof.
  intros x l. induction l as [|a l IH]; [reflexivity|].
  simpl dedup_adj. destruct l as [|b l'].
  - reflexivity.
  - destruct (N.eqb_spec a b).
    + subst. rewrite IH. simpl. tauto.
    + simpl In at 1. rewrite IH. simpl. tauto.
Qed.

Lemma dedup_adj_sorted : forall l, le_sorted l -> lt_sorted (dedup_adj l).
Proof.
  induction l as [|a l IH]; intros Hs; [constructor|].
  inversion Hs as [|? ? Hs' Hall]; subst.
  simpl dedup_adj. destruct l as [|b l'].
  - repeat constructor.
  - destruct (N.eqb_spec a b).
    + apply IH. exact Hs'.
    + constructor; [apply IH; exact Hs'|].
      apply Forall_forall. intros y Hy. rewrite dedup_adj_In in Hy.
      rewrite Forall_forall in Hall. pose proof (Hall y Hy) as H1. pose proof (Hall b (or_introl eq_refl)) as H2.
      simpl in *. destruct Hy as [->|Hy]; [lia|].
      inversion Hs' as [|? ? _ Hall']; subst. rewrite Forall_forall in Hall'. pose proof (Hall' y Hy). lia.
Qed.

Lemma dedup_adj_nodup : forall l, NoDup l -> dedup_adj l = l.
Proof.
  induction l as [|a l IH]; intros Hn; [reflexivity|].
  inversion Hn as [|? ? Hna Hn']; subst. simpl dedup_adj. destruct l as [|b l']; [reflexivity|].
  destruct (N.eqb_spec a b); [subst; exfalso; apply Hna; left; reflexivity|].
  f_equal. apply IH. exact Hn'.
Qed.

Lemma new_leftovers_sorted : forall l, lt_sorted (new_leftovers l).
Proof. intros. apply dedup_adj_sorted, isort_sorted. Qed.

Lemma new_leftovers_In : forall x l, In x (new_leftovers l) <-> In x l.
Proof.
  intros. unfold new_leftovers. rewrite dedup_adj_In. split; apply Permutation_in; [|symmetry]; apply isort_perm.
Qed.

Lemma new_leftovers_perm : forall l, NoDup l -> Permutation (new_leftovers l) l.
Proof.
  intros l Hn. unfold new_leftovers. rewrite dedup_adj_nodup; [apply isort_perm|].
  eapply Permutation_NoDup; [symmetry; apply isort_perm|exact Hn].
Qed.

Lemma lt_sorted_nodup : forall l, lt_sorted l -> NoDup l.
Proof.
  intros l. apply StronglySorted_NoDup. exact N.lt_irrefl.
Qed.
