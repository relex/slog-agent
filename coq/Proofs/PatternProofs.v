(* C15: compiling extractHead / extractTail patterns (splitPattern, the range-expression table). *)
From SV Require Import Model.Common Model.TfUnescape Model.Extractor Spec.TfUnescapeSpec Spec.TransformsSpec
     Proofs.CommonFacts Proofs.TfUnescapeProofs Proofs.TfStringFacts.
From Coq Require Import Lia ZifyBool ZifyN ZifyNat.
Ltac Zify.zify_post_hook ::= Z.div_mod_to_equations.
Open Scope N_scope.

Lemma pattern_map : forall c, u_map pattern_unescaper c = if pat_special c then c else 0.
Proof.
  intros c. unfold pattern_unescaper, mk_unescaper, pat_special. cbn [u_map].
  destruct (c =? 92) eqn:E1; [cbn; lia|]. destruct (c =? 91) eqn:E2; [cbn; lia|].
  destruct (c =? 93) eqn:E3; [cbn; lia|]. destruct (c =? 42) eqn:E4; [cbn; lia|]. reflexivity.
Qed.

Lemma N_match_42 : forall (A : Type) (x y : A) c, match c with 42 => x | _ => y end = if c =? 42 then x else y.
Proof. intros A x y [|p]; [reflexivity|]. do 6 (destruct p as [p|p|]; try reflexivity). Qed.

Lemma N_match_94 : forall (A : Type) (x y : A) c, match c with 94 => x | _ => y end = if c =? 94 then x else y.
Proof. intros A x y [|p]; [reflexivity|]. do 7 (destruct p as [p|p|]; try reflexivity). Qed.

Lemma pat_escape_app : forall a b, pat_escape (a ++ b) = pat_escape a ++ pat_escape b.
Proof. intros. unfold pat_escape. apply flat_map_app. Qed.

(* unescaping an escaped string gives the string back *)
Lemma unesc_pat_escape : forall s, unesc_ref 92 (u_map pattern_unescaper) (pat_escape s) = s.
Proof.
  induction s as [|c s IH]; [reflexivity|].
  unfold pat_escape in *. cbn [flat_map]. destruct (pat_special c) eqn:E.
  - cbn [app unesc_ref]. rewrite N.eqb_refl. rewrite pattern_map, E.
    destruct (c =? 0) eqn:E0; [unfold pat_special in E; lia|]. f_equal. exact IH.
  - cbn [app unesc_ref]. destruct (c =? 92) eqn:E2; [unfold pat_special in E; lia|]. f_equal. exact IH.
Qed.

Lemma pat_unescape_escape : forall s, pat_unescape (pat_escape s) = Ok s.
Proof. intros s. unfold pat_unescape. rewrite unescape_run_spec. cbn [u_esc pattern_unescaper mk_unescaper]. rewrite unesc_pat_escape. reflexivity. Qed.

(* an escaped string contains no unescaped special byte *)
Lemma ffu_escape : forall target s rest pos, pat_special target = true -> target <> 92 ->
  ffu_loop pattern_unescaper target (pat_escape s ++ rest) pos false =
  ffu_loop pattern_unescaper target rest (pos + length (pat_escape s)) false.
Proof.
  intros target s rest pos Ht Hn. revert pos. induction s as [|c s IH]; intros pos.
  - cbn. f_equal. lia.
  - unfold pat_escape in *. cbn [flat_map]. destruct (pat_special c) eqn:E.
    + cbn [app ffu_loop]. change (u_esc pattern_unescaper) with 92. rewrite N.eqb_refl.
      rewrite IH. f_equal. cbn [length]. lia.
    + cbn [app ffu_loop]. change (u_esc pattern_unescaper) with 92.
      destruct (c =? 92) eqn:E2; [unfold pat_special in E; lia|].
      destruct (c =? target) eqn:E3; [apply N.eqb_eq in E3; subst; congruence|].
      rewrite IH. f_equal. cbn [length]. lia.
Qed.

Lemma ffu_escape_none : forall target s, pat_special target = true -> target <> 92 ->
  ffu_loop pattern_unescaper target (pat_escape s) O false = None.
Proof. intros. rewrite <- (app_nil_r (pat_escape s)). rewrite ffu_escape by assumption. reflexivity. Qed.

Lemma ffu_escape_hit : forall target s rest, pat_special target = true -> target <> 92 ->
  ffu_loop pattern_unescaper target (pat_escape s ++ target :: rest) O false = Some (length (pat_escape s)).
Proof.
  intros. rewrite ffu_escape by assumption. cbn [ffu_loop]. change (u_esc pattern_unescaper) with 92.
  destruct (target =? 92) eqn:E; [lia|]. rewrite N.eqb_refl. reflexivity.
Qed.

Lemma find_first_unescaped_ok : forall s target, pat_special target = true ->
  find_first_unescaped pattern_unescaper s target = Ok (ffu_loop pattern_unescaper target s O false).
Proof.
  intros s target H. unfold find_first_unescaped. rewrite pattern_map, H.
  destruct (target =? 0) eqn:E; [unfold pat_special in H; lia|reflexivity].
Qed.

(* "left*right": splitPattern returns the unescaped boundaries *)
Lemma split_pattern_star : forall l r,
  split_pattern (pat_escape l ++ 42 :: pat_escape r) = Ok (l, [42], r).
Proof.
  intros l r. unfold split_pattern. rewrite find_first_unescaped_ok by reflexivity.
  rewrite ffu_escape_hit by (reflexivity || discriminate). cbn [obind].
  rewrite firstn_length_app.
  rewrite pat_unescape_escape. cbn [obind].
  rewrite skipn_S_length_app, pat_unescape_escape. reflexivity.
Qed.

(* "left[body]right": the bracket expression is returned verbatim (still escaped) *)
Lemma split_pattern_class : forall l body r,
  split_pattern (pat_escape l ++ 91 :: pat_escape body ++ 93 :: pat_escape r) =
  Ok (l, 91 :: pat_escape body ++ [93], r).
Proof.
  intros l body r. unfold split_pattern.
  set (p := pat_escape l ++ 91 :: pat_escape body ++ 93 :: pat_escape r).
  rewrite find_first_unescaped_ok by reflexivity.
  (* no unescaped '*' anywhere *)
  assert (Hstar : ffu_loop pattern_unescaper 42 p O false = None).
  { unfold p. rewrite ffu_escape by (reflexivity || discriminate). cbn [ffu_loop]. change (u_esc pattern_unescaper) with 92. cbn [N.eqb Pos.eqb].
    rewrite ffu_escape by (reflexivity || discriminate). cbn [ffu_loop]. change (u_esc pattern_unescaper) with 92. cbn [N.eqb Pos.eqb].
    rewrite <- (app_nil_r (pat_escape r)). rewrite ffu_escape by (reflexivity || discriminate). reflexivity. }
  rewrite Hstar. cbn [obind].
  rewrite find_first_unescaped_ok by reflexivity.
  unfold p at 1. rewrite ffu_escape_hit by (reflexivity || discriminate). cbn [obind].
  unfold p at 1. rewrite firstn_length_app.
  rewrite pat_unescape_escape. cbn [obind].
  unfold p at 1. rewrite skipn_S_length_app. rewrite find_first_unescaped_ok by reflexivity.
  rewrite ffu_escape_hit by (reflexivity || discriminate). cbn [obind].
  set (bs := length (pat_escape l)). set (be := length (pat_escape body)).
  assert (Hr : skipn (S (be + bs + 1)) p = pat_escape r).
  { unfold p. rewrite skipn_app, skipn_all2 by (fold bs; lia). fold bs.
    replace (S (be + bs + 1) - bs)%nat with (S (S be)) by lia. apply skipn_S_length_app. }
  rewrite Hr, pat_unescape_escape. cbn [obind]. do 3 f_equal.
  unfold p. rewrite skipn_app, skipn_all2 by (fold bs; lia). fold bs. rewrite Nat.sub_diag. cbn [skipn app].
  replace (S (be + bs + 1) - bs)%nat with (S (S be)) by lia. rewrite firstn_cons. f_equal.
  rewrite firstn_app. fold be. replace (S be - be)%nat with 1%nat by lia.
  rewrite firstn_all2 by (fold be; lia). reflexivity.
Qed.

Lemma nth_app_here : forall (pre : bytes) x rest, nth (length pre) (pre ++ x :: rest) 0 = x.
Proof. intros. rewrite app_nth2 by lia. rewrite Nat.sub_diag. reflexivity. Qed.

(* the loop over the items that follow [pre]; the table is described pointwise *)
Lemma fill_loop_items : forall (items : list class_item) (trail : bool) (pre : bytes) (t : table) (listed : bool) (expr : bytes),
  Forall item_ok_class items ->
  expr = pre ++ flat_map render_class_item items ++ (if trail then [45] else []) ->
  exists tb,
    fill_loop expr (length expr) listed (flat_map render_class_item items ++ (if trail then [45] else []))
              (length pre) t false = Ok tb /\
    forall c : N, tb c = if (existsb (in_class_item c) items || (trail && (c =? 45)))%bool then listed else t c.
Proof.
  induction items as [|it items IH]; intros trail pre t listed expr Hok Hexpr; subst expr.
  - cbn [flat_map app existsb orb]. destruct trail.
    + cbn [fill_loop]. cbn [N.eqb Pos.eqb]. cbv iota.
      assert (Hlast : ((0 <? length pre) && (length pre <? length (pre ++ [45%N]) - 1))%nat = false).
      { rewrite app_length. cbn [length]. lia. }
      rewrite Hlast. eexists. split; [reflexivity|]. intros c. unfold upd. cbn [andb].
      destruct (c =? 45); reflexivity.
    + cbn [fill_loop]. eexists. split; [reflexivity|]. intros c. cbn. reflexivity.
  - inversion Hok as [|? ? Hit Hok']; subst. destruct it as [x|lo hi]; cbn [flat_map render_class_item app].
    + (* single byte *)
      cbn in Hit. cbn [fill_loop]. destruct (x =? 45) eqn:E; [lia|].
      destruct (IH trail (pre ++ [x]) (upd t x listed) listed
                   (pre ++ [x] ++ flat_map render_class_item items ++ (if trail then [45] else [])) Hok')
        as (tb & Htb & Hc).
      { rewrite <- !app_assoc. reflexivity. }
      assert (Hl : length (pre ++ [x]) = S (length pre)) by (rewrite app_length; cbn [length]; lia).
      rewrite Hl in Htb. cbn [app] in Htb. exists tb. split; [exact Htb|].
      intros c. rewrite Hc. cbn [existsb in_class_item]. unfold upd.
      destruct (c =? x) eqn:Ecx; cbn [orb]; [destruct (existsb (in_class_item c) items || trail && (c =? 45)); reflexivity|reflexivity].
    + (* range *)
      cbn in Hit. destruct Hit as (Hlo & Hhi & Hle).
      cbn [fill_loop].
      destruct (lo =? 45) eqn:E1; [lia|].
      cbn [N.eqb Pos.eqb]. cbv iota.
      assert (Hmid : ((0 <? S (length pre)) && (S (length pre) <? length (pre ++ lo :: 45%N :: hi :: flat_map render_class_item items ++ (if trail then [45%N] else [])) - 1))%nat = true).
      { rewrite !app_length. cbn [length]. lia. }
      rewrite Hmid.
      destruct (hi =? 45) eqn:E2; [lia|].
      replace (S (S (length pre)) - 2)%nat with (length pre) by lia.
      rewrite nth_app_here.
      destruct (IH trail (pre ++ [lo; 45; hi]) (upd_range (upd t lo listed) lo hi listed) listed
                   (pre ++ lo :: ([45; hi] ++ flat_map render_class_item items ++ (if trail then [45] else []))) Hok')
        as (tb & Htb & Hc).
      { rewrite <- !app_assoc. reflexivity. }
      assert (Hl : length (pre ++ [lo; 45; hi]) = S (S (S (length pre)))) by (rewrite app_length; cbn [length]; lia).
      rewrite Hl in Htb. cbn [app] in Htb. exists tb. split; [exact Htb|].
      intros c. rewrite Hc. cbn [existsb in_class_item]. unfold upd_range, upd.
      destruct ((lo <=? c) && (c <=? hi)) eqn:Er; cbn [orb]; [destruct (existsb (in_class_item c) items || trail && (c =? 45)); reflexivity|].
      destruct (c =? lo) eqn:Ecl; [lia|reflexivity].
Qed.

(* the loop over a whole class body (optional leading '-') *)
Lemma fill_loop_body : forall lead items trail (t : table) (listed : bool),
  Forall item_ok_class items ->
  let body := class_body lead items trail in
  exists tb, fill_loop body (length body) listed body O t false = Ok tb /\
    forall c : N, tb c = if in_class lead items trail c then listed else t c.
Proof.
  intros lead items trail t listed Hok body. unfold body, class_body. destruct lead.
  - cbn [app fill_loop]. cbn [N.eqb Pos.eqb]. cbv iota. cbn [Nat.ltb Nat.leb andb].
    destruct (fill_loop_items items trail [45] (upd t 45 listed) listed
                (45 :: flat_map render_class_item items ++ (if trail then [45] else [])) Hok eq_refl)
      as (tb & Htb & Hc).
    exists tb. split; [exact Htb|]. intros c. rewrite Hc. unfold in_class, upd. cbn [orb andb].
    destruct (c =? 45) eqn:E; destruct (existsb (in_class_item c) items); destruct trail; reflexivity.
  - cbn [app].
    destruct (fill_loop_items items trail [] t listed
                (flat_map render_class_item items ++ (if trail then [45] else [])) Hok eq_refl)
      as (tb & Htb & Hc).
    exists tb. split; [exact Htb|]. intros c. rewrite Hc. unfold in_class. cbn [orb andb].
    destruct (existsb (in_class_item c) items); destruct trail; destruct (c =? 45); reflexivity.
Qed.

(* fillValidCharsByRangeExpression on "[body]" / "[^body]" (body escaped as in the pattern) *)
Lemma fill_valid_chars_spec : forall (neg lead : bool) items (trail : bool),
  Forall item_ok_class items ->
  let body := class_body lead items trail in
  (neg = false -> match body with [] => False | c :: _ => c <> 94 end) ->
  exists tb, fill_valid_chars (91 :: pat_escape ((if neg then [94] else []) ++ body) ++ [93]) = Ok tb /\
    forall c : N, tb c = xorb neg (in_class lead items trail c).
Proof.
  intros neg lead items trail Hok body Hhd. unfold fill_valid_chars.
  set (inner := pat_escape ((if neg then [94] else []) ++ body)).
  assert (Hmid : firstn (length (91 :: inner ++ [93]) - 2) (skipn 1 (91 :: inner ++ [93])) = inner).
  { cbn [skipn length]. rewrite app_length. cbn [length].
    replace (S (length inner + 1) - 2)%nat with (length inner) by lia.
    rewrite firstn_length_app. reflexivity. }
  rewrite Hmid. unfold inner. rewrite pat_unescape_escape. cbn [obind].
  destruct neg.
  - cbn [app]. destruct (fill_loop_body lead items trail (fun _ => true) false Hok) as (tb & Htb & Hc).
    exists tb. split; [exact Htb|]. intros c. rewrite Hc. destruct (in_class lead items trail c); reflexivity.
  - cbn [app]. specialize (Hhd eq_refl).
    destruct (fill_loop_body lead items trail (fun _ => false) true Hok) as (tb & Htb & Hc).
    fold body in Htb. destruct body as [|c0 body'] eqn:Eb; [contradiction|].
    assert (Hne : (c0 =? 94) = false) by lia.
    exists tb. split.
    + cbv beta iota. rewrite N_match_94, Hne. exact Htb.
    + intros c. rewrite Hc. destruct (in_class lead items trail c); reflexivity.
Qed.

Lemma new_string_extractor_bracket : forall head l r maxr mid,
  new_string_extractor head l (91 :: mid ++ [93]) r maxr =
  (t <-- fill_valid_chars (91 :: mid ++ [93]) ;;
   Ok {| ex_head := head; ex_left := l; ex_right := r; ex_max := maxr; ex_table := Some t |}).
Proof.
  intros head l r maxr mid. unfold new_string_extractor.
  assert (Hlast : last (91 :: mid ++ [93]) 0 = 93) by (rewrite app_comm_cons; apply last_last).
  assert (Hw2 : Nat.ltb (length (91 :: mid ++ [93])) 2 = false) by (cbn [length]; rewrite app_length; cbn [length]; lia).
  destruct mid as [|m0 mid'].
  - reflexivity.
  - cbn [app] in *. rewrite Hw2, Hlast. reflexivity.
Qed.

(* the whole compilation of a pattern with a class *)
Lemma new_extractor_class : forall head l r maxr (neg lead : bool) items (trail : bool),
  Forall item_ok_class items ->
  let body := class_body lead items trail in
  (neg = false -> match body with [] => False | c :: _ => c <> 94 end) ->
  exists tb,
    new_string_extractor_simple head
      (pat_escape l ++ 91 :: pat_escape ((if neg then [94] else []) ++ body) ++ 93 :: pat_escape r) maxr =
    Ok {| ex_head := head; ex_left := l; ex_right := r; ex_max := maxr; ex_table := Some tb |} /\
    forall c : N, tb c = xorb neg (in_class lead items trail c).
Proof.
  intros head l r maxr neg lead items trail Hok body Hhd.
  unfold new_string_extractor_simple. rewrite split_pattern_class. cbn [obind].
  destruct (fill_valid_chars_spec neg lead items trail Hok Hhd) as (tb & Htb & Hc).
  exists tb. split; [|exact Hc]. rewrite new_string_extractor_bracket. fold body in Htb. rewrite Htb. reflexivity.
Qed.

Lemma new_extractor_star : forall (head : bool) (l r : bytes) maxr, (if head then r else l) <> [] ->
  new_string_extractor_simple head (pat_escape l ++ 42 :: pat_escape r) maxr =
  Ok {| ex_head := head; ex_left := l; ex_right := r; ex_max := maxr; ex_table := None |}.
Proof.
  intros head l r maxr H. unfold new_string_extractor_simple. rewrite split_pattern_star. cbn [obind].
  unfold new_string_extractor. destruct (if head then r else l); [congruence|reflexivity].
Qed.

(* ... and a bare "*" without the boundary on its far side is rejected *)
Lemma new_extractor_star_rejected : forall (head : bool) (l r : bytes) maxr, (if head then r else l) = [] ->
  new_string_extractor_simple head (pat_escape l ++ 42 :: pat_escape r) maxr = Err e_star_boundary.
Proof.
  intros head l r maxr H. unfold new_string_extractor_simple. rewrite split_pattern_star. cbn [obind].
  unfold new_string_extractor. rewrite H. reflexivity.
Qed.

Lemma new_string_extractor_cons : forall head l c w r maxr,
  new_string_extractor head l (c :: w) r maxr =
  if (c =? 42) && (match w with [] => true | _ => false end)
  then if (match (if head then r else l) with [] => true | _ => false end) then Err e_star_boundary
       else Ok {| ex_head := head; ex_left := l; ex_right := r; ex_max := maxr; ex_table := None |}
  else if ((length (c :: w) <? 2)%nat || negb (c =? 91) || negb (last (c :: w) 0 =? 93))%bool then Err e_bad_wildcard
       else t <-- fill_valid_chars (c :: w) ;;
            Ok {| ex_head := head; ex_left := l; ex_right := r; ex_max := maxr; ex_table := Some t |}.
Proof.
  intros. unfold new_string_extractor. rewrite N_match_42. destruct (c =? 42); [destruct w|]; reflexivity.
Qed.

(* what every successfully compiled extractor satisfies: the table or the far boundary is there *)
Lemma new_string_extractor_wf : forall head l w r maxr ex,
  new_string_extractor head l w r maxr = Ok ex ->
  ex_max ex = maxr /\
  (if ex_head ex then ex_right ex <> [] \/ ex_table ex <> None else ex_left ex <> [] \/ ex_table ex <> None).
Proof.
  intros head l w r maxr ex H. destruct w as [|c w]; [discriminate|]. rewrite new_string_extractor_cons in H.
  destruct ((c =? 42) && _).
  - destruct (if head then r else l) eqn:Eb; [discriminate|].
    inversion H; subst. cbn. split; [reflexivity|]. destruct head; left; congruence.
  - destruct (_ || _ || _)%bool; [discriminate|]. destruct (fill_valid_chars (c :: w)); try discriminate.
    inversion H; subst. cbn. split; [reflexivity|]. destruct head; right; discriminate.
Qed.

Lemma new_string_extractor_simple_wf : forall head pat maxr ex,
  new_string_extractor_simple head pat maxr = Ok ex ->
  ex_max ex = maxr /\
  (if ex_head ex then ex_right ex <> [] \/ ex_table ex <> None else ex_left ex <> [] \/ ex_table ex <> None).
Proof.
  intros head pat maxr ex H. unfold new_string_extractor_simple in H.
  destruct (split_pattern pat) as [[[l w] r]| |]; try discriminate. cbn [obind] in H.
  eapply new_string_extractor_wf. eassumption.
Qed.
