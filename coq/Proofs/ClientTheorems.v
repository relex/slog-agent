(* C02 — the property theorems about runs of the client LTS, stated on the events of the run. *)
From SV Require Import Model.Common Model.Client Spec.ClientSpec
     Proofs.ClientBase Proofs.ClientSafety Proofs.ClientHistory Proofs.ClientOrder.
From Coq Require Import Lia Permutation Sorted.

Lemma sent_of_In : forall tr k c, In (k, c) (sent_of tr) -> In (ESendRet k c ROk) tr.
Proof.
  induction tr as [|e tr IH]; intros k c H; simpl in H; [contradiction|].
  destruct e; try (right; apply IH; exact H).
  destruct r; [|right; apply IH; exact H].
  destruct H as [E|H]; [inversion E; subst; left; reflexivity|right; apply IH; exact H].
Qed.

(* 1. a chunk is reported delivered only after a successful ack read designating it, on a connection on which
      its transmission completed before *)
Lemma confirm_after_ack_lemma : forall P pre c post s,
  run P init (pre ++ EConsumed c :: post) = Some s ->
  exists k, In (ESendRet k c ROk) pre /\ designated pre k c.
Proof.
  intros P pre c post s Hr. rewrite run_app in Hr.
  destruct (run P init pre) as [s1|] eqn:E1; [|discriminate Hr].
  cbn [run] in Hr. destruct (step P s1 (EConsumed c)) as [s2|] eqn:E2; [|discriminate Hr]. clear Hr.
  assert (Hi : ctl_inv s1) by (eapply ctl_inv_reach; exists pre; exact E1).
  pose proof (hist_reach P pre s1 E1) as Hh.
  apply step_Step in E2. remember (EConsumed c) as e eqn:Ee. destruct E2; try discriminate Ee. injection Ee as <-.
  destruct (i_sess s1 Hi _ H) as (_ & _ & Hpend & Hsent & _ & Hack).
  rewrite H0 in Hpend, Hack.
  exists (s_id ss). split.
  - apply sent_of_In. apply in_rev. rewrite <- (hs_sent _ _ Hh). apply Hsent. apply in_or_app. right. exact Hpend.
  - destruct Hack as (a & nx & Hin & Hd).
    destruct (hs_acks _ _ Hh _ _ _ Hin) as (p1 & p2 & Hp & Hl).
    exists p1, p2, a. split; [exact Hp|]. destruct Hd as [Hd|[Hd1 Hd2]]; [left; exact Hd|right; subst; auto].
Qed.

(* 2. conservation: inside the connection contract and with pairwise distinct ids, at every moment the chunks
      taken from the queue are exactly the delivered ones, the handed back ones and the client's holdings,
      each once; when the client has finished it holds nothing *)
Lemma resolved_lemma : forall P tr s,
  reach_by P tr s -> in_contract tr -> distinct_input tr ->
  Permutation (taken_of tr) (consumed_of tr ++ handed_of tr ++ holdings s) /\
  (finished_in tr = true -> holdings s = []).
Proof.
  intros P tr s Hr Hc Hd. pose proof (hist_reach P tr s Hr) as Hh.
  assert (Hn : NoDup (h_offered s)).
  { rewrite (hs_offered _ _ Hh). apply NoDup_rev. exact Hd. }
  assert (Hr' : reach P s) by (exists tr; exact Hr). split.
  - apply perm_cnt. intro x. pose proof (conserved_reach P tr s Hr Hc Hn x) as J.
    rewrite (hs_taken _ _ Hh), (hs_consumed _ _ Hh), (hs_handed _ _ Hh), !cnt_rev in J. rewrite !cnt_app. lia.
  - rewrite <- (hs_finished _ _ Hh). intro Hf. pose proof (f_finished s (flags_reach P s Hr')) as F.
    assert (Hpc : pc s = MDone) by (destruct (pc s); congruence). rewrite Hpc in F.
    destruct (i_between s (ctl_inv_reach P s Hr')) as [Hcur Hlast]; [rewrite Hpc; reflexivity|].
    unfold holdings. rewrite F, Hcur, Hlast. reflexivity.
Qed.

Lemma nodup_app_r : forall (A : Type) (a b : list A), NoDup (a ++ b) -> NoDup b.
Proof. induction a as [|x a IH]; intros b H; [exact H|]. inversion H; subst. apply IH. assumption. Qed.

Lemma taken_nodup : forall P tr s, reach_by P tr s -> NoDup (offered_of tr) -> NoDup (taken_of tr).
Proof.
  intros P tr s Hr Hd. pose proof (hist_reach P tr s Hr) as Hh.
  assert (Ho : h_offered s = rev (inq s) ++ h_taken s) by (apply (offered_split P); exists tr; exact Hr).
  rewrite (hs_offered _ _ Hh), (hs_taken _ _ Hh) in Ho.
  apply NoDup_rev in Hd. rewrite Ho in Hd. apply nodup_app_r in Hd.
  apply NoDup_rev in Hd. rewrite rev_involutive in Hd. exact Hd.
Qed.

Lemma resolved_exactly_once_at_end : forall P tr s,
  reach_by P tr s -> in_contract tr -> distinct_input tr -> finished_in tr = true ->
  Permutation (taken_of tr) (consumed_of tr ++ handed_of tr) /\ NoDup (consumed_of tr ++ handed_of tr).
Proof.
  intros P tr s Hr Hc Hd Hf. destruct (resolved_lemma P tr s Hr Hc Hd) as [H1 H2].
  rewrite (H2 Hf), app_nil_r in H1. split; [exact H1|].
  eapply Permutation_NoDup; [exact H1|]. eapply taken_nodup; eauto.
Qed.

(* 3. order of transmissions *)
Lemma resend_order_lemma : forall P tr s k L,
  reach_by P tr s -> In (k, L) (h_los s) ->
  strictly_increasing L /\
  exists m news a b, sent_on k tr = firstn m L ++ news /\ (news <> [] -> firstn m L = L) /\
                     taken_of tr = a ++ news ++ b.
Proof.
  intros P tr s k L Hr Hin. destruct (k_form _ _ (order_inv_reach P tr s Hr) k L Hin) as [H1 H2].
  split; [apply lt_sorted_increasing; exact H1|exact H2].
Qed.

Lemma handed_only_at_end : forall P tr s,
  reach_by P tr s -> match pc s with MFinal | MDone => True | _ => handed_of tr = [] end.
Proof.
  intros P tr s Hr. pose proof (f_handed s (flags_reach P s (reach_by_reach P tr s Hr))) as F.
  assert (E : handed_of tr = rev (h_handed s)).
  { rewrite (hs_handed _ _ (hist_reach P tr s Hr)), rev_involutive. reflexivity. }
  rewrite E. destruct (pc s); try exact I; rewrite F; reflexivity.
Qed.

(* at the start of every session the leftovers it re-sends first contain every chunk taken so far that is
   not yet confirmed *)
Lemma leftovers_complete_lemma : forall P pre s ss,
  reach_by P (pre ++ [EMainConn]) s -> in_contract pre -> distinct_input pre -> cur s = Some ss ->
  In (s_id ss, lo s) (h_los s) /\
  forall c, In c (taken_of pre) -> In c (consumed_of pre) \/ In c (lo s).
Proof.
  intros P pre s ss Hr Hc Hd Hcur. unfold reach_by in Hr. rewrite run_snoc in Hr.
  destruct (run P init pre) as [s1|] eqn:E1; [|discriminate Hr].
  assert (Hi : ctl_inv s1) by (eapply ctl_inv_reach; exists pre; exact E1).
  destruct (resolved_lemma P pre s1 E1 Hc Hd) as [Hp _].
  pose proof (handed_only_at_end P pre s1 E1) as Hhand.
  destruct (i_between s1 Hi) as [Hc1 Hl1].
  { unfold step in Hr. destruct (pc s1); try discriminate Hr. reflexivity. }
  apply step_Step in Hr. inversion Hr; subst; st_simpl; [|congruence].
  inversion Hcur; subst ss. st_simpl. split; [left; reflexivity|].
  match goal with H : pc s1 = _ |- _ => rewrite H in Hhand end.
  unfold holdings in Hp. rewrite Hc1, Hl1, Hhand in Hp. simpl in Hp. rewrite app_nil_r in Hp.
  intros c Hin. apply (Permutation_in _ Hp) in Hin. apply in_app_or in Hin. exact Hin.
Qed.

Definition collecting (p : mpc) : bool := match p with MSoftWait _ | MHardWait _ _ => true | _ => false end.
Definition hard_collecting (p : mpc) : bool := match p with MHardWait _ _ => true | _ => false end.

(* sendChunk never sends on a closed ackerChan: while main is at the select of sendChunk the channel is open *)
Lemma no_send_on_closed_lemma : forall P s f c ss,
  reach P s -> pc s = MEnqueue f c -> cur s = Some ss -> s_aclosed ss = false /\ s_abort ss = false.
Proof.
  intros P s f c ss Hr Hpc Hcur. destruct (f_sess s (flags_reach P s Hr) ss Hcur) as [H _].
  rewrite Hpc in H. exact H.
Qed.


(* close(ackerChan), ackerAbort.Signal() and ackerEnded.Signal() are each executed at most once per session (a second
   close of a closed channel would panic): whenever the step that executes one of them is enabled, it has not been
   executed yet.  close(ackerChan) / ackerAbort.Signal() happen on entering collectLeftovers (from a pc that is not
   "collecting") and on leaving the soft wait; ackerEnded.Signal() when the acknowledger returns (apc <> AEnded). *)
Lemma signals_once_lemma : forall P s ss,
  reach P s -> cur s = Some ss ->
  (collecting (pc s) = false -> s_aclosed ss = false /\ s_abort ss = false) /\
  (hard_collecting (pc s) = false -> s_abort ss = false) /\
  (s_apc ss <> AEnded -> s_ended ss = false).
Proof.
  intros P s ss Hr Hcur. destruct (f_sess s (flags_reach P s Hr) ss Hcur) as [H _].
  pose proof (ctl_inv_reach P s Hr) as Hi. destruct (i_sess s Hi ss Hcur) as (He & _).
  split; [|split].
  1-2: destruct (pc s); simpl; try discriminate; intros _; tauto.
  intro Hx. destruct (s_ended ss); [|reflexivity]. destruct (He eq_refl) as [_ Hy]. contradiction.
Qed.
