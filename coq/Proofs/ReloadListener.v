(* C17 - the TCP listener (current code, lf = true) respects the assumption of reloadable.go: in every run of
   the listener LTS, every NewSink call uses a client number that is below MaxClientNumber and not held by
   any other open or opening sink.  Hence every theorem about guarded runs holds for the listener. *)
From SV Require Import Model.Common Model.Reload Spec.ReloadSpec Proofs.ListFacts Proofs.ReloadLists Proofs.ReloadInv Proofs.ReloadProofs.
From Coq Require Import Arith Lia.
Local Open Scope nat_scope.

Definition frozen (c : cthread) : Prop := ct_pc c = PIdle /\ ct_h c <> HOpen.

(* NewSink of an idle goroutine that has no sink sets its number; every other event of a connection rewrites the
   entry of one goroutine that is not frozen, and keeps its number; reload() leaves the goroutines alone *)
Definition thr_shape (st : state) (e : event) (st' : state) : Prop :=
  match e with
  | ENewBegin t n =>
    exists c0, get_thr st t = Some c0 /\ ct_h c0 = HNone /\ ct_pc c0 = PIdle /\
               st_thr st' = upd (st_thr st) t (mkThr n HNone (PNewIn (st_cur st)))
  | ERlBegin | ERlInit _ | ERlLock | ERlStep => st_thr st' = st_thr st
  | _ => exists t0 c0 c0', get_thr st t0 = Some c0 /\ st_thr st' = upd (st_thr st) t0 c0' /\
                           ct_num c0' = ct_num c0 /\ ~ frozen c0
  end.

Lemma thr_moved : forall st st' t n h pc c',
  get_thr st t = Some (mkThr n h pc) -> st_thr st' = upd (st_thr st) t c' -> ct_num c' = n ->
  h = HOpen \/ pc <> PIdle ->
  exists t0 c0 c0', get_thr st t0 = Some c0 /\ st_thr st' = upd (st_thr st) t0 c0' /\
                    ct_num c0' = ct_num c0 /\ ~ frozen c0.
Proof.
  intros st st' t n h pc c' Ht E En Hnf. exists t, (mkThr n h pc), c'. repeat split; auto.
  intros [F1 F2]. simpl in *. destruct Hnf; auto.
Qed.

Lemma step_thr_shape : forall lk st e st',
  step lk st e = Some st' -> thr_shape st e st' /\ length (st_table st') = length (st_table st).
Proof.
  intros lk st e st' H. destruct e; unfold thr_shape; unfold step in H;
    try (destruct (get_thr st t) as [[n0 [] []]|] eqn:Ht; try discriminate).
  - destruct lk; [destruct (st_writer st); try discriminate|]; injection H as <-; (split; [|reflexivity]);
      exists (mkThr n0 HNone PIdle); auto.
  - destruct lk; try discriminate. unfold new_sink in H. injection H as <-. split; [|reflexivity].
    eapply (thr_moved _ _ _ _ _ _ _ Ht); try reflexivity. right. discriminate.
  - destruct lk; try discriminate. unfold new_sink, store in H. cbn [st_table set_readers set_sinks st_readers] in H.
    destruct (n0 <? length (st_table st)); injection H as <-; (split; [|cbn; rewrite ?upd_length; reflexivity]);
      eapply (thr_moved _ _ _ _ _ _ _ Ht); try reflexivity; right; discriminate.
  - destruct lk; try discriminate. destruct (st_writer st); try discriminate. unfold store in H.
    destruct (n0 <? length (st_table st)); injection H as <-; (split; [|cbn; rewrite ?upd_length; reflexivity]);
      eapply (thr_moved _ _ _ _ _ _ _ Ht); try reflexivity; right; discriminate.
  - destruct (st_writer st); try discriminate.
    destruct (slot st n0); injection H as <-; (split; [|reflexivity]); eapply (thr_moved _ _ _ _ _ _ _ Ht); try reflexivity; auto.
  - injection H as <-. destruct (hand_proj st t s rs) as [E1 E2]. split; [|cbn; exact (f_equal (@length _) E2)].
    eapply (thr_moved _ _ _ _ _ _ _ Ht); [cbn; rewrite E1; reflexivity|reflexivity|auto].
  - destruct (st_writer st); try discriminate.
    destruct (slot st n0); injection H as <-; (split; [|reflexivity]); eapply (thr_moved _ _ _ _ _ _ _ Ht); try reflexivity; auto.
  - injection H as <-. destruct (flush_proj st s false) as (_ & _ & E2 & E1 & _). split; [|cbn; exact (f_equal (@length _) E2)].
    eapply (thr_moved _ _ _ _ _ _ _ Ht); [cbn; rewrite E1; reflexivity|reflexivity|auto].
  - destruct (st_writer st); try discriminate.
    destruct (slot st n0); injection H as <-; (split; [|reflexivity]); eapply (thr_moved _ _ _ _ _ _ _ Ht); try reflexivity; auto.
  - injection H as <-. destruct (flush_proj st s true) as (_ & _ & E2 & E1 & _).
    split; [|cbn; rewrite upd_length; exact (f_equal (@length _) E2)].
    eapply (thr_moved _ _ _ _ _ _ _ Ht); [cbn; rewrite E1; reflexivity|reflexivity|auto].
  - destruct (st_rl st); try discriminate. injection H as <-. split; reflexivity.
  - destruct (st_rl st); try discriminate. destruct ok; injection H as <-; split; reflexivity.
  - destruct (st_rl st); try discriminate. destruct (st_writer st); try discriminate.
    destruct (st_readers st); try discriminate. injection H as <-. split; reflexivity.
  - destruct (st_rl st); try discriminate; unfold new_sink in H; injection H as <-.
    + destruct (slot st j) as [s|]; [|split; reflexivity].
      destruct (flush_proj st s true) as (_ & _ & E2 & E1 & _). split; cbn; [exact E1|exact (f_equal (@length _) E2)].
    + split; reflexivity.
    + unfold after_new, finish_reload. destruct (next_slot _ 0); split; reflexivity.
    + unfold after_new, finish_reload.
      match goal with |- context [next_slot ?a ?b] => destruct (next_slot a b) end; split; cbn; rewrite ?upd_length; reflexivity.
Qed.

(* what the listener's record [x] of a goroutine says of its entry [c] in reloadable.go: not started, it has no sink;
   holding its descriptor, the number is marked in use; past conn.Close(), its sink is closed unless a stop
   request let the closer goroutine run early *)
Definition lthr_ok (fd : list bool) (stop : bool) (c : cthread) (x : lthread) : Prop :=
  if lt_started x then
    if lt_fd x then nth_error fd (ct_num c) = Some true
    else (ct_h c = HClosed /\ ct_pc c = PIdle) \/ stop = true
  else ct_h c = HNone /\ ct_pc c = PIdle.

Definition holds_fd (x : lthread) : bool := lt_started x && lt_fd x.

Record LINV (ls : lstate) : Prop := mkLINV {
  li_fdlen : length (l_fd ls) = length (st_table (l_st ls));
  li_thlen : length (l_th ls) = length (st_thr (l_st ls));
  li_thr : forall t c, get_thr (l_st ls) t = Some c -> lthr_ok (l_fd ls) (l_stop ls) c (lthr ls t);
  li_uniq : forall t t' c c', t <> t' -> get_thr (l_st ls) t = Some c -> get_thr (l_st ls) t' = Some c' ->
            holds_fd (lthr ls t) = true -> holds_fd (lthr ls t') = true -> ct_num c <> ct_num c'
}.

Lemma lthr_ok_holds : forall fd stop c x,
  lthr_ok fd stop c x -> holds_fd x = true -> nth_error fd (ct_num c) = Some true.
Proof. unfold lthr_ok, holds_fd. intros fd stop c x. destruct (lt_started x), (lt_fd x); intros; auto; discriminate. Qed.

Lemma lthr_ok_fd : forall fd fd' stop c x,
  lthr_ok fd stop c x -> (holds_fd x = true -> nth_error fd' (ct_num c) = Some true) -> lthr_ok fd' stop c x.
Proof. unfold lthr_ok, holds_fd. intros fd fd' stop c [[] ? []] H H'; simpl in *; auto. Qed.

(* a goroutine the listener regards as not started or done does not move *)
Lemma lthr_ok_move : forall fd stop c c' x,
  lthr_ok fd stop c x -> ct_num c' = ct_num c -> c' = c \/ ~ frozen c -> lthr_ok fd stop c' x.
Proof.
  unfold lthr_ok. intros fd stop c c' x H En [->|Hnf]; auto.
  assert (Hf : forall h, h <> HOpen -> ct_h c = h /\ ct_pc c = PIdle -> False).
  { intros h Hh [E1 E2]. apply Hnf. split; congruence. }
  destruct (lt_started x); [destruct (lt_fd x)|].
  - congruence.
  - destruct H as [H|]; auto. destruct (Hf HClosed); [discriminate|exact H].
  - destruct (Hf HNone); [discriminate|exact H].
Qed.

Lemma linv_init : forall nthr maxn, LINV (linit nthr maxn).
Proof.
  intros. assert (Hx : forall t, lthr (linit nthr maxn) t = mkLT false false false) by (intros; apply nth_repeat).
  constructor.
  - cbn. rewrite !repeat_length. reflexivity.
  - cbn. rewrite !repeat_length. reflexivity.
  - intros t c H. rewrite Hx. apply nth_error_repeat_inv in H. subst. split; reflexivity.
  - intros t t' c c' _ _ _ H. rewrite Hx in H. discriminate.
Qed.

Lemma free_fd_num_free : forall ls n,
  LINV ls -> l_stop ls = false -> nth_error (l_fd ls) n = Some false -> num_free (l_st ls) n = true.
Proof.
  intros ls n L Hstop Hfd. unfold num_free. apply forallb_forall. intros c Hin.
  apply In_nth_error in Hin. destruct Hin as [t Ht]. apply Bool.negb_true_iff.
  unfold claims. destruct (Nat.eqb_spec (ct_num c) n) as [En|]; [|reflexivity]. simpl.
  pose proof (li_thr _ L _ _ Ht) as H. unfold lthr_ok in H. rewrite En, Hstop in H.
  destruct (lt_started (lthr ls t)); [destruct (lt_fd (lthr ls t)); [congruence|destruct H as [H|]; [|discriminate]]|];
    destruct H as [-> ->]; reflexivity.
Qed.

Lemma linv_conn_open : forall lk ls t n x st',
  LINV ls -> nth_error (l_fd ls) n = Some false -> nth_error (l_th ls) t = Some x ->
  step lk (l_st ls) (ENewBegin t n) = Some st' ->
  LINV (mkL st' (upd (l_fd ls) n true) (upd (l_th ls) t (mkLT true false true)) (l_stop ls)).
Proof.
  intros lk ls t n x st' L Hfd Hth S.
  destruct (step_thr_shape _ _ _ _ S) as [(c0 & Hc0 & _ & _ & Ethr) Tl].
  assert (Hnl : n < length (l_fd ls)) by (eapply nth_error_lt; eauto).
  pose proof (get_thr_upd _ _ _ _ _ Hc0 Ethr) as Hget.
  pose proof (fun t' => nth_upd _ (l_th ls) t t' (mkLT true false true) (mkLT false false false) (nth_error_lt _ _ _ _ Hth)) as Hlt.
  constructor; unfold lthr; cbn [l_fd l_th l_st l_stop].
  - rewrite upd_length, Tl. apply L.
  - rewrite upd_length, Ethr, upd_length. apply L.
  - intros t' c. rewrite Hget, Hlt. destruct (Nat.eqb_spec t t') as [<-|Hne]; intros Hc.
    + injection Hc as <-. apply nth_error_upd_eq. exact Hnl.
    + pose proof (li_thr _ L _ _ Hc) as Hk. apply (lthr_ok_fd _ _ _ _ _ Hk). intros Hh.
      rewrite nth_error_upd, (lthr_ok_holds _ _ _ _ Hk Hh). destruct (_ && _); auto.
  - assert (Hn : forall t' c, get_thr (l_st ls) t' = Some c -> holds_fd (lthr ls t') = true -> n <> ct_num c).
    { intros t' c Hc Hh E. pose proof (lthr_ok_holds _ _ _ _ (li_thr _ L _ _ Hc) Hh). congruence. }
    intros t1 t2 c1 c2 Hne. rewrite !Hget, !Hlt.
    destruct (Nat.eqb_spec t t1) as [<-|Hn1], (Nat.eqb_spec t t2) as [<-|Hn2]; try contradiction; intros H1 H2 F1 F2.
    + injection H1 as <-. eapply Hn; eauto.
    + injection H2 as <-. apply not_eq_sym. eapply Hn; eauto.
    + eapply (li_uniq _ L t1 t2); eauto.
Qed.

Lemma linv_stop : forall ls, LINV ls -> LINV (mkL (l_st ls) (l_fd ls) (l_th ls) true).
Proof.
  intros ls L. constructor; try apply L. intros t c Hc. pose proof (li_thr _ L _ _ Hc) as Hk. unfold lthr_ok in *.
  change (lthr (mkL _ _ (l_th ls) _) t) with (lthr ls t). cbn [l_stop].
  destruct (lt_started (lthr ls t)), (lt_fd (lthr ls t)); auto.
Qed.

(* goroutine t leaves its read loop: the invariant does not read lt_left *)
Lemma linv_abort : forall ls t fd0,
  LINV ls -> nth_error (l_th ls) t = Some (mkLT true false fd0) ->
  LINV (mkL (l_st ls) (l_fd ls) (upd (l_th ls) t (mkLT true true fd0)) (l_stop ls)).
Proof.
  intros ls t fd0 L Hth. set (ls' := mkL _ _ _ _).
  assert (Hlt : forall t', lt_started (lthr ls' t') = lt_started (lthr ls t') /\ lt_fd (lthr ls' t') = lt_fd (lthr ls t')).
  { intros t'. unfold lthr at 1 3. cbn [l_th ls']. rewrite nth_upd by (eapply nth_error_lt; eauto).
    destruct (Nat.eqb_spec t t') as [<-|]; auto. unfold lthr. rewrite (nth_error_nth _ _ _ Hth). auto. }
  constructor; try apply L.
  - unfold ls'. cbn [l_th l_st]. rewrite upd_length. apply L.
  - intros t' c. unfold lthr_ok. destruct (Hlt t') as [-> ->]. apply (li_thr _ L).
  - intros t1 t2 c1 c2. unfold holds_fd. destruct (Hlt t1) as [-> ->]. destruct (Hlt t2) as [-> ->]. apply (li_uniq _ L).
Qed.

Lemma linv_fd_closed : forall ls t lf0 c,
  LINV ls -> nth_error (l_th ls) t = Some (mkLT true lf0 true) -> get_thr (l_st ls) t = Some c ->
  (ct_h c = HClosed /\ ct_pc c = PIdle) \/ l_stop ls = true ->
  LINV (mkL (l_st ls) (upd (l_fd ls) (ct_num c) false) (upd (l_th ls) t (mkLT true lf0 false)) (l_stop ls)).
Proof.
  intros ls t lf0 c L Hth Hc En.
  assert (Hold : lthr ls t = mkLT true lf0 true) by (unfold lthr; apply nth_error_nth; exact Hth).
  pose proof (fun t' => nth_upd _ (l_th ls) t t' (mkLT true lf0 false) (mkLT false false false) (nth_error_lt _ _ _ _ Hth)) as Hlt.
  constructor; unfold lthr; cbn [l_fd l_th l_st l_stop].
  - rewrite upd_length. apply L.
  - rewrite upd_length. apply L.
  - intros t' c'. rewrite Hlt. destruct (Nat.eqb_spec t t') as [<-|Hne]; intros Hc'.
    + rewrite Hc in Hc'. injection Hc' as <-. exact En.
    + apply (lthr_ok_fd _ _ _ _ _ (li_thr _ L _ _ Hc')). intros Hh. rewrite nth_error_upd_neq.
      * apply (lthr_ok_holds _ _ _ _ (li_thr _ L _ _ Hc') Hh).
      * apply (li_uniq _ L t t' c c'); auto. rewrite Hold. reflexivity.
  - intros t1 t2 c1 c2 Hne. rewrite !Hlt.
    destruct (Nat.eqb_spec t t1) as [<-|Hn1], (Nat.eqb_spec t t2) as [<-|Hn2]; try contradiction;
      intros H1 H2 F1 F2; try discriminate.
    eapply (li_uniq _ L t1 t2); eauto.
Qed.

Lemma linv_api : forall lk ls e st',
  LINV ls -> (forall t n, e <> ENewBegin t n) -> step lk (l_st ls) e = Some st' ->
  LINV (mkL st' (l_fd ls) (l_th ls) (l_stop ls)).
Proof.
  intros lk ls e st' L Hne S. destruct (step_thr_shape _ _ _ _ S) as [Sh Tl].
  assert (Hframe : length (st_thr st') = length (st_thr (l_st ls)) /\ forall t' c', get_thr st' t' = Some c' ->
            exists c, get_thr (l_st ls) t' = Some c /\ ct_num c' = ct_num c /\ (c' = c \/ ~ frozen c)).
  { unfold thr_shape in Sh. destruct e; try (exfalso; eapply Hne; reflexivity);
      try (unfold get_thr; rewrite Sh; split; eauto);
      destruct Sh as (t0 & c0 & c0' & Ht0 & Ethr & En & Hnf); (split; [rewrite Ethr; apply upd_length|]);
      intros t' c'; rewrite (get_thr_upd _ _ _ _ _ Ht0 Ethr);
      (destruct (Nat.eqb_spec t0 t') as [<-|Hn]; intros Hc'; [injection Hc' as <-; exists c0; auto|exists c'; auto]). }
  destruct Hframe as [Hlen Hframe].
  constructor; unfold lthr; cbn [l_fd l_th l_st l_stop]; fold (lthr ls).
  - rewrite Tl. apply L.
  - rewrite Hlen. apply L.
  - intros t' c' Hc'. destruct (Hframe _ _ Hc') as (c & Hc & En & Hmv).
    apply (lthr_ok_move _ _ c); auto. apply (li_thr _ L _ _ Hc).
  - intros t1 t2 c1 c2 Hn H1 H2 F1 F2.
    destruct (Hframe _ _ H1) as (d1 & Hd1 & E1 & _). destruct (Hframe _ _ H2) as (d2 & Hd2 & E2 & _).
    rewrite E1, E2. eapply (li_uniq _ L t1 t2); eauto.
Qed.

Lemma lstep_linv : forall lk ls e ls',
  LINV ls -> lstep true lk ls e = Some ls' ->
  LINV ls' /\ grun lk (l_st ls) (api_event e) = Some (l_st ls').
Proof.
  intros lk ls e ls' L H. destruct e; unfold lstep in H.
  - destruct (nth_error (l_fd ls) n) as [[|]|] eqn:Hfd; try discriminate.
    destruct (nth_error (l_th ls) t) as [[[|] lf0 fd0]|] eqn:Hth; try discriminate.
    destruct (l_stop ls) eqn:Hstop; cbn [andb] in H; try discriminate.
    destruct (step lk (l_st ls) (ENewBegin t n)) as [st'|] eqn:S; try discriminate.
    injection H as <-. pose proof (linv_conn_open lk ls t n _ st' L Hfd Hth S) as L'. rewrite Hstop in L'.
    split; [exact L'|]. pose proof (nth_error_lt _ _ _ _ Hfd) as Hnl. apply Nat.ltb_lt in Hnl.
    cbn [api_event grun guard]. rewrite <- (li_fdlen _ L), Hnl, (free_fd_num_free _ _ L Hstop Hfd), S. reflexivity.
  - destruct (l_stop ls); try discriminate. injection H as <-. split; [apply linv_stop, L|reflexivity].
  - destruct (nth_error (l_th ls) t) as [[[|] [|] fd0]|] eqn:Hth; try discriminate.
    destruct (get_thr (l_st ls) t) as [[n0 [] pc0]|]; try discriminate. injection H as <-.
    split; [apply linv_abort; auto|reflexivity].
  - destruct (nth_error (l_th ls) t) as [[[|] lf0 [|]]|] eqn:Hth; try discriminate.
    destruct (get_thr (l_st ls) t) as [c|] eqn:Hc; try discriminate.
    match type of H with (if ?b then _ else _) = _ => destruct b eqn:En; try discriminate end.
    injection H as <-. split; [|reflexivity]. apply linv_fd_closed; auto.
    apply orb_true_iff in En. destruct En as [En|En].
    + left. destruct (ct_h c); try discriminate. destruct (ct_pc c); try discriminate. auto.
    + right. apply andb_true_iff in En. apply En.
  - match type of H with (if ?b then _ else _) = _ => destruct b eqn:Al; try discriminate end.
    destruct (step lk (l_st ls) e) as [st'|] eqn:S; try discriminate. injection H as <-.
    split; [eapply linv_api; eauto; intros t n ->; discriminate|].
    cbn [api_event grun]. rewrite S. destruct e; try reflexivity; discriminate.
Qed.

(* every run of the listener contains a guarded run of reloadable.go *)
Theorem listener_guarded_lemma : forall levs ls ls',
  LINV ls -> lrun true true ls levs = Some ls' ->
  grun true (l_st ls) (api_events levs) = Some (l_st ls') /\ LINV ls'.
Proof.
  induction levs as [|e levs IH]; intros ls ls' L H; simpl in H.
  - injection H as <-. auto.
  - destruct (lstep true true ls e) as [ls1|] eqn:S; try discriminate.
    destruct (lstep_linv _ _ _ _ L S) as [L1 G1]. destruct (IH _ _ L1 H) as [G L']. split; auto.
    change (api_events (e :: levs)) with (api_event e ++ api_events levs). rewrite grun_app, G1. exact G.
Qed.

Lemma listener_safe_lemma : forall nthr maxn levs ls,
  lrun true true (linit nthr maxn) levs = Some ls ->
  grun true (init nthr maxn) (api_events levs) = Some (l_st ls).
Proof.
  intros nthr maxn levs ls H. destruct (listener_guarded_lemma levs _ _ (linv_init nthr maxn) H) as [G _]. exact G.
Qed.

Lemma listener_no_dead_pipeline_lemma : forall (nthr maxn : nat) (levs : list levent) (ls : lstate),
  lrun true true (linit nthr maxn) levs = Some ls -> log_ok (st_log (l_st ls)).
Proof.
  intros nthr maxn levs ls H.
  exact (no_dead_pipeline_lemma nthr maxn (api_events levs) (l_st ls) (listener_safe_lemma nthr maxn levs ls H)).
Qed.

Lemma listener_no_loss_lemma : forall (nthr maxn : nat) (levs : list levent) (ls : lstate) (r : rec),
  lrun true true (linit nthr maxn) levs = Some ls ->
  cnt r (delivered_recs (st_log (l_st ls))) + cnt r (buffered (l_st ls)) + cnt r (inflight (l_st ls)) =
  cnt r (acc_of_events (api_events levs)).
Proof.
  intros nthr maxn levs ls r H.
  exact (no_loss_count_lemma nthr maxn (api_events levs) (l_st ls) r (listener_safe_lemma nthr maxn levs ls H)).
Qed.
