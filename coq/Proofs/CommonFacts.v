(* Small facts about Model/Common.v used by several proof files. *)
From SV Require Import Model.Common.
From SV Require Export Proofs.ListFacts.
From Coq Require Import Lia ZifyBool ZifyN ZifyNat.
Ltac Zify.zify_post_hook ::= Z.div_mod_to_equations.

Lemma bytes_eqb_eq : forall a b, bytes_eqb a b = true <-> a = b.
Proof.
  induction a as [|x a IH]; intros [|y b]; simpl; split; intro H; try reflexivity; try discriminate.
  - apply andb_true_iff in H. destruct H as [H1 H2]. apply N.eqb_eq in H1. apply IH in H2. subst. reflexivity.
  - inversion H; subst. rewrite N.eqb_refl. simpl. apply IH. reflexivity.
Qed.

Lemma bytes_eqb_refl : forall a, bytes_eqb a a = true.
Proof. intros a. apply bytes_eqb_eq. reflexivity. Qed.

Lemma bytes_eqb_sym : forall a b, bytes_eqb a b = bytes_eqb b a.
Proof. intros a b. apply Bool.eq_true_iff_eq. rewrite !bytes_eqb_eq. split; congruence. Qed.

Lemma is_digit_digit_char : forall d, (d < 10)%N -> is_digit (digit_char d) = true.
Proof. intros d H. unfold is_digit, digit_char. lia. Qed.

Lemma is_digit_spec : forall c, is_digit c = true <-> (48 <= c <= 57)%N.
Proof. intros c. unfold is_digit. lia. Qed.

Lemma split_fast_acc_eq : forall sep s cur, split_fast_acc sep s cur = split_on_acc sep s cur.
Proof.
  intros sep s. induction s as [|c s IH]; intro cur; cbn [split_fast_acc split_on_acc].
  - rewrite rev_append_rev, app_nil_r. reflexivity.
  - destruct (c =? sep)%N; rewrite IH; [rewrite rev_append_rev, app_nil_r|]; reflexivity.
Qed.

Lemma split_fast_eq : forall sep s, split_fast sep s = split_on sep s.
Proof. intros sep s. apply split_fast_acc_eq. Qed.
