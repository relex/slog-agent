(* C07: the pooled LogRecord (Model/PipelinePool.v) cannot carry anything from one record to the next - for every
   pool content, every allocation schedule, every flag history.  With [FlagSetOnly] it can: that is the trial change
   seeded/C07/8 to /repo (Parse sets record.Unescaped for a message with a newline and no longer clears it otherwise;
   DESIGN.md section 10.3 lists the trial changes). *)
From SV Require Import Model.Common.
From SV Require Model.Parser Model.Composite Model.Transforms.
From SV Require Import Model.Pipeline Model.PipelinePool Proofs.PipelineProofs Proofs.PipelineWitnesses.

(* Parse overwrites every field and flag of the record it is given: the result does not depend on the cell *)
Lemma write_record_assign : forall cell r, write_record FlagAssign cell r = r.
Proof. intros [] []. reflexivity. Qed.

(* [FlagSetOnly] overwrites the fields, not the flag *)
Lemma write_record_set_only : forall cell r,
  write_record FlagSetOnly cell r = set_flag r (Parser.unescaped r || Parser.unescaped cell).
Proof. intros [] [? ? ? ? ? ? ? ? ? ? []]; reflexivity. Qed.

(* the pool after one record (no part of the result depends on it) *)
Definition pool_after (m : flag_mode) (cfg : config) (c : cstate) (p : pool) (sch : sched_item) (input : bytes) : pool :=
  match pool_get p (fst sch) with
  | (cell, p1) =>
    match Parser.parse (c_parser cfg) (cs_input c) input with
    | (Ok None, _) => Composite.cleared cell :: p1
    | (Ok (Some r), _) => released (write_record m cell r) (snd sch) :: p1
    | _ => p
    end
  end.

Lemma process_record_pooled_step : forall O cfg g c p now clk sch input,
  process_record_pooled O FlagAssign cfg g c p now clk sch input =
  ('(g', c', res) <~ process_record O cfg g c now clk input ;;
   Ok (g', c', pool_after FlagAssign cfg c p sch input, res)).
Proof.
  intros. unfold process_record_pooled, process_record, pool_after.
  destruct (pool_get p (fst sch)) as [cell p1].
  destruct (Parser.parse (c_parser cfg) (cs_input c) input) as [[[r|]|e|s] cnt]; cbn [pbind]; try reflexivity.
  all: rewrite ?write_record_assign.
  all: destruct (process_parsed O cfg g (with_input c cnt) now clk r) as [[[g' c'] res]|e|s]; reflexivity.
Qed.

Lemma process_record_pooled_independent : forall O cfg g c p now clk sch input,
  drop_pool (process_record_pooled O FlagAssign cfg g c p now clk sch input) = process_record O cfg g c now clk input.
Proof.
  intros. rewrite process_record_pooled_step.
  destruct (process_record O cfg g c now clk input) as [[[g' c'] res]|e|s]; reflexivity.
Qed.

(* for every sequence of records, every initial pool (objects with ANY content), every schedule *)
Lemma process_records_pooled_independent : forall O cfg inputs g c p now clk sch,
  drop_pool (process_records_pooled O FlagAssign cfg g c p now clk sch inputs) = process_records O cfg g c now clk inputs.
Proof.
  induction inputs as [|x xs IH]; intros; [reflexivity|].
  cbn [process_records_pooled process_records].
  rewrite process_record_pooled_step.
  destruct (process_record O cfg g c now clk x) as [[[g1 c1] res]|e|s]; cbn [pbind]; try reflexivity.
  specialize (IH g1 c1 (pool_after FlagAssign cfg c p (hd sched_default sch) x) now clk (tl sch)).
  destruct (process_records_pooled O FlagAssign cfg g1 c1 _ now clk (tl sch) xs) as [[[[g2 c2] p2] rs]|e|s];
    cbn [drop_pool] in IH; rewrite <- IH; reflexivity.
Qed.

(* with the totality theorem: the pooled pipeline never panics and keeps the invariants *)
Lemma process_records_pooled_total : forall (O : Transforms.oracles) cfg (inputs : list bytes) g c p now clk sch,
  config_ok O cfg -> ginv O cfg g -> cinv O cfg g c ->
  exists g' c' p' rs,
    process_records_pooled O FlagAssign cfg g c p now clk sch inputs = Ok (g', c', p', rs) /\
    process_records O cfg g c now clk inputs = Ok (g', c', rs) /\
    ginv O cfg g' /\ cinv O cfg g' c' /\ length rs = length inputs.
Proof.
  intros O cfg inputs g c p now clk sch Hc Hg Hci.
  destruct (process_records_total O cfg inputs g c now clk Hc Hg Hci) as (g' & c' & rs & Hrun & Hg' & Hc' & Hlen & _).
  pose proof (process_records_pooled_independent O cfg inputs g c p now clk sch) as Hind.
  rewrite Hrun in Hind.
  destruct (process_records_pooled O FlagAssign cfg g c p now clk sch inputs) as [[[[g2 c2] p2] rs2]|e|s];
    cbn [drop_pool] in Hind; try discriminate.
  inversion Hind; subst. exists g', c', p2, rs.
  split; [reflexivity|]. split; [exact Hrun|]. split; [assumption|]. split; assumption.
Qed.

(* neighbour independence: what is delivered for record i of a sequence that passes through recycled objects is what
   the functional pipeline (a new record each time) delivers *)
Lemma delivered_pooled : forall O cfg inputs g c p now clk sch i,
  delivered (drop_pool (process_records_pooled O FlagAssign cfg g c p now clk sch inputs)) i =
  delivered (process_records O cfg g c now clk inputs) i.
Proof. intros. rewrite process_records_pooled_independent. reflexivity. Qed.

(* the witness against [FlagSetOnly]: a multi-line record, then an escaped single-line record in the same object *)
(* "<13>1 2020-01-02T03:04:05Z hostA appB 77 src - first" LF "second" *)
Definition rec_multi : bytes :=
  [60;49;51;62;49;32;50;48;50;48;45;48;49;45;48;50;84;48;51;58;48;52;58;48;53;90;32;104;111;115;116;65;32;97;112;112;66;32;55;55;32;115;114;99;32;45;32;102;105;114;115;116;10;115;101;99;111;110;100]%N.
(* "<13>1 2020-01-02T03:04:05Z hostA appB 77 src - boom\n\tat Foo"  (backslash n, backslash t) *)
Definition rec_escaped : bytes :=
  [60;49;51;62;49;32;50;48;50;48;45;48;49;45;48;50;84;48;51;58;48;52;58;48;53;90;32;104;111;115;116;65;32;97;112;112;66;32;55;55;32;115;114;99;32;45;32;98;111;111;109;92;110;92;116;97;116;32;70;111;111]%N.

Definition pool_run (m : flag_mode) (p : pool) (sch : list sched_item) (inputs : list bytes) :=
  drop_pool (process_records_pooled O m (ex_cfg true true) g_init (new_conn (ex_cfg true true)) p (1600000000, 0)%Z 0%Z sch inputs).

Definition alone_run (input : bytes) :=
  process_records O (ex_cfg true true) g_init (new_conn (ex_cfg true true)) (1600000000, 0)%Z 0%Z [input].

Definition streams_eqb (a b : list bytes) : bool := bytes_eqb (concat a) (concat b) && (length a =? length b)%nat.

(* the flag left behind by the first record makes the serializer skip the unescape rewrite of the second;
   with the real assignment the same records on the same schedule deliver the escaped record as it is delivered alone *)
Lemma flag_set_only_variant_refuted :
  let alone := delivered (alone_run rec_escaped) 0 in
  let reused := pool_run FlagSetOnly [] [(None, false); (Some 0%nat, false)] [rec_multi; rec_escaped] in
  (* the variant: second record in the recycled object of the first -> delivered differently than alone *)
  streams_eqb (delivered reused 1) alone = false /\
  (* ... and it IS delivered (one event), only with other content; the multi-line record itself is unaffected *)
  length (delivered reused 1) = 1%nat /\
  streams_eqb (delivered reused 0) (delivered (alone_run rec_multi) 0) = true /\
  (* the variant with a NEW object for the second record (what every single-record test sees): no difference *)
  streams_eqb (delivered (pool_run FlagSetOnly [] [(None, false); (None, false)] [rec_multi; rec_escaped]) 1) alone = true /\
  (* the variant, flag set by a transform/rewriter of an earlier single-line record (schedule), object reused *)
  streams_eqb (delivered (pool_run FlagSetOnly [] [(None, true); (Some 0%nat, false)] [rec_escaped; rec_escaped]) 1) alone = false /\
  (* the code: same schedule, same records - as alone *)
  streams_eqb (delivered (pool_run FlagAssign [] [(None, false); (Some 0%nat, false)] [rec_multi; rec_escaped]) 1) alone = true /\
  length alone = 1%nat.
Proof. vm_compute. repeat split. Qed.
