(* Proofs about Model/ShutdownBacklog.v (C18: the feeder around a stop request, backlog of arbitrary length).
   With the invariant [good]: after the stop request the stop branch is enabled whenever a send is
   ([stop_branch_always_enabled_lemma]), the feeder is never stuck ([never_stuck_lemma]), and its steps are bounded
   by the chunks queued or in the window plus the selects resolved for the send
   ([steps_after_stop_bounded_lemma]).  The variant that tries the non-blocking send first is refuted: it forwards
   a backlog of every length after the stop request ([fast_path_variant_refuted_lemma]). *)
From SV Require Import Model.Common Model.ShutdownBacklog.
From Coq Require Import Lia ZifyBool ZifyN ZifyNat.
Ltac Zify.zify_post_hook ::= Z.div_mod_to_equations.
Local Open Scope nat_scope.

Definition no_fast (s : fstate) : Prop := match f_pc s with PFast _ => False | _ => True end.

Definition mark_inv (s : fstate) : Prop :=
  match f_mark s with
  | Some m => f_closed s = true /\ m <= length (f_out s)
  | None => f_closed s = false
  end.

Definition in_cleanup (pc : fpc) : bool :=
  match pc with PRecv | PFast _ | PSelect _ => false | _ => true end.

Definition cleanup_closed (s : fstate) : Prop := in_cleanup (f_pc s) = true -> f_closed s = true.

Definition good (s : fstate) : Prop := no_fast s /\ mark_inv s /\ cleanup_closed s.

Ltac f_cases H :=
  repeat match type of H with
  | context [match ?x with _ => _ end] => destruct x eqn:?; try discriminate
  end.

Ltac step_inv H := unfold f_step, do_send, do_leave, set_pc, has_room in H; f_cases H; inversion H; subst; clear H.

Lemma good_init : good f_init.
Proof. repeat split; cbn; try discriminate. Qed.

Lemma good_with_queue : forall l, good (with_queue l).
Proof. intros l. repeat split; cbn; try discriminate. Qed.

Lemma good_step : forall cfg s e s', fg_fast cfg = false -> good s -> f_step cfg s e = Some s' -> good s'.
Proof.
  intros cfg s e s' Hf (Hn & Hm & Hc) H.
  unfold good, no_fast, mark_inv, cleanup_closed in *.
  destruct e; step_inv H; cbn in *;
    repeat match goal with
    | H : ?a = _ |- context [?a] => rewrite H in *
    | H : ?a = _, H' : context [?a] |- _ => rewrite H in H'
    end; cbn in *;
    try (repeat split; auto; try discriminate; try congruence; try lia; fail).
  all: destruct (f_mark s) as [m|]; [destruct Hm as [Hm1 Hm2]|]; repeat split; auto; try discriminate; try congruence; try lia.
Qed.

(* what every step preserves holds at the end of every run *)
Lemma f_run_inv : forall cfg (P : fstate -> Prop), (forall s e s', P s -> f_step cfg s e = Some s' -> P s') ->
  forall evs s s', P s -> f_run cfg s evs = Some s' -> P s'.
Proof.
  intros cfg P Hstep. induction evs as [|e evs IH]; intros s s' Hi H; cbn in H.
  - inversion H; subst; exact Hi.
  - destruct (f_step cfg s e) as [s1|] eqn:E; [|discriminate]. eapply IH; [|exact H]. eapply Hstep; eauto.
Qed.

Lemma good_run : forall cfg evs s s', fg_fast cfg = false -> good s -> f_run cfg s evs = Some s' -> good s'.
Proof. intros cfg evs s s' Hf. apply f_run_inv. intros s0 e s1. apply good_step. exact Hf. Qed.

(* the stop branch is offered whenever a forward is possible *)
Lemma stop_branch_always_enabled_lemma : forall cfg evs s, fg_fast cfg = false ->
  f_run cfg f_init evs = Some s ->
  f_closed s = true -> enabled cfg s FSend = true -> enabled cfg s FStop = true.
Proof.
  intros cfg evs s Hf Hr Hcl Hs. destruct (good_run _ _ _ _ Hf good_init Hr) as (Hn & _ & _).
  unfold enabled, no_fast in *. cbn in *.
  destruct (f_pc s); try discriminate; try contradiction. rewrite Hcl. reflexivity.
Qed.

(* after the stop request the feeder is never stuck on its own: some step of the feeder is enabled in every state
   but the wait for the consumers (a peer wait: Model/Shutdown.v feeder, C18_feeder_bounded_by_client); at the receive
   it is FRecv / FEnd, at the select it is the stop branch *)
Lemma never_stuck_lemma : forall cfg evs s, fg_fast cfg = false -> f_run cfg f_init evs = Some s ->
  f_closed s = true -> f_pc s <> PStopped ->
  (exists e, feeder_event e = true /\ enabled cfg s e = true /\
             (forall c, f_pc s = PSelect c -> e = FStop)) \/
  (f_pc s = PWaitConsumers /\ f_cons s = true).
Proof.
  intros cfg evs s Hf Hr Hcl Hne. destruct (good_run _ _ _ _ Hf good_init Hr) as (Hn & _ & _).
  unfold no_fast in Hn. unfold enabled.
  destruct (f_pc s) as [|c|c|last|c| | |] eqn:Epc; try contradiction.
  - destruct (f_queue s) as [|c q] eqn:Eq.
    + left. exists FEnd. cbn. rewrite Epc, Eq, Hcl. repeat split; intros; discriminate.
    + left. exists FRecv. cbn. rewrite Epc, Eq. destruct (fc_ok c); repeat split; intros; discriminate.
  - left. exists FStop. cbn. rewrite Epc, Hcl. repeat split; intros; reflexivity.
  - left. exists FSave. cbn. rewrite Epc. destruct (f_queue s); repeat split; intros; discriminate.
  - left. exists FSave. cbn. rewrite Epc. repeat split; intros; discriminate.
  - destruct (f_cons s) eqn:Ec.
    + right. split; reflexivity.
    + left. exists FWaitDone. cbn. rewrite Epc, Ec. repeat split; intros; discriminate.
  - left. exists FSave. cbn. rewrite Epc. destruct (f_window s); repeat split; intros; discriminate.
Qed.

Lemma fwd_step : forall cfg s e s', fg_fast cfg = false -> good s -> f_step cfg s e = Some s' ->
  fwd_after s' = fwd_after s + (if is_choice cfg s e then 1 else 0).
Proof.
  intros cfg s e s' Hf (Hn & Hm & _) H.
  unfold no_fast, mark_inv in *. unfold fwd_after, is_choice, enabled.
  destruct e; cbn [same_fev andb]; try (step_inv H; cbn; lia).
  - (* EDestroy *) step_inv H. cbn. destruct (f_mark s) as [m|]; [destruct Hm; congruence|]. lia.
  - (* FSend *)
    unfold f_step at 1 in H. unfold has_room, do_send in H.
    destruct (f_pc s) as [|c|c|last|c| | |] eqn:Epc; try discriminate; try contradiction.
    destruct (Nat.ltb _ _); [|discriminate]. inversion H; subst; clear H. cbn -[Nat.sub]. rewrite Epc.
    destruct (f_mark s) as [m|].
    + destruct Hm as [Hcl Hle]. rewrite Hcl. cbn -[Nat.sub]. lia.
    + rewrite Hm. cbn. reflexivity.
Qed.

Lemma fwd_run : forall cfg evs s s', fg_fast cfg = false -> good s -> f_run cfg s evs = Some s' ->
  fwd_after s' = fwd_after s + f_choices cfg s evs.
Proof.
  induction evs as [|e evs IH]; intros s s' Hf Hg H; cbn in H |- *.
  - inversion H; subst. lia.
  - destruct (f_step cfg s e) as [s1|] eqn:E; [|discriminate].
    rewrite (IH s1 s' Hf (good_step _ _ _ _ Hf Hg E) H), (fwd_step _ _ _ _ Hf Hg E). lia.
Qed.

(* chunks forwarded after the stop request = selects resolved in favour of the send *)
Lemma after_stop_bounded_by_choices_lemma : forall cfg evs s, fg_fast cfg = false ->
  f_run cfg f_init evs = Some s -> fwd_after s = f_choices cfg f_init evs.
Proof. intros cfg evs s Hf Hr. rewrite (fwd_run _ _ _ _ Hf good_init Hr). reflexivity. Qed.

Lemma cost_step : forall cfg s e s', fg_fast cfg = false -> good s -> f_closed s = true ->
  f_step cfg s e = Some s' ->
  f_closed s' = true /\
  (if feeder_event e then 1 else 0) + stop_cost s' <= stop_cost s + 2 * (if is_choice cfg s e then 1 else 0).
Proof.
  intros cfg s e s' Hf (Hn & _ & _) Hcl H.
  unfold no_fast in Hn. unfold stop_cost, is_choice, enabled.
  destruct e; cbn [same_fev andb feeder_event];
    try (step_inv H; try congruence; cbn -[Nat.mul]; (split; [assumption|]);
         repeat match goal with He : ?a = _ |- context [?a] => rewrite He end;
         cbn [length pc_cost]; lia).
  - (* FSend *)
    unfold f_step at 1 in H. unfold has_room, do_send in H.
    destruct (f_pc s) as [|c|c|last|c| | |] eqn:Epc; try discriminate; try contradiction.
    destruct (Nat.ltb _ _); [|discriminate]. inversion H; subst; clear H. cbn -[Nat.mul]. rewrite Epc, Hcl.
    cbn -[Nat.mul]. split; [reflexivity|]. rewrite app_length. cbn. lia.
Qed.

Lemma steps_run : forall cfg evs s s', fg_fast cfg = false -> good s -> f_closed s = true ->
  f_run cfg s evs = Some s' ->
  f_steps evs + stop_cost s' <= stop_cost s + 2 * f_choices cfg s evs.
Proof.
  induction evs as [|e evs IH]; intros s s' Hf Hg Hcl H; cbn in H.
  - inversion H; subst. cbn. lia.
  - destruct (f_step cfg s e) as [s1|] eqn:E; [|discriminate].
    destruct (cost_step _ _ _ _ Hf Hg Hcl E) as [Hcl1 Hle].
    specialize (IH s1 s' Hf (good_step _ _ _ _ Hf Hg E) Hcl1 H).
    unfold f_steps in *. cbn [filter f_choices]. rewrite E.
    destruct (feeder_event e); cbn [length] in *; lia.
Qed.

(* after the stop request the feeder makes at most one step per chunk queued or in the window, a constant, and two per
   select resolved in favour of the send *)
Lemma steps_after_stop_bounded_lemma : forall cfg evs0 s, fg_fast cfg = false ->
  f_run cfg f_init evs0 = Some s -> f_closed s = true ->
  forall evs s', f_run cfg s evs = Some s' ->
  f_steps evs <= length (f_queue s) + length (f_window s) + 5 + 2 * f_choices cfg s evs.
Proof.
  intros cfg evs0 s Hf Hr Hcl evs s' Hr'.
  pose proof (steps_run _ _ _ _ Hf (good_run _ _ _ _ Hf good_init Hr) Hcl Hr') as H.
  assert (pc_cost (f_pc s) <= 5) by (destruct (f_pc s) as [| | |[|]| | | |]; cbn; lia).
  unfold stop_cost in H. lia.
Qed.

(* the main loop holds at most one chunk: what it has taken from the queue is forwarded, dropped, or the one chunk in
   its hand (which becomes lastInputChunk); holds for the variant too *)
Definition loops_inv (s : fstate) : Prop :=
  match f_pc s with
  | PRecv => f_loops s = length (f_out s) + length (f_bad s)
  | PFast _ | PSelect _ => f_loops s = length (f_out s) + length (f_bad s) + 1
  | _ => f_loops s <= length (f_out s) + length (f_bad s) + 1
  end.

Lemma loops_step : forall cfg s e s', loops_inv s -> f_step cfg s e = Some s' -> loops_inv s'.
Proof.
  intros cfg s e s' Hi H. unfold loops_inv in *.
  destruct e; step_inv H; cbn in *;
    repeat match goal with He : f_pc _ = _ |- _ => rewrite He in * end; cbn in *; try lia;
    repeat match goal with
           | |- context [match f_pc ?x with _ => _ end] => destruct (f_pc x)
           | Hx : context [match f_pc ?x with _ => _ end] |- _ => destruct (f_pc x)
           end; cbn in *; try lia.
Qed.

Lemma loop_holds_one_chunk_lemma : forall cfg evs s, f_run cfg f_init evs = Some s ->
  f_loops s <= length (f_out s) + length (f_bad s) + 1.
Proof.
  intros cfg evs s Hr. assert (Hi : loops_inv f_init) by reflexivity.
  pose proof (f_run_inv cfg loops_inv (loops_step cfg) evs _ _ Hi Hr) as H. unfold loops_inv in H. destruct (f_pc s); lia.
Qed.

Lemma run_app : forall cfg a b s, f_run cfg s (a ++ b) =
  match f_run cfg s a with Some s1 => f_run cfg s1 b | None => None end.
Proof.
  induction a as [|e a IH]; intros b s; cbn; [reflexivity|].
  destruct (f_step cfg s e); [apply IH|reflexivity].
Qed.

Lemma run_accepts_from : forall cfg l l0, length l0 + length l <= fg_qcap cfg ->
  f_run cfg (with_queue l0) (accepts l) = Some (with_queue (l0 ++ l)).
Proof.
  induction l as [|c l IH]; intros l0 Hle; cbn.
  - rewrite app_nil_r. reflexivity.
  - cbn in Hle. cbn. destruct (fg_qcap cfg) as [|m'] eqn:Eq; [lia|].
    assert (E : Nat.leb (length l0) m' = true) by (apply PeanoNat.Nat.leb_le; lia). rewrite E.
    change (FS PRecv (l0 ++ [c]) false [] false true [] None [] [] 0 0) with (with_queue (l0 ++ [c])).
    fold (accepts l). rewrite IH; [|rewrite app_length; cbn; lia]. rewrite <- app_assoc. reflexivity.
Qed.

Lemma run_accepts_lemma : forall cfg l, length l <= fg_qcap cfg ->
  f_run cfg f_init (accepts l) = Some (with_queue l).
Proof. intros cfg l H. exact (run_accepts_from cfg l [] H). Qed.

Lemma backlog_from_length : forall n i, length (backlog_from i n) = n.
Proof. induction n as [|n IH]; intros i; cbn; [reflexivity|]. rewrite IH. reflexivity. Qed.

(* the state after the stop request with l in the queue, [out] already forwarded and taken *)
Definition stopped_with (l out : list fchunk) (m taken loops : nat) : fstate :=
  FS PRecv l true [] false true out (Some m) [] [] taken loops.

Lemma fast_forced : forall w q n i out m taken loops, 0 < w ->
  let cfg := FCFG w q true in
  exists out',
    f_run_forced cfg (stopped_with (backlog_from i n) out m taken loops) (rep n pass_one)
      = Some (stopped_with [] out' m (n + taken) (n + loops)) /\
    length out' = n + length out /\
    f_choices cfg (stopped_with (backlog_from i n) out m taken loops) (rep n pass_one) = 0.
Proof.
  intros w q n. induction n as [|n IH]; intros i out m taken loops Hw cfg.
  - exists out. cbn. repeat split.
  - destruct w as [|w']; [lia|].
    destruct (IH (i + 1)%Z (FC i true :: out) m (S taken) (S loops) Hw) as (out' & Hr & Hl & Hc).
    exists out'. cbn [backlog_from rep pass_one app].
    split; [|split].
    + cbn. cbn in Hr. rewrite <- !plus_n_Sm in Hr. exact Hr.
    + rewrite Hl. cbn. lia.
    + cbn. cbn in Hc. exact Hc.
Qed.

(* the variant with the non-blocking send first *)
Lemma fast_path_variant_refuted_lemma : forall n w q, 0 < w -> n <= q ->
  let cfg := FCFG w q true in
  exists s0 s,
    f_run cfg f_init (accepts (backlog n) ++ [EDestroy]) = Some s0 /\
    length (f_queue s0) = n /\
    f_run_forced cfg s0 (rep n pass_one) = Some s /\
    fwd_after s = n /\ f_choices cfg s0 (rep n pass_one) = 0 /\ f_queue s = [] /\
    (0 < n -> exists s1, f_run cfg s0 [FRecv] = Some s1 /\ f_closed s1 = true /\
                         enabled cfg s1 FSend = true /\ enabled cfg s1 FStop = false).
Proof.
  intros n w q Hw Hn cfg.
  destruct (fast_forced w q n 0%Z [] 0 0 0 Hw) as (out' & Hr & Hl & Hc).
  exists (stopped_with (backlog n) [] 0 0 0), (stopped_with [] out' 0 (n + 0) (n + 0)).
  split; [|split; [|split; [|split; [|split; [|split]]]]].
  - rewrite run_app, run_accepts_lemma; [reflexivity|]. unfold backlog. rewrite backlog_from_length. exact Hn.
  - cbn. unfold backlog. apply backlog_from_length.
  - exact Hr.
  - unfold fwd_after. cbn. cbn in Hl. lia.
  - exact Hc.
  - reflexivity.
  - intros Hpos. destruct n as [|n]; [lia|]. destruct w as [|w']; [lia|].
    eexists. cbn. repeat split.
Qed.

(* a concrete run (test on literals: non-vacuity) *)
Lemma backlog_example_lemma :
  let cfg := FCFG 8 500 false in
  replay_backlog cfg 40 5 3 = Some (3, 3, 8, 32, 9, true) /\
  (exists s, f_run cfg f_init (accepts (backlog 40) ++ rep 5 pass_one ++ [EDestroy] ++ rep 3 pass_one) = Some s /\
             f_closed s = true /\ fwd_after s = 3 /\ length (f_queue s) = 32) /\
  replay_backlog (FCFG 8 500 true) 40 5 3 = Some (0, 3, 8, 0, 9, false).
Proof. vm_compute. repeat split. eexists. repeat split. Qed.
