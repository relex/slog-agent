(* Proofs about Model/Utf8.v against Spec/Utf8Spec.v.  [enc_form c l] says that [l] is the encoding of the scalar
   value [c] with its bit fields as variables; its four lemmas [encode_form], [enc_form_inv], [decode_form] and
   [rune_width_form] tie it to utf8_encode, decode_rune and rune_width, so that the decoder accepts exactly the
   encodings of scalar values.  [rune_ind] reads a string as encodings and error bytes; by it: ToValidUTF8 returns
   valid UTF-8, Valid iff ToValidUTF8 is the identity ([valid_aux_to_valid]), and CleanUTF8 (length, boundary,
   cut points: [clean_utf8_cut_rune]). *)
From SV Require Import Model.Common Model.Utf8 Spec.Utf8Spec.
From Coq Require Import Lia ZifyBool ZifyN ZifyNat.
Ltac Zify.zify_post_hook ::= Z.div_mod_to_equations.
Open Scope N_scope.

Lemma first_ascii : forall b, b < 128 -> first b = FAscii.
Proof. intros b H. unfold first. rewrite (proj2 (N.ltb_lt _ _) H). reflexivity. Qed.

Lemma first_cont : forall b, 128 <= b < 194 -> first b = FInvalid.
Proof.
  intros b H. unfold first.
  rewrite (proj2 (N.ltb_ge b 128)), (proj2 (N.ltb_lt b 194)) by lia. reflexivity.
Qed.

Lemma first_high : forall b, 245 <= b -> first b = FInvalid.
Proof.
  intros b H. unfold first.
  rewrite !(proj2 (N.ltb_ge b _)), !(proj2 (N.eqb_neq b _)) by lia. reflexivity.
Qed.

(* The lead bytes, by their low bits [x].  What [first] lets through as second byte is a
   continuation byte 128 + y such that the leading bits x * 64 + y of the code point are those
   of a scalar value in the range of the form: no over-long form (E0, F0), no surrogate (ED),
   nothing above U+10FFFF (F4). *)
Lemma first_2 : forall x, 2 <= x < 32 -> first (192 + x) = FLead 2 128 191.
Proof.
  intros x H. unfold first.
  rewrite !(proj2 (N.ltb_ge (192 + x) _)), (proj2 (N.ltb_lt (192 + x) 224)) by lia. reflexivity.
Qed.

Lemma cont_range : forall b, (b <? 128) || (191 <? b) = false <-> exists y, b = 128 + y /\ y < 64.
Proof.
  intros b. split; [intros E; exists (b - 128); lia|intros (y & -> & H); lia].
Qed.

Lemma first_3 : forall x, x < 16 ->
  exists lo hi, first (224 + x) = FLead 3 lo hi /\
    forall b, (b <? lo) || (hi <? b) = false <->
      exists y, b = 128 + y /\ y < 64 /\ 32 <= x * 64 + y /\ (x * 64 + y < 864 \/ 896 <= x * 64 + y).
Proof.
  intros x H. unfold first. rewrite !(proj2 (N.ltb_ge (224 + x) _)) by lia.
  destruct (N.eqb_spec (224 + x) 224); [|destruct (N.ltb_spec (224 + x) 237);
    [|destruct (N.eqb_spec (224 + x) 237); [|rewrite (proj2 (N.ltb_lt (224 + x) 240)) by lia]]];
    (eexists _, _; split; [reflexivity|]; intros b;
     split; [intros E; exists (b - 128); lia|intros (y & -> & Hy); lia]).
Qed.

Lemma first_4 : forall x, x < 5 ->
  exists lo hi, first (240 + x) = FLead 4 lo hi /\
    forall b, (b <? lo) || (hi <? b) = false <->
      exists y, b = 128 + y /\ y < 64 /\ 16 <= x * 64 + y < 272.
Proof.
  intros x H. unfold first.
  rewrite !(proj2 (N.ltb_ge (240 + x) _)), !(proj2 (N.eqb_neq (240 + x) _)) by lia.
  destruct (N.eqb_spec (240 + x) 240); [|destruct (N.ltb_spec (240 + x) 244);
    [|rewrite (proj2 (N.eqb_eq (240 + x) 244)) by lia]];
    (eexists _, _; split; [reflexivity|]; intros b;
     split; [intros E; exists (b - 128); lia|intros (y & -> & Hy); lia]).
Qed.

Lemma base64_2 : forall c, c = c / 64 * 64 + c mod 64.
Proof. intros c. rewrite N.mul_comm. apply N.div_mod'. Qed.

Lemma base64_3 : forall c, c = (c / 4096 * 64 + (c / 64) mod 64) * 64 + c mod 64.
Proof.
  intros c. change 4096 with (64 * 64). rewrite <- N.div_div by discriminate.
  rewrite <- (base64_2 (c / 64)), <- (base64_2 c). reflexivity.
Qed.

Lemma base64_4 : forall c,
  c = ((c / 262144 * 64 + (c / 4096) mod 64) * 64 + (c / 64) mod 64) * 64 + c mod 64.
Proof.
  intros c. change 262144 with (64 * 64 * 64). change 4096 with (64 * 64).
  rewrite <- !N.div_div by discriminate.
  rewrite <- (base64_2 (c / 64 / 64)), <- (base64_2 (c / 64)), <- (base64_2 c). reflexivity.
Qed.

Lemma div64 : forall q r, r < 64 -> (q * 64 + r) / 64 = q.
Proof. intros q r H. symmetry. apply (N.div_unique _ 64 q r); lia. Qed.

Lemma mod64 : forall q r, r < 64 -> (q * 64 + r) mod 64 = r.
Proof. intros q r H. symmetry. apply (N.mod_unique _ 64 q r); lia. Qed.

Lemma mod64_lt : forall c, c mod 64 < 64.
Proof. intros c. apply N.mod_lt. discriminate. Qed.

(* [enc_form c l]: [l] is the encoding of the scalar value [c]; the fields of the
   RFC's table are variables, so that no division is left. *)
Inductive enc_form : N -> bytes -> Prop :=
| Enc1 c : c < 128 -> enc_form c [c]
| Enc2 c x y : 128 <= c < 2048 -> y < 64 -> c = x * 64 + y ->
    enc_form c [192 + x; 128 + y]
| Enc3 c x y z : 2048 <= c < 65536 -> scalar c -> y < 64 -> z < 64 ->
    c = (x * 64 + y) * 64 + z ->
    enc_form c [224 + x; 128 + y; 128 + z]
| Enc4 c x y z w : 65536 <= c <= 1114111 -> y < 64 -> z < 64 -> w < 64 ->
    c = ((x * 64 + y) * 64 + z) * 64 + w ->
    enc_form c [240 + x; 128 + y; 128 + z; 128 + w].

Lemma encode_form : forall c, scalar c -> enc_form c (utf8_encode c).
Proof.
  intros c Hs. unfold utf8_encode.
  destruct (N.ltb_spec c 128); [apply Enc1; assumption|].
  destruct (N.ltb_spec c 2048); [apply Enc2; [lia|apply mod64_lt|apply base64_2]|].
  destruct (N.ltb_spec c 65536).
  - apply Enc3; [lia|assumption|apply mod64_lt..|apply base64_3].
  - apply Enc4; [unfold scalar in Hs; lia|apply mod64_lt..|apply base64_4].
Qed.

Lemma enc_form_inv : forall c l, enc_form c l -> scalar c /\ utf8_encode c = l.
Proof.
  intros c l H. unfold scalar, utf8_encode.
  destruct H as [c H|c x y H Hy E|c x y z H Hs Hy Hz E|c x y z w H Hy Hz Hw E].
  - rewrite (proj2 (N.ltb_lt _ _) H). split; [lia|reflexivity].
  - rewrite (proj2 (N.ltb_ge c 128)), (proj2 (N.ltb_lt c 2048)) by lia. split; [lia|]. subst c.
    rewrite div64, mod64 by assumption. reflexivity.
  - rewrite !(proj2 (N.ltb_ge c _)), (proj2 (N.ltb_lt c 65536)) by lia. split; [exact Hs|]. subst c.
    change 4096 with (64 * 64).
    rewrite <- N.div_div, !div64, !mod64 by (assumption || discriminate). reflexivity.
  - rewrite !(proj2 (N.ltb_ge c _)) by lia. split; [lia|]. subst c.
    change 262144 with (64 * 64 * 64). change 4096 with (64 * 64).
    rewrite <- !N.div_div, !div64, !mod64 by (assumption || discriminate). reflexivity.
Qed.

Lemma is_cont_field : forall y, y < 64 -> is_cont (128 + y) = true.
Proof. intros y H. unfold is_cont. lia. Qed.

Lemma cont_mod : forall y, y < 64 -> (128 + y) mod 64 = y.
Proof. intros y H. apply (mod64 2 y H). Qed.

Lemma decode_form : forall c l rest, enc_form c l -> decode_rune (l ++ rest) = (c, length l).
Proof.
  intros c l rest H.
  destruct H as [c H|c x y H Hy E|c x y z H Hs Hy Hz E|c x y z w H Hy Hz Hw E];
    cbn [app length decode_rune].
  - rewrite first_ascii by assumption. reflexivity.
  - rewrite first_2, (proj2 (cont_range _)) by (try exists y; lia). cbn [Nat.leb].
    rewrite <- (N.mod_unique (192 + x) 32 6 x), cont_mod by lia. subst c. reflexivity.
  - unfold scalar in Hs. destruct (first_3 x) as (lo & hi & -> & Hb); [lia|].
    rewrite (proj2 (Hb _)), is_cont_field by (try exists y; lia). cbn [Nat.leb negb].
    rewrite <- (N.mod_unique (224 + x) 16 14 x), !cont_mod by lia. subst c. f_equal. lia.
  - destruct (first_4 x) as (lo & hi & -> & Hb); [lia|].
    rewrite (proj2 (Hb _)), !is_cont_field by (try exists y; lia). cbn [Nat.leb negb].
    rewrite <- (N.mod_unique (240 + x) 8 30 x), !cont_mod by lia. subst c. f_equal. lia.
Qed.

Lemma decode_encode : forall c rest, scalar c ->
  decode_rune (utf8_encode c ++ rest) = (c, length (utf8_encode c)).
Proof. intros c rest Hs. apply decode_form, encode_form, Hs. Qed.

Lemma byte_field : forall k b, k <= b -> exists x, b = k + x.
Proof. intros k b H. exists (b - k). lia. Qed.

Lemma rune_width_form : forall s k, rune_width s = S k ->
  exists c l rest, enc_form c l /\ s = l ++ rest /\ length l = S k.
Proof.
  intros [|p0 t] k H; [discriminate|]. unfold rune_width, decode_rune, rune_self in H.
  (* the unfolded decoder stays in the goal, or is reduced to its length, wherever lia is called:
     as a hypothesis it would be translated at each call *)
  revert H.
  assert (p0 < 128 \/ (128 <= p0 < 194 \/ 245 <= p0) \/ 194 <= p0 < 224 \/ 224 <= p0 < 240 \/ 240 <= p0 < 245)
    as [R|[R|[R|[R|R]]]] by lia.
  - rewrite first_ascii, (proj2 (N.leb_gt 128 p0)) by assumption. intros H.
    exists p0, [p0], t. split; [apply Enc1; assumption|split; [reflexivity|exact H]].
  - rewrite (proj2 (N.leb_le 128 p0)) by lia.
    destruct R; [rewrite first_cont|rewrite first_high]; (assumption || discriminate).
  - destruct (byte_field 192 p0) as [x ->]; [lia|].
    rewrite first_2, (proj2 (N.leb_le 128 _)) by lia.
    destruct t as [|b1 t1]; [discriminate|].
    destruct (_ || _) eqn:E1; [discriminate|]. apply cont_range in E1. destruct E1 as (y & -> & Hy).
    intros H. cbn [Nat.leb snd Nat.eqb andb] in H.
    exists (x * 64 + y), [192 + x; 128 + y], t1. split; [apply Enc2; lia|split; [reflexivity|exact H]].
  - destruct (byte_field 224 p0) as [x ->]; [lia|]. destruct (first_3 x) as (lo & hi & -> & Hb); [lia|].
    rewrite (proj2 (N.leb_le 128 _)) by lia.
    destruct t as [|b1 [|b2 t2]]; try discriminate;
      (destruct (_ || _) eqn:E1; [discriminate|]); [discriminate|].
    apply Hb in E1. destruct E1 as (y & -> & Hy & Hlo & Hsur). clear Hb.
    destruct (is_cont b2) eqn:E2; [|discriminate]. unfold is_cont in E2.
    intros H. cbn [Nat.leb negb snd Nat.eqb andb] in H.
    destruct (byte_field 128 b2) as [z ->]; [lia|].
    exists ((x * 64 + y) * 64 + z), [224 + x; 128 + y; 128 + z], t2.
    split; [apply Enc3; unfold scalar; lia|split; [reflexivity|exact H]].
  - destruct (byte_field 240 p0) as [x ->]; [lia|]. destruct (first_4 x) as (lo & hi & -> & Hb); [lia|].
    rewrite (proj2 (N.leb_le 128 _)) by lia.
    destruct t as [|b1 [|b2 [|b3 t3]]]; try discriminate;
      (destruct (_ || _) eqn:E1; [discriminate|]); try discriminate;
      (destruct (is_cont b2) eqn:E2; [|discriminate]); [discriminate|].
    apply Hb in E1. destruct E1 as (y & -> & Hy & Hr). clear Hb.
    destruct (is_cont b3) eqn:E3; [|discriminate]. unfold is_cont in E2, E3.
    intros H. cbn [Nat.leb negb snd Nat.eqb andb] in H.
    destruct (byte_field 128 b2) as [z ->]; [lia|]. destruct (byte_field 128 b3) as [w ->]; [lia|].
    exists (((x * 64 + y) * 64 + z) * 64 + w), [240 + x; 128 + y; 128 + z; 128 + w], t3.
    split; [apply Enc4; lia|split; [reflexivity|exact H]].
Qed.

(* every byte string is read from the left as encodings of scalar values and bytes at which
   DecodeRune reports an error *)
Lemma rune_ind : forall P : bytes -> Prop, P [] ->
  (forall b s, rune_width (b :: s) = 0%nat -> P s -> P (b :: s)) ->
  (forall c s, scalar c -> P s -> P (utf8_encode c ++ s)) -> forall s, P s.
Proof.
  intros P H0 Hd He s.
  enough (G : forall n s, (length s <= n)%nat -> P s) by (apply (G (length s)); lia). clear s.
  induction n as [|n IH]; intros [|b s] L; try exact H0; cbn [length] in L; [lia|].
  destruct (rune_width (b :: s)) as [|k] eqn:W; [apply Hd; [exact W|apply IH; lia]|].
  destruct (rune_width_form _ _ W) as (c & l & rest & Hf & Es & El).
  apply enc_form_inv in Hf. destruct Hf as [Hc <-]. rewrite Es. apply He; [exact Hc|apply IH].
  apply (f_equal (@length N)) in Es. rewrite app_length, El in Es. cbn [length] in Es. lia.
Qed.

Lemma encode_length : forall c, (1 <= length (utf8_encode c) <= 4)%nat.
Proof.
  intros c. unfold utf8_encode.
  destruct (c <? 128), (c <? 2048), (c <? 65536); cbn [length]; lia.
Qed.

Lemma encode_head_ascii : forall c, c < 128 -> utf8_encode c = [c].
Proof. intros c H. apply (enc_form_inv c [c]), Enc1, H. Qed.

Lemma encode_non_ascii : forall c, scalar c -> 128 <= c -> non_ascii (utf8_encode c).
Proof.
  intros c Hs Hc. destruct (encode_form c Hs); repeat constructor; lia.
Qed.

Lemma rune_width_encode : forall c rest, scalar c ->
  rune_width (utf8_encode c ++ rest) = length (utf8_encode c).
Proof.
  intros c rest Hs. pose proof (decode_encode c rest Hs) as D. unfold rune_width.
  destruct (encode_form c Hs); cbn [app] in *; rewrite D; cbn [snd length Nat.eqb].
  2-4: rewrite andb_false_r; reflexivity.
  rewrite (proj2 (N.leb_gt rune_self c)) by assumption. reflexivity.
Qed.

Lemma to_valid_aux_skip : forall pre rest,
  to_valid_aux (pre ++ rest) (length pre) = pre ++ to_valid_aux rest 0.
Proof.
  induction pre as [|b pre IH]; intros rest; [reflexivity|].
  cbn [app length to_valid_aux]. rewrite IH. reflexivity.
Qed.

Lemma to_valid_encode : forall c rest, scalar c ->
  to_valid_utf8 (utf8_encode c ++ rest) = utf8_encode c ++ to_valid_utf8 rest.
Proof.
  intros c rest Hs. unfold to_valid_utf8.
  pose proof (rune_width_encode c rest Hs) as W.
  pose proof (encode_length c) as L.
  destruct (utf8_encode c) as [|b e]; [cbn [length] in L; lia|].
  cbn [app] in *. cbn [to_valid_aux]. rewrite W. cbn [length].
  rewrite to_valid_aux_skip. reflexivity.
Qed.

Lemma encode_all_cons : forall c cs, utf8_encode_all (c :: cs) = utf8_encode c ++ utf8_encode_all cs.
Proof. reflexivity. Qed.

Lemma encode_all_app : forall a b, utf8_encode_all (a ++ b) = utf8_encode_all a ++ utf8_encode_all b.
Proof. intros a b. unfold utf8_encode_all. rewrite map_app, concat_app. reflexivity. Qed.

(* a function that passes a leading character through unchanged leaves valid strings as they are *)
Lemma id_on_valid_utf8 : forall f : bytes -> bytes,
  f [] = [] -> (forall c u, scalar c -> f (utf8_encode c ++ u) = utf8_encode c ++ f u) ->
  forall s, valid_utf8 s -> f s = s.
Proof.
  intros f Hnil Hcons s (cs & Hcs & ->). induction Hcs as [|c cs Hc Hcs IH]; [exact Hnil|].
  rewrite encode_all_cons, Hcons, IH by assumption. reflexivity.
Qed.

Lemma to_valid_id : forall s, valid_utf8 s -> to_valid_utf8 s = s.
Proof. exact (id_on_valid_utf8 to_valid_utf8 eq_refl to_valid_encode). Qed.

Lemma valid_utf8_nil : valid_utf8 [].
Proof. exists []. split; [constructor|reflexivity]. Qed.

Lemma valid_utf8_cons : forall c s, scalar c -> valid_utf8 s -> valid_utf8 (utf8_encode c ++ s).
Proof. intros c s Hc [cs [Hcs ->]]. exists (c :: cs). split; [constructor; assumption|reflexivity]. Qed.

Lemma valid_utf8_app : forall a b, valid_utf8 a -> valid_utf8 b -> valid_utf8 (a ++ b).
Proof.
  intros a b [ca [Ha ->]] [cb [Hb ->]]. exists (ca ++ cb). split; [apply Forall_app; split; assumption|].
  symmetry. apply encode_all_app.
Qed.

Lemma to_valid_drop : forall b s, rune_width (b :: s) = 0%nat -> to_valid_utf8 (b :: s) = to_valid_utf8 s.
Proof. intros b s W. unfold to_valid_utf8. cbn [to_valid_aux]. rewrite W. reflexivity. Qed.

Theorem to_valid_utf8_valid_lemma : forall s, valid_utf8 (to_valid_utf8 s).
Proof.
  induction s as [|b s W IH|c s Hc IH] using rune_ind; [apply valid_utf8_nil| |].
  - rewrite to_valid_drop by exact W. exact IH.
  - rewrite to_valid_encode by exact Hc. apply valid_utf8_cons; assumption.
Qed.

Lemma to_valid_aux_length : forall s skip, (length (to_valid_aux s skip) <= length s)%nat.
Proof.
  induction s as [|b s IH]; intros skip; [cbn; lia|].
  cbn [to_valid_aux]. destruct skip as [|k].
  - destruct (rune_width (b :: s)); cbn [length]; [specialize (IH 0%nat)|specialize (IH n)]; lia.
  - cbn [length]. specialize (IH k). lia.
Qed.

(* utf8.Valid accepts exactly what ToValidUTF8 leaves unchanged, hence exactly the specification *)
Lemma valid_aux_to_valid : forall s skip, valid_aux s skip = true <-> to_valid_aux s skip = s.
Proof.
  induction s as [|b s IH]; intros skip; [split; reflexivity|].
  cbn [valid_aux to_valid_aux]. destruct skip as [|k]; [destruct (rune_width (b :: s)) as [|k]|].
  2-3: rewrite IH; split; [intros ->; reflexivity|intros [= E]; exact E].
  split; [discriminate|]. intros E. pose proof (to_valid_aux_length s 0) as L.
  rewrite E in L. cbn [length] in L. lia.
Qed.

Theorem valid_iff_lemma : forall s, valid s = true <-> valid_utf8 s.
Proof.
  intros s. unfold valid. rewrite valid_aux_to_valid. split.
  - intros E. rewrite <- E. apply to_valid_utf8_valid_lemma.
  - apply to_valid_id.
Qed.

Lemma to_valid_Forall : forall (P : N -> Prop) s, Forall P s -> Forall P (to_valid_utf8 s).
Proof.
  intros P. apply (rune_ind (fun s => Forall P s -> Forall P (to_valid_utf8 s)));
    [constructor|intros b s W IH H|intros c s Hc IH H].
  - rewrite to_valid_drop by exact W. apply IH. inversion H; assumption.
  - rewrite to_valid_encode by exact Hc. apply Forall_app in H. apply Forall_app. split; [apply H|apply IH, H].
Qed.

Lemma last_ascii_scan_non_ascii : forall r r2 n, non_ascii r ->
  last_ascii_scan (r ++ r2) n = last_ascii_scan r2 (n - length r).
Proof.
  induction r as [|b r IH]; intros r2 n H.
  - cbn [app length]. f_equal. lia.
  - inversion H as [|? ? Hb Hr]; subst. cbn [app last_ascii_scan length].
    replace (b <=? 127) with false by lia. rewrite IH by assumption. f_equal. lia.
Qed.

Lemma find_last_end_of_ascii_spec : forall a w, ends_with_ascii a -> non_ascii w ->
  find_last_end_of_ascii (a ++ w) = length a.
Proof.
  intros a w Ha Hw. unfold find_last_end_of_ascii.
  rewrite rev_append_rev, app_nil_r, rev_app_distr, app_length.
  rewrite last_ascii_scan_non_ascii by (apply Forall_rev; exact Hw).
  rewrite rev_length. replace (length a + length w - length w)%nat with (length a) by lia.
  destruct Ha as [->|[a' [b [-> Hb]]]]; [reflexivity|].
  rewrite rev_app_distr. cbn [rev app last_ascii_scan].
  replace (b <=? 127) with true by lia. reflexivity.
Qed.

Lemma split_at_last_ascii : forall s, exists a w, s = a ++ w /\ ends_with_ascii a /\ non_ascii w.
Proof.
  induction s as [|b s [a [w [-> [Ha Hw]]]]].
  - exists [], []. split; [reflexivity|]. split; [left; reflexivity|constructor].
  - destruct Ha as [->|[a' [b' [-> Hb']]]].
    + destruct (b <? 128) eqn:Eb.
      * exists [b], w. split; [reflexivity|]. split; [|assumption]. right. exists [], b. split; [reflexivity|lia].
      * exists [], (b :: w). split; [reflexivity|]. split; [left; reflexivity|]. constructor; [lia|assumption].
    + exists (b :: a' ++ [b']), w. split; [reflexivity|]. split; [|assumption].
      right. exists (b :: a'), b'. split; [reflexivity|assumption].
Qed.

Lemma clean_utf8_split : forall a w, ends_with_ascii a -> non_ascii w ->
  clean_utf8 (a ++ w) = a ++ to_valid_utf8 w.
Proof.
  intros a w Ha Hw. unfold clean_utf8.
  destruct (a ++ w) as [|x y] eqn:E.
  - destruct a; [|discriminate]. destruct w; [|discriminate]. reflexivity.
  - rewrite <- E. rewrite find_last_end_of_ascii_spec by assumption.
    unfold overwrite_n_truncate.
    rewrite skipn_app, skipn_all, Nat.sub_diag. cbn [skipn app].
    rewrite firstn_app, firstn_all, Nat.sub_diag. cbn [firstn]. rewrite app_nil_r.
    rewrite app_length. replace (length a + length w - length a)%nat with (length w) by lia.
    rewrite firstn_all2; [reflexivity|]. apply to_valid_aux_length.
Qed.

(* the result of CleanUTF8 never ends inside a character *)
Theorem clean_utf8_boundary_lemma : forall s, ends_on_boundary (clean_utf8 s).
Proof.
  intros s. destruct (split_at_last_ascii s) as [a [w [-> [Ha Hw]]]].
  rewrite clean_utf8_split by assumption.
  exists a, (to_valid_utf8 w). split; [reflexivity|]. split; [assumption|].
  split; [apply to_valid_Forall; exact Hw|apply to_valid_utf8_valid_lemma].
Qed.

Theorem clean_utf8_length_lemma : forall s, (length (clean_utf8 s) <= length s)%nat.
Proof.
  intros s. destruct (split_at_last_ascii s) as [a [w [-> [Ha Hw]]]].
  rewrite clean_utf8_split by assumption. rewrite !app_length.
  pose proof (to_valid_aux_length w 0). unfold to_valid_utf8. lia.
Qed.

Lemma clean_utf8_encode : forall c u, scalar c -> clean_utf8 (utf8_encode c ++ u) = utf8_encode c ++ clean_utf8 u.
Proof.
  intros c u Hc. destruct (split_at_last_ascii u) as (a & w & -> & Ha & Hw).
  rewrite (clean_utf8_split a w) by assumption. destruct Ha as [->|(a' & b & -> & Hb)].
  - cbn [app]. destruct (N.lt_ge_cases c 128) as [Hlt|Hge].
    + rewrite encode_head_ascii by assumption. apply (clean_utf8_split [c] w); [|assumption].
      right. exists [], c. split; [reflexivity|assumption].
    + rewrite <- (to_valid_encode c w Hc). apply (clean_utf8_split [] (utf8_encode c ++ w)); [left; reflexivity|].
      apply Forall_app. split; [apply encode_non_ascii; assumption|assumption].
  - rewrite !app_assoc. apply clean_utf8_split; [|assumption].
    right. exists (utf8_encode c ++ a'), b. split; [reflexivity|assumption].
Qed.

Theorem clean_utf8_valid_id_lemma : forall s, valid_utf8 s -> clean_utf8 s = s.
Proof. exact (id_on_valid_utf8 clean_utf8 eq_refl clean_utf8_encode). Qed.

Lemma rune_width_cont : forall b s, 128 <= b <= 191 -> rune_width (b :: s) = 0%nat.
Proof.
  intros b s H. unfold rune_width, decode_rune. rewrite first_cont by lia. cbn [snd Nat.eqb].
  replace (rune_self <=? b) with true by (unfold rune_self; lia). reflexivity.
Qed.

Lemma to_valid_conts : forall s, Forall (fun b => 128 <= b <= 191) s -> to_valid_utf8 s = [].
Proof.
  intros s H. induction H as [|b s Hb _ IH]; [reflexivity|].
  rewrite to_valid_drop by (apply rune_width_cont; exact Hb). exact IH.
Qed.

Lemma Forall_firstn_keep : forall (A : Type) (P : A -> Prop) n (l : list A), Forall P l -> Forall P (firstn n l).
Proof.
  intros A P. induction n as [|n IH]; intros l H; [constructor|].
  destruct l as [|x l]; [constructor|]. inversion H; subst. cbn [firstn]. constructor; [assumption|apply IH; assumption].
Qed.

Lemma encode_tail_conts : forall c, scalar c -> Forall (fun b => 128 <= b <= 191) (tl (utf8_encode c)).
Proof. intros c Hc. destruct (encode_form c Hc); repeat constructor; lia. Qed.

(* A character cut short is removed whole: its first byte cannot start a rune, since DecodeRune
   would return the same rune with the rest of the character appended, and that has the full
   length; the other bytes are continuation bytes. *)
Lemma clean_utf8_cut_rune : forall c n, scalar c -> (n < length (utf8_encode c))%nat ->
  clean_utf8 (firstn n (utf8_encode c)) = [].
Proof.
  intros c [|n] Hc Hn; [reflexivity|].
  assert (Hna : non_ascii (firstn (S n) (utf8_encode c))).
  { apply Forall_firstn_keep, encode_non_ascii; [assumption|].
    destruct (N.lt_ge_cases c 128) as [Hlt|Hge]; [|exact Hge].
    rewrite encode_head_ascii in Hn by assumption. cbn [length] in Hn. lia. }
  etransitivity; [exact (clean_utf8_split [] _ (or_introl eq_refl) Hna)|]. cbn [app]. clear Hna.
  pose proof (decode_encode c [] Hc) as D. pose proof (encode_tail_conts c Hc) as T.
  destruct (utf8_encode c) as [|p l]; [cbn in Hn; lia|]. cbn [firstn tl length] in *.
  rewrite to_valid_drop; [apply to_valid_conts, Forall_firstn_keep, T|].
  destruct (rune_width (p :: firstn n l)) as [|k] eqn:W; [reflexivity|exfalso].
  destruct (rune_width_form _ _ W) as (c' & l' & rest & Hf & Es & _).
  rewrite <- (firstn_skipn n l) in D at 1.
  change (decode_rune (((p :: firstn n l) ++ skipn n l) ++ []) = (c, S (length l))) in D.
  rewrite Es, <- !app_assoc, (decode_form _ _ _ Hf) in D. injection D as _ D.
  apply (f_equal (@length N)) in Es. rewrite app_length in Es. cbn [length] in Es.
  rewrite firstn_length in Es. lia.
Qed.

(* Valid UTF-8 cut after n bytes and cleaned: exactly the whole characters that fit into n bytes *)
Theorem clean_cut_valid_lemma : forall cs n, Forall scalar cs -> (n < length (utf8_encode_all cs))%nat ->
  exists cs1 c cs2,
    cs = cs1 ++ c :: cs2 /\
    clean_utf8 (firstn n (utf8_encode_all cs)) = utf8_encode_all cs1 /\
    (length (utf8_encode_all cs1) <= n < length (utf8_encode_all cs1) + length (utf8_encode c))%nat.
Proof.
  induction cs as [|c cs IH]; intros n Hs Hn; [cbn in Hn; lia|].
  inversion Hs as [|? ? Hc Hcs]; subst. rewrite encode_all_cons in *. rewrite app_length in Hn.
  rewrite firstn_app. destruct (Nat.lt_ge_cases n (length (utf8_encode c))) as [Hlt|Hge].
  - exists [], c, cs. split; [reflexivity|]. split; [|cbn [utf8_encode_all map concat length]; lia].
    replace (n - length (utf8_encode c))%nat with 0%nat by lia. cbn [firstn]. rewrite app_nil_r.
    apply clean_utf8_cut_rune; assumption.
  - destruct (IH (n - length (utf8_encode c))%nat Hcs) as (cs1 & c' & cs2 & E & F & L); [lia|].
    exists (c :: cs1), c', cs2. split; [rewrite E; reflexivity|].
    split; [|rewrite encode_all_cons, app_length; lia].
    rewrite firstn_all2, clean_utf8_encode, F, encode_all_cons by (lia || exact Hc). reflexivity.
Qed.

Lemma encode_all_injective : forall cs cs', Forall scalar cs -> Forall scalar cs' ->
  utf8_encode_all cs = utf8_encode_all cs' -> cs = cs'.
Proof.
  assert (Ne : forall c cs, utf8_encode_all (c :: cs) <> []).
  { intros c cs E. rewrite encode_all_cons in E. pose proof (encode_length c) as L.
    destruct (utf8_encode c); [cbn [length] in L; lia|discriminate E]. }
  induction cs as [|c cs IH]; intros [|c' cs'] H H' E;
    [reflexivity|symmetry in E; destruct (Ne _ _ E)|destruct (Ne _ _ E)|].
  inversion H as [|? ? Hc Hcs]; subst. inversion H' as [|? ? Hc' Hcs']; subst.
  rewrite !encode_all_cons in E.
  pose proof (decode_encode c (utf8_encode_all cs) Hc) as D. rewrite E in D.
  rewrite (decode_encode c' (utf8_encode_all cs') Hc') in D. injection D as -> _.
  apply app_inv_head in E. f_equal. apply IH; assumption.
Qed.
