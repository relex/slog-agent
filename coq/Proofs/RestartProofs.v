(* C06 - queue directories on disk and the restart: the chunks spilled by the pipeline of a key tuple are
   found again by a pipeline of the same key tuple (for the ids the on-disk format can represent). *)
From SV Require Import Model.Common Model.Md5 Model.Routing Proofs.CommonFacts Proofs.MergedKeyProofs
  Proofs.RoutingProofs Proofs.QueueProofs Proofs.TagTemplateProofs.
From Coq Require Import Lia ZifyBool ZifyN ZifyNat.
Open Scope N_scope.

Lemma id_dir_recovery_partial_lemma :
  forall (md5hex : bytes -> bytes), (forall s, length (md5hex s) = 32%nat) ->
  forall ks ks' : list bytes,
    length ks = length ks' -> ks <> ks' -> no_comma ks -> no_comma ks' ->
    pipeline_id ks <> pipeline_id ks' /\
    recover_keys (length ks) (pipeline_id ks) = Some ks /\
    (pipeline_id ks <> [] -> pipeline_id ks' <> [] ->
     (sanitize (pipeline_id ks) = sanitize (pipeline_id ks') ->
      tail8 (md5hex (pipeline_id ks)) <> tail8 (md5hex (pipeline_id ks'))) ->
     queue_dir_name md5hex (pipeline_id ks) <> queue_dir_name md5hex (pipeline_id ks')).
Proof.
  intros md5hex Hmd ks ks' Hl Hne Hc Hc'. split; [|split].
  - intros Heq. apply Hne. apply pipeline_id_injective_no_comma; assumption.
  - apply recover_keys_roundtrip; [|exact Hc]. intros ->. destruct ks'; [apply Hne; reflexivity|discriminate].
  - intros Hi Hi' Hh. apply queue_dir_injective; assumption.
Qed.

Lemma id_collision_comma_witness :
  exists ks ks' : list bytes, length ks = length ks' /\ ks <> ks' /\ pipeline_id ks = pipeline_id ks' /\
    queue_dir_name md5_hex (pipeline_id ks) = queue_dir_name md5_hex (pipeline_id ks').
Proof.
  exists [[97; 44; 98]; [99]], [[97]; [98; 44; 99]].
  split; [reflexivity|]. split; [discriminate|].
  assert (H : pipeline_id [[97; 44; 98]; [99]] = pipeline_id [[97]; [98; 44; 99]]) by reflexivity.
  split; [exact H|]. rewrite H. reflexivity.
Qed.

Lemma perm_bound : forall base umask, base < 4096 -> N.land base (N.lxor umask 511) < 4096.
Proof.
  intros base umask H. change 4096 with (2 ^ 12) in *. rewrite <- (N.mod_small base (2 ^ 12)) by exact H.
  rewrite <- N.land_ones, <- N.land_assoc, (N.land_comm (N.ones 12)), N.land_assoc, N.land_ones.
  apply N.mod_lt. discriminate.
Qed.

(* exactly the ids of the queue directories that have a non-empty id and a chunk: the root's own .id file and the
   chunk files spilled into the root are regular files *)
Lemma root_listing : forall umask root id,
  (forall d, In d (qr_dirs root) -> qd_perm d < 4096) ->
  (In id (list_buffer_ids (root_entries umask root)) <->
   exists d, In d (qr_dirs root) /\ qd_id d = Some id /\ id <> [] /\ qd_chunks d <> []).
Proof.
  intros umask root id Hperm. rewrite list_buffer_ids_spec. unfold root_entries, live_queue. split.
  - intros [e [He [Hdir [Hid [Hne Hch]]]]]. apply in_app_or in He. destruct He as [He|He].
    + apply in_map_iff in He. destruct He as [d [<- Hd]]. cbn [fe_id fe_chunks] in *.
      exists d. repeat split; try assumption. intros E. rewrite E in Hch. inversion Hch.
    + exfalso. assert (Hm : fe_mode e = S_IFREG + N.land 420 (N.lxor umask 511)).
      { apply in_app_or in He. destruct He as [He|He].
        - destruct (qr_id root); [destruct He as [<-|[]]; reflexivity|destruct He].
        - apply in_map_iff in He. destruct He as [r [<- _]]. reflexivity. }
      rewrite Hm, file_mode_any_perm in Hdir by (apply perm_bound; lia). discriminate.
  - intros [d [Hd [Hid [Hne Hch]]]]. eexists. split.
    + apply in_or_app. left. apply in_map_iff. exists d. split; [reflexivity|exact Hd].
    + cbn [fe_mode fe_id fe_chunks]. split; [apply dir_mode_any_perm; exact (Hperm _ Hd)|]. split; [exact Hid|]. split; [exact Hne|].
      destruct (qd_chunks d); [contradiction|cbn; lia].
Qed.

Lemma empty_key_root_dir_witness :
  exists ks : list bytes, ks <> [] /\ queue_dir_name md5_hex (pipeline_id ks) = None /\
    forall umask r, list_buffer_ids
      (root_entries umask (store_chunk (fst (make_queue_dir md5_hex umask qroot_empty (pipeline_id ks))) QRoot r)) = [].
Proof.
  exists [[]]. split; [discriminate|]. split; [reflexivity|].
  intros umask r. destruct (list_buffer_ids _) as [|id l] eqn:E; [reflexivity|exfalso].
  assert (Hin : In id (id :: l)) by (left; reflexivity). rewrite <- E in Hin.
  apply root_listing in Hin; [destruct Hin as [d [Hd _]]; exact Hd|intros d Hd; destruct Hd].
Qed.

Lemma In_dedup : forall l seen x, In x (dedup seen l) <-> In x l /\ ~ In x seen.
Proof.
  induction l as [|y l IH]; intros seen x; cbn [dedup In]; [tauto|].
  assert (Hy : existsb (bytes_eqb y) seen = true <-> In y seen).
  { rewrite existsb_exists. split; [intros [z [Hz E]]; apply bytes_eqb_eq in E; subst; exact Hz|].
    intros H. exists y. split; [exact H|apply bytes_eqb_refl]. }
  destruct (existsb (bytes_eqb y) seen); [rewrite IH|cbn [In]; rewrite IH; cbn [In]];
    destruct (list_eq_dec N.eq_dec y x) as [<-|Hne]; intuition congruence.
Qed.

Lemma In_dedup_iff : forall l x, In x (dedup [] l) <-> In x l.
Proof. intros l x. rewrite In_dedup. cbn. tauto. Qed.

Lemma has_dir_true : forall nm ds, has_dir nm ds = true <-> exists d, In d ds /\ qd_name d = nm.
Proof.
  induction ds as [|d ds IH]; cbn [has_dir].
  - split; [discriminate|intros [d [[] _]]].
  - rewrite orb_true_iff, IH, bytes_eqb_eq. split.
    + intros [H|[d' [Hin Hn]]]; [exists d; split; [left; reflexivity|symmetry; exact H]|exists d'; split; [right; exact Hin|exact Hn]].
    + intros [d' [[<-|Hin] Hn]]; [left; symmetry; exact Hn|right; exists d'; split; assumption].
Qed.

Lemma has_dir_app : forall nm a b, has_dir nm (a ++ b) = (has_dir nm a || has_dir nm b)%bool.
Proof. induction a as [|d a IH]; intros b; cbn [has_dir app]; [reflexivity|]. rewrite IH, orb_assoc. reflexivity. Qed.

Lemma NoDup_map_nth : forall (A B : Type) (f : A -> B) (l : list A),
  (forall i j a b, nth_error l i = Some a -> nth_error l j = Some b -> f a = f b -> i = j) -> NoDup (map f l).
Proof.
  intros A B f l H. apply NoDup_nth_error. intros i j Hi Heq. rewrite map_length in Hi.
  rewrite !nth_error_map in Heq.
  destruct (nth_error l i) as [a|] eqn:Ea; [|apply nth_error_None in Ea; lia].
  destruct (nth_error l j) as [b|] eqn:Eb; [|discriminate].
  cbn in Heq. inversion Heq. eapply H; eassumption.
Qed.

Section Restart.
  Variable md5hex : bytes -> bytes.
  Hypothesis md5hex_len : forall s, length (md5hex s) = 32%nat.

  Definition dir_of (id : bytes) : bytes := sanitize id ++ [46] ++ tail8 (md5hex id).

  Lemma dir_of_length : forall id, length (dir_of id) = (length id + 9)%nat.
  Proof. intros id. unfold dir_of. rewrite !app_length, sanitize_length, (tail8_length md5hex md5hex_len). cbn. lia. Qed.

  Definition mk_dir (umask : N) (p : pipeline) : qdir :=
    {| qd_name := dir_of (p_id p); qd_perm := N.land 493 (N.lxor umask 511); qd_id := Some (p_id p); qd_chunks := [] |}.

  Definition dir_ok (p : pipeline) : Prop := p_id p <> [] /\ (length (dir_of (p_id p)) <= NAME_MAX)%nat.

  Lemma make_queue_dir_fresh : forall umask root p,
    dir_ok p -> has_dir (dir_of (p_id p)) (qr_dirs root) = false ->
    make_queue_dir md5hex umask root (p_id p) =
      ({| qr_id := qr_id root; qr_chunks := qr_chunks root; qr_dirs := qr_dirs root ++ [mk_dir umask p] |},
       QSub (dir_of (p_id p))).
  Proof.
    intros umask root p [Hid Hlen] Hfresh. unfold make_queue_dir.
    rewrite (queue_dir_name_some md5hex _ Hid). fold (dir_of (p_id p)).
    replace (Nat.ltb NAME_MAX (length (dir_of (p_id p)))) with false by (symmetry; apply Nat.ltb_ge; exact Hlen).
    rewrite Hfresh. reflexivity.
  Qed.

  Lemma make_dirs_fresh : forall umask ps root,
    Forall dir_ok ps ->
    NoDup (map (fun p => dir_of (p_id p)) ps) ->
    (forall p, In p ps -> has_dir (dir_of (p_id p)) (qr_dirs root) = false) ->
    make_dirs md5hex umask root ps =
      ({| qr_id := qr_id root; qr_chunks := qr_chunks root; qr_dirs := qr_dirs root ++ map (mk_dir umask) ps |},
       map (fun p => QSub (dir_of (p_id p))) ps).
  Proof.
    induction ps as [|p ps IH]; intros root Hok Hnd Hfresh; cbn [make_dirs map].
    - rewrite app_nil_r. destruct root; reflexivity.
    - inversion Hok as [|? ? Hp Hps]; subst. inversion Hnd as [|? ? Hnotin Hnd']; subst.
      rewrite (make_queue_dir_fresh umask root p Hp (Hfresh p (or_introl eq_refl))).
      rewrite IH; [|exact Hps|exact Hnd'|].
      + cbn [qr_id qr_chunks qr_dirs]. rewrite <- app_assoc. reflexivity.
      + intros q Hq. cbn [qr_dirs]. rewrite has_dir_app, (Hfresh q (or_intror Hq)). cbn [has_dir orb].
        rewrite orb_false_r. destruct (bytes_eqb (dir_of (p_id q)) (qd_name (mk_dir umask p))) eqn:E; [|reflexivity].
        apply bytes_eqb_eq in E. cbn [mk_dir qd_name] in E. exfalso. apply Hnotin. rewrite <- E.
        apply in_map with (f := fun p => dir_of (p_id p)). exact Hq.
  Qed.

  (* storing chunks keeps names, ids and modes; chunk lists only grow *)
  Definition dir_le (d d' : qdir) : Prop :=
    qd_name d = qd_name d' /\ qd_id d = qd_id d' /\ qd_perm d = qd_perm d' /\ incl (qd_chunks d) (qd_chunks d').

  Definition dirs_le (ds ds' : list qdir) : Prop := Forall2 dir_le ds ds'.

  Lemma dir_le_refl : forall d, dir_le d d.
  Proof. intros d. repeat split. apply incl_refl. Qed.

  Lemma dirs_le_refl : forall ds, dirs_le ds ds.
  Proof. induction ds; constructor; [apply dir_le_refl|assumption]. Qed.

  Lemma dirs_le_trans : forall a b c, dirs_le a b -> dirs_le b c -> dirs_le a c.
  Proof.
    intros a b c H. revert c. induction H as [|x y a b Hxy _ IH]; intros c Hbc; inversion Hbc as [|? z ? c' Hyz Hbc']; subst; constructor.
    - destruct Hxy as [H1 [H2 [H3 H4]]]. destruct Hyz as [G1 [G2 [G3 G4]]].
      repeat split; try congruence. eapply incl_tran; eassumption.
    - apply IH. exact Hbc'.
  Qed.

  Lemma store_chunk_spec : forall root ref r,
    dirs_le (qr_dirs root) (qr_dirs (store_chunk root ref r)) /\
    (forall name, ref = QSub name -> has_dir name (qr_dirs root) = true ->
       exists d, In d (qr_dirs (store_chunk root ref r)) /\ qd_name d = name /\ In r (qd_chunks d)).
  Proof.
    intros root [|name|] r; cbn [store_chunk qr_dirs]; try (split; [apply dirs_le_refl|discriminate]).
    induction (qr_dirs root) as [|d ds [IH1 IH2]]; cbn [upd_dir has_dir]; [split; [constructor|discriminate]|].
    destruct (bytes_eqb name (qd_name d)) eqn:E; cbn [orb]; split.
    - constructor; [|apply dirs_le_refl]. repeat split. cbn. apply incl_appl. apply incl_refl.
    - intros name' [= <-] _. apply bytes_eqb_eq in E. eexists. split; [left; reflexivity|]. cbn.
      split; [symmetry; exact E|apply in_or_app; right; left; reflexivity].
    - constructor; [apply dir_le_refl|exact IH1].
    - intros name' [= <-] H. rewrite E in H. destruct (IH2 name eq_refl H) as [d' [H1 H2]]. exists d'. split; [right; exact H1|exact H2].
  Qed.

  Lemma dirs_le_has_dir : forall ds ds' name, dirs_le ds ds' -> has_dir name ds = true -> has_dir name ds' = true.
  Proof.
    intros ds ds' name Hle H. apply has_dir_true in H. destruct H as [d [Hin Hn]].
    destruct (Forall2_In_l _ _ _ _ _ _ Hle Hin) as [d' [Hin' [Hn' _]]]. apply has_dir_true. exists d'. split; [exact Hin'|congruence].
  Qed.

  Lemma store_chunks_spec : forall where_ root refs r0,
    dirs_le (qr_dirs root) (qr_dirs (store_chunks root refs where_ r0)) /\
    (forall k i name, nth_error where_ k = Some i -> nth i refs QNone = QSub name -> has_dir name (qr_dirs root) = true ->
       exists d, In d (qr_dirs (store_chunks root refs where_ r0)) /\ qd_name d = name /\ In (r0 + k)%nat (qd_chunks d)).
  Proof.
    induction where_ as [|pi rest IH]; intros root refs r0; cbn [store_chunks].
    - split; [apply dirs_le_refl|]. intros [|k] i name H; discriminate.
    - destruct (store_chunk_spec root (nth pi refs QNone) r0) as [S1 S2].
      destruct (IH (store_chunk root (nth pi refs QNone) r0) refs (S r0)) as [I1 I2].
      split; [eapply dirs_le_trans; eassumption|].
      intros [|k] i name Hk Hi Hd; cbn [nth_error] in Hk.
      + inversion Hk; subst i. destruct (S2 name Hi Hd) as [d [Hin [Hn Hr]]].
        destruct (Forall2_In_l _ _ _ _ _ _ I1 Hin) as [d' [Hin' [Hn' [_ [_ Hc]]]]].
        exists d'. split; [exact Hin'|]. split; [congruence|]. rewrite Nat.add_0_r. apply Hc. exact Hr.
      + destruct (I2 k i name Hk Hi (dirs_le_has_dir _ _ _ S1 Hd)) as [d [Hin [Hn Hr]]].
        exists d. split; [exact Hin|]. split; [exact Hn|]. replace (r0 + S k)%nat with (S r0 + k)%nat by lia. exact Hr.
  Qed.

  (* The root after the pipelines made their directories and the chunks were spilled, and what the restart lists
     then: ids of pipelines; the chunk of a record is in the directory of the pipeline it was routed to, and that
     pipeline's id is listed. *)
  Lemma spill_spec : forall umask ps is root0 refs,
    Forall dir_ok ps -> NoDup (map (fun p => dir_of (p_id p)) ps) ->
    make_dirs md5hex umask qroot_empty ps = (root0, refs) ->
    let root := store_chunks root0 refs is O in
    let ids := dedup [] (list_buffer_ids (root_entries umask root)) in
    (forall id, In id ids -> exists q, In q ps /\ id = p_id q) /\
    (forall r i p, nth_error is r = Some i -> nth_error ps i = Some p ->
       In (p_id p) ids /\ exists d, In d (qr_dirs root) /\ qd_name d = dir_of (p_id p) /\ In r (qd_chunks d)).
  Proof.
    intros umask ps is root0 refs Hok Hnd Hdirs root ids.
    rewrite make_dirs_fresh in Hdirs; [|exact Hok|exact Hnd|intros p _; reflexivity].
    inversion Hdirs; subst root0 refs; clear Hdirs.
    destruct (store_chunks_spec is {| qr_id := None; qr_chunks := []; qr_dirs := map (mk_dir umask) ps |}
                (map (fun p => QSub (dir_of (p_id p))) ps) O) as [Hle Hch].
    fold root in Hle, Hch. cbn [qr_dirs] in Hle, Hch.
    (* every directory is the one some pipeline made, with chunks added *)
    assert (Hmade : forall d, In d (qr_dirs root) -> exists q, In q ps /\ dir_le (mk_dir umask q) d).
    { intros d Hd. destruct (Forall2_In_r _ _ _ _ _ _ Hle Hd) as [d0 [Hd0 Hle0]].
      apply in_map_iff in Hd0. destruct Hd0 as [q [<- Hq]]. eauto. }
    assert (Hlist : forall id, In id ids <-> exists d, In d (qr_dirs root) /\ qd_id d = Some id /\ id <> [] /\ qd_chunks d <> []).
    { intros id. unfold ids. rewrite In_dedup_iff. apply root_listing.
      intros d Hd. destruct (Hmade d Hd) as [q [_ [_ [_ [<- _]]]]]. apply perm_bound. lia. }
    split.
    - intros id Hid. apply Hlist in Hid. destruct Hid as [d [Hd [Hid _]]].
      destruct (Hmade d Hd) as [q [Hq [_ [Hidq _]]]]. exists q. cbn [mk_dir qd_id] in Hidq. split; [exact Hq|congruence].
    - intros r i p Hi Hp. pose proof (nth_error_In _ _ Hp) as Hin. destruct (Hch r i (dir_of (p_id p)) Hi) as [d [Hd [Hn Hr]]].
      + erewrite nth_error_nth; [reflexivity|]. rewrite nth_error_map, Hp. reflexivity.
      + apply has_dir_true. exists (mk_dir umask p). split; [apply in_map; exact Hin|reflexivity].
      + split; [|eauto]. apply Hlist. exists d. rewrite Forall_forall in Hok.
        repeat split; [exact Hd| |exact (proj1 (Hok p Hin))|intros E; rewrite E in Hr; destruct Hr].
        (* the directory found under the name of p's is p's, names being distinct *)
        destruct (Hmade d Hd) as [q [Hq [Hn0 [<- _]]]]. cbn [mk_dir qd_name qd_id] in *.
        rewrite (NoDup_map_inj (fun p => dir_of (p_id p)) _ _ _ Hnd Hq Hin); [reflexivity|congruence].
  Qed.

  (* what the on-disk format can represent: arity n, no "," in a value, non-empty id, directory name within NAME_MAX *)
  Definition storable (n : nat) (ks : list bytes) : Prop :=
    length ks = n /\ no_comma ks /\ pipeline_id ks <> [] /\ (length (pipeline_id ks) + 9 <= NAME_MAX)%nat.

  Lemma restart_reattaches_lemma :
    forall parts n umask nsinks ops g lms is root0 refs root g2,
      Forall (fun o => storable n (snd o)) ops ->
      (forall o o', In o ops -> In o' ops -> snd o <> snd o' ->
         sanitize (pipeline_id (snd o)) = sanitize (pipeline_id (snd o')) ->
         tail8 (md5hex (pipeline_id (snd o))) <> tail8 (md5hex (pipeline_id (snd o')))) ->
      run_ops parts g_init (repeat [] nsinks) ops = Ok (g, lms, is) ->
      make_dirs md5hex umask qroot_empty (g_pipes g) = (root0, refs) ->
      store_chunks root0 refs is O = root ->
      orch_init parts n (dedup [] (list_buffer_ids (root_entries umask root))) = Ok g2 ->
      forall r o, nth_error ops r = Some o ->
        exists d p i, In d (qr_dirs root) /\ In r (qd_chunks d) /\
                      nth_error (g_pipes g2) i = Some p /\ p_keys p = snd o /\
                      build_tag parts (snd o) = Ok (p_tag p) /\
                      queue_dir_name md5hex (p_id p) = Some (qd_name d) /\
                      (forall p', In p' (g_pipes g2) -> queue_dir_name md5hex (p_id p') = Some (qd_name d) -> p_keys p' = snd o).
  Proof.
    intros parts n umask nsinks ops g lms is root0 refs root g2 Hrecs Hmd5 Hrun Hdirs <- Hinit r [si ks] Hr.
    cbn [snd]. rewrite Forall_forall in Hrecs.
    destruct (run_ops_spec _ _ _ _ _ _ _ (inv_init parts nsinks) Hrun) as [[[_ Hpok Hcomp] _] [Hgr Hall]].
    (* every pipeline of the run was made for the tuple of a record, and its id is made from that tuple *)
    assert (Hrec_of : forall p, In p (g_pipes g) -> exists o, In o ops /\ snd o = p_keys p /\ p_id p = pipeline_id (snd o)).
    { intros p Hp. destruct (grown_In _ _ _ _ Hgr Hp) as [[]|[o [Ho Hk]]]. destruct (In_nth_error _ _ Hp) as [i Hi].
      exists o. rewrite Hk. repeat split; [exact Ho|apply (Hpok _ _ Hi)]. }
    (* equal directory names => equal key tuples, for tuples of the run *)
    assert (Hdirinj : forall o o', In o ops -> In o' ops ->
              dir_of (pipeline_id (snd o)) = dir_of (pipeline_id (snd o')) -> snd o = snd o').
    { intros o o' Ho Ho' Heq. destruct (list_eq_dec (list_eq_dec N.eq_dec) (snd o) (snd o')) as [E|E]; [exact E|exfalso].
      destruct (dir_name_eq md5hex md5hex_len _ _ Heq) as [Hs Ht]. exact (Hmd5 _ _ Ho Ho' E Hs Ht). }
    assert (Hok : Forall dir_ok (g_pipes g)).
    { apply Forall_forall. intros p Hp. destruct (Hrec_of p Hp) as [o [Ho [_ Hid]]].
      destruct (Hrecs _ Ho) as [_ [_ [Hne Hlen]]]. unfold dir_ok. rewrite dir_of_length, Hid. auto. }
    assert (Hnd : NoDup (map (fun p => dir_of (p_id p)) (g_pipes g))).
    { apply NoDup_map_nth. intros i j a b Hi Hj Heq. apply (complete_unique _ _ _ _ _ Hcomp Hi Hj).
      destruct (Hrec_of a (nth_error_In _ _ Hi)) as [oa [Hoa [<- Hida]]].
      destruct (Hrec_of b (nth_error_In _ _ Hj)) as [ob [Hob [<- Hidb]]].
      rewrite Hida, Hidb in Heq. exact (Hdirinj _ _ Hoa Hob Heq). }
    destruct (spill_spec umask _ is _ _ Hok Hnd Hdirs) as [Hids Hchunk].
    (* record r was routed to a pipeline p for ks; its chunk lies in p's directory, and p's id is listed *)
    destruct (Forall2_nth_error_l _ _ _ _ _ _ _ Hall Hr) as [i [Hi [p [Hp [_ [Hpid _]]]]]]. cbn [snd] in *.
    pose proof (nth_error_In _ _ Hr) as Hin_o. destruct (Hrecs _ Hin_o) as [Hlen [Hnc [Hne _]]]. cbn [snd] in *.
    destruct (Hchunk r i p Hi Hp) as [Hlisted [d [Hd [Hdn Hdr]]]]. rewrite Hpid in Hdn, Hlisted.
    (* the listed id splits back into ks, and the restart makes a pipeline for ks *)
    destruct (orch_init_spec _ _ _ _ Hinit) as [[_ Hpok2 _] [Hgr2 Hrec2]].
    destruct (Hrec2 (pipeline_id ks) ks Hlisted) as [i2 [p2 [Hp2 [Hk2 [Hid2 [Htag2 _]]]]]].
    { rewrite <- Hlen. apply recover_keys_roundtrip; [|exact Hnc]. intros ->. apply Hne. reflexivity. }
    exists d, p2, i2. repeat split; try assumption; [rewrite Hid2, (queue_dir_name_some md5hex _ Hne), Hdn; reflexivity|].
    (* exclusivity: a recovered pipeline was made for the tuple that a listed id splits into; that id is the id of a
       tuple of the run, so it splits into exactly that tuple, whose directory name is that of ks only if it is ks *)
    intros p' Hp' Hattach.
    destruct (grown_In _ _ _ _ Hgr2 Hp') as [[]|[id [Hid_in Hid_rk]]].
    destruct (Hids id Hid_in) as [q [Hq ->]]. destruct (Hrec_of q Hq) as [o' [Ho' [_ Hido']]]. rewrite Hido' in Hid_rk.
    destruct (Hrecs _ Ho') as [Hlen' [_ [Hne' _]]]. rewrite <- Hlen' in Hid_rk. apply recover_keys_never_foreign in Hid_rk.
    rewrite Hid_rk. apply (Hdirinj o' (si, ks) Ho' Hin_o). cbn [snd].
    destruct (In_nth_error _ _ Hp') as [i' Hi'].
    rewrite (proj1 (Hpok2 _ _ Hi')), Hid_rk, (queue_dir_name_some md5hex _ Hne') in Hattach.
    inversion Hattach as [E]. rewrite <- Hdn, <- E. reflexivity.
  Qed.
End Restart.

Definition ex_names : list bytes := [[107; 48]; [107; 49]].                      (* k0, k1 *)
Definition ex_tmpl : bytes := [36; 107; 48; 45; 36; 107; 49].                     (* $k0-$k1 *)
Definition ex_abc : list bytes := [[97; 98]; [99]].                               (* ("ab","c") *)
Definition ex_a_bc : list bytes := [[97]; [98; 99]].                              (* ("a","bc") *)

Definition example_statement : Prop :=
  exists parts g lms root0 refs g2,
    parse_template ex_names ex_tmpl = Some parts /\
    merged_key ex_abc <> merged_key ex_a_bc /\
    run_ops parts g_init [[]; []] [(0%nat, ex_abc); (1%nat, ex_a_bc); (1%nat, ex_abc)] = Ok (g, lms, [0; 1; 0]%nat) /\
    map p_id (g_pipes g) = [[97; 98; 44; 99]; [97; 44; 98; 99]] /\
    map p_tag (g_pipes g) = [[97; 98; 45; 99]; [97; 45; 98; 99]] /\
    make_dirs md5_hex 18 qroot_empty (g_pipes g) = (root0, refs) /\
    map qd_name (qr_dirs root0) = [[97; 98; 44; 99; 46; 51; 54; 53; 52; 102; 49; 53; 99];      (* ab,c.3654f15c *)
                                   [97; 44; 98; 99; 46; 97; 52; 100; 57; 56; 54; 53; 100]] /\   (* a,bc.a4d9865d *)
    orch_init parts 2 (dedup [] (list_buffer_ids (root_entries 18 (store_chunks root0 refs [0; 1; 0]%nat O)))) = Ok g2 /\
    map p_keys (g_pipes g2) = [ex_a_bc; ex_abc].

Lemma example_proof : example_statement.
Proof.
  unfold example_statement.
  eexists. eexists. eexists. eexists. eexists. eexists.
  split; [vm_compute; reflexivity|].
  split; [vm_compute; discriminate|].
  split; [vm_compute; reflexivity|].
  split; [vm_compute; reflexivity|].
  split; [vm_compute; reflexivity|].
  split; [vm_compute; reflexivity|].
  split; [vm_compute; reflexivity|].
  split; [vm_compute; reflexivity|].
  vm_compute; reflexivity.
Qed.
