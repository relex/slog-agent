(* C15: extractLabelAtStart / extractLabelAtEnd against head_match / tail_match.  The head extractor is
   treated directly; the tail extractor is the head extractor on reversed strings (extract_at_end_mirror,
   tail_head_match / head_tail_match), and its results are carried over. *)
From SV Require Import Model.Common Model.TfUnescape Model.Extractor Spec.TransformsSpec
     Proofs.CommonFacts Proofs.TfStringFacts.
From Coq Require Import Lia ZifyBool ZifyN ZifyNat.
Ltac Zify.zify_post_hook ::= Z.div_mod_to_equations.
Open Scope N_scope.

Lemma window_eq : forall (s : bytes) maxr, (0 <= maxr)%Z ->
  (if (Z.of_nat (length s) >? maxr)%Z then firstn (Z.to_nat maxr) s else s) = firstn (Z.to_nat maxr) s.
Proof.
  intros s maxr H. destruct (Z.of_nat (length s) >? maxr)%Z eqn:E; [reflexivity|].
  symmetry. apply firstn_all2. lia.
Qed.

Lemma within_iff : forall (s : bytes) maxr i (n : nat), (0 <= maxr)%Z -> (i + n <= length s)%nat ->
  ((i + n <= Z.to_nat maxr)%nat <-> (Z.of_nat (i + n) <= maxr \/ Z.of_nat (length s) <= maxr)%Z).
Proof. intros. lia. Qed.

Lemma table_rejects_edge : forall t c, table_rejects t c = false <-> edge_ok t c.
Proof. intros [tb|] [c|]; cbn; try tauto. destruct (tb c); cbn; intuition congruence. Qed.

(* an occurrence at offset i splits the haystack there *)
Lemma occurrence_split : forall (n s : bytes) i, (exists b, s = firstn i s ++ n ++ b) -> (i + length n <= length s)%nat ->
  s = firstn i s ++ n ++ skipn (i + length n) s.
Proof.
  intros n s i (b & Hb) Hl. rewrite Hb at 1. do 2 f_equal. rewrite Hb at 1.
  rewrite skipn_app, skipn_all2 by (rewrite firstn_length; lia).
  rewrite firstn_length. replace (i + length n - Nat.min i (length s))%nat with (length n) by lia.
  rewrite skipn_length_app. reflexivity.
Qed.

Lemma hd_error_app_cons : forall (a : bytes) c b, hd_error (a ++ c :: b) = hd_error (a ++ [c]).
Proof. intros a c b. destruct a; reflexivity. Qed.

Lemma head_match_text : forall l r maxr t text lab rest, head_match l r maxr t text lab rest ->
  text = l ++ lab ++ r ++ rest /\ edge_ok t (hd_error (lab ++ r ++ rest)).
Proof.
  intros l r maxr t text lab rest H. destruct H as [lab rest _ Ht _ _ _ He|tb lab rest -> -> Ht Hne Hall _]; [tauto|].
  split; [exact Ht|]. destruct Hall; [congruence|assumption].
Qed.

Lemma extract_head_sound : forall l r maxr t text lab rest, (0 <= maxr)%Z ->
  head_match l r maxr t text lab rest ->
  extract_at_start text l r maxr t = Ok (trim_ref lab, rest).
Proof.
  intros l r maxr t text lab rest Hmax H. unfold extract_at_start.
  destruct (head_match_text _ _ _ _ _ _ _ H) as [Htx _].
  assert (Hpre : (match l with [] => true | _ => is_prefix l text end) = true).
  { destruct l; [reflexivity|]. rewrite Htx. apply is_prefix_app. }
  rewrite Hpre. cbn [negb].
  assert (Hs : skipn (length l) text = lab ++ r ++ rest) by (rewrite Htx; apply skipn_length_app).
  rewrite Hs. clear Htx Hpre Hs.
  destruct H as [lab rest Hr Htext Hfirst Hwithin Hallow Hedge | tb lab rest Hr Ht Htext Hne Hall Hstop].
  - set (s := lab ++ r ++ rest) in *.
    rewrite (proj2 (table_rejects_edge _ _) Hedge). destruct r as [|r0 r']; [congruence|].
    destruct (maxr <? 0)%Z eqn:Em; [lia|].
    rewrite window_eq by assumption.
    assert (Hidx : index_of (r0 :: r') (firstn (Z.to_nat maxr) s) = Some (length lab)).
    { apply index_of_iff, first_occurrence_firstn. split; [assumption|].
      apply (within_iff s maxr); [assumption| |assumption]. unfold s. rewrite !app_length. lia. }
    rewrite Hidx. cbv zeta.
    assert (Htag : firstn (length lab) s = lab) by (apply firstn_length_app).
    rewrite Htag.
    assert (Hfin : (lbl <-- trim_blank lab;; Ok (lbl, skipn (length lab + length (r0 :: r')) s)) = Ok (trim_ref lab, rest)).
    { rewrite trim_blank_spec. cbn [obind]. do 2 f_equal.
      unfold s. rewrite skipn_app. rewrite skipn_all2 by lia.
      replace (length lab + length (r0 :: r') - length lab)%nat with (length (r0 :: r')) by lia.
      rewrite skipn_length_app. reflexivity. }
    destruct t as [tb|]; [|exact Hfin].
    cbn in Hallow. apply count_while_all in Hallow. rewrite Hallow, Nat.eqb_refl. cbn [negb]. exact Hfin.
  - subst r t. cbn [app].
    destruct lab as [|c lab']; [congruence|]. inversion Hall as [|? ? Hc Hall']; subst.
    cbn [app hd_error table_rejects]. rewrite Hc. cbn [negb match_valid_from_start obind].
    change (c :: lab' ++ rest) with ((c :: lab') ++ rest).
    rewrite (count_while_stop_at tb (c :: lab') rest Hall Hstop).
    cbn [length]. rewrite firstn_app. cbn [length]. rewrite Nat.sub_diag, firstn_O, app_nil_r.
    change (S (length lab')) with (length (c :: lab')). rewrite firstn_all.
    rewrite trim_blank_spec. cbn [obind]. do 2 f_equal.
    rewrite skipn_length_app. reflexivity.
Qed.

Lemma prefix_split : forall l text, (match l with [] => true | _ => is_prefix l text end) = true ->
  text = l ++ skipn (length l) text.
Proof.
  intros l text H. destruct l as [|a l']; [reflexivity|].
  apply is_prefix_iff in H. destruct H as [x ->]. rewrite skipn_length_app. reflexivity.
Qed.

Lemma extract_head_cases : forall l r maxr t text, (0 <= maxr)%Z -> (r <> [] \/ t <> None) ->
  (exists lab rest, head_match l r maxr t text lab rest) \/
  ((forall lab rest, ~ head_match l r maxr t text lab rest) /\
   extract_at_start text l r maxr t = Ok ([], text)).
Proof.
  intros l r maxr t text Hmax Hrt. unfold extract_at_start.
  destruct (match l with [] => true | _ => is_prefix l text end) eqn:Hpre; cbn [negb].
  2:{ right. split; [|reflexivity]. intros lab rest H.
      assert (Htext : exists x, text = l ++ x) by (destruct H; eexists; eassumption).
      destruct l as [|a l']; [discriminate|]. apply is_prefix_iff in Htext. congruence. }
  pose proof (prefix_split l text Hpre) as Htext. set (s := skipn (length l) text) in *.
  assert (Hs : forall x, text = l ++ x -> x = s) by (intros x Hx; rewrite Htext in Hx; apply app_inv_head in Hx; congruence).
  clearbody s.
  destruct (table_rejects t (hd_error s)) eqn:Hrej.
  { right. split; [|reflexivity]. intros lab rest H. destruct (head_match_text _ _ _ _ _ _ _ H) as [Ht He].
    apply Hs in Ht. rewrite Ht in He. apply table_rejects_edge in He. congruence. }
  destruct r as [|r0 r'].
  - (* no right boundary: the longest run of class bytes *)
    destruct t as [tb|]; [|destruct Hrt; congruence].
    cbn [match_valid_from_start obind].
    destruct (count_while tb s) as [|n] eqn:En.
    + right. split; [|reflexivity]. intros lab rest H.
      destruct H as [lab rest Hr Ht Hfirst Hwithin Hallow Hedge | tb' lab rest Hr Ht' Ht Hne Hall Hstop]; [congruence|].
      inversion Ht'; subst tb'. apply Hs in Ht. rewrite <- Ht in En.
      rewrite count_while_app in En by assumption. destruct lab; [congruence|cbn in En; lia].
    + left. exists (firstn (S n) s), (skipn (S n) s).
      apply (HM_open l [] maxr (Some tb) text tb); try reflexivity.
      * rewrite firstn_skipn. exact Htext.
      * intro Hc. apply (f_equal (@length N)) in Hc. rewrite firstn_length in Hc.
        pose proof (count_while_le tb s). cbn [length] in Hc. lia.
      * rewrite <- En. apply count_while_prefix.
      * rewrite <- En. apply count_while_stop.
  - (* right boundary *)
    destruct (maxr <? 0)%Z eqn:Em; [lia|]. rewrite window_eq by assumption.
    destruct (index_of (r0 :: r') (firstn (Z.to_nat maxr) s)) as [iend|] eqn:Eidx.
    2:{ right. split; [|reflexivity]. intros lab rest H.
        destruct H as [lab rest Hr Ht Hfirst Hwithin Hallow Hedge | tb' lab rest Hr Ht' Ht Hne Hall Hstop]; [|congruence].
        apply Hs in Ht. rewrite Ht in *.
        assert (Hin : first_occurrence (r0 :: r') (firstn (Z.to_nat maxr) s) (length lab)).
        { apply first_occurrence_firstn. split; [assumption|].
          apply (within_iff s maxr); [assumption| |assumption]. rewrite <- Ht, !app_length. lia. }
        apply index_of_iff in Hin. congruence. }
    apply index_of_iff, first_occurrence_firstn in Eidx. destruct Eidx as [Hfirst Hin].
    assert (Hlen : (iend + length (r0 :: r') <= length s)%nat) by (destruct Hfirst as (_ & Hl & _); exact Hl).
    cbv zeta.
    pose proof (occurrence_split _ _ _ (proj1 Hfirst) Hlen) as Hdecomp.
    assert (Hli : length (firstn iend s) = iend) by (rewrite firstn_length; lia).
    assert (Hcases : (exists tb, t = Some tb /\ count_while tb (firstn iend s) <> length (firstn iend s)) \/
                     allowed t (firstn iend s)).
    { destruct t as [tb|]; [|right; exact I].
      destruct (Nat.eq_dec (count_while tb (firstn iend s)) (length (firstn iend s))) as [E|E].
      - right. cbn. apply count_while_all. assumption.
      - left. exists tb. split; [reflexivity|assumption]. }
    destruct Hcases as [(tb & -> & Hbad)|Hallow].
    + right. split.
      * intros lab rest H.
        destruct H as [lab rest Hr Ht Hf' Hwithin Hallow Hedge | tb' lab rest Hr Ht' Ht Hne Hall Hstop]; [|congruence].
        apply Hs in Ht. rewrite Ht in Hf'.
        pose proof (first_occurrence_unique _ _ _ _ Hfirst Hf') as Hi. subst iend.
        assert (Hlab : firstn (length lab) s = lab) by (rewrite <- Ht; apply firstn_length_app).
        rewrite Hlab in Hbad. cbn in Hallow. apply count_while_all in Hallow. congruence.
      * apply Nat.eqb_neq in Hbad. rewrite Hbad. reflexivity.
    + left. exists (firstn iend s), (skipn (iend + length (r0 :: r')) s).
      apply HM_bounded; [discriminate| | | | |].
      * rewrite <- Hdecomp. exact Htext.
      * rewrite <- Hdecomp, Hli. exact Hfirst.
      * rewrite <- Hdecomp, Hli. apply (within_iff s maxr); assumption.
      * exact Hallow.
      * rewrite <- Hdecomp. apply table_rejects_edge. exact Hrej.
Qed.

(* the full characterisation: a match exists -> it is unique and is the result; none -> ("", text) *)
Lemma extract_head_spec : forall l r maxr t text, (0 <= maxr)%Z -> (r <> [] \/ t <> None) ->
  (exists lab rest, head_match l r maxr t text lab rest /\
                    extract_at_start text l r maxr t = Ok (trim_ref lab, rest)) \/
  ((forall lab rest, ~ head_match l r maxr t text lab rest) /\
   extract_at_start text l r maxr t = Ok ([], text)).
Proof.
  intros l r maxr t text Hmax Hrt.
  destruct (extract_head_cases l r maxr t text Hmax Hrt) as [(lab & rest & H)|H]; [left|right; assumption].
  exists lab, rest. split; [assumption|]. apply extract_head_sound; assumption.
Qed.

(* the boundary exactly at the edge of the search range: still found ... *)
Lemma extract_head_edge_in : forall l lab r rest t, r <> [] ->
  first_occurrence r (lab ++ r ++ rest) (length lab) -> allowed t lab ->
  edge_ok t (hd_error (lab ++ r ++ rest)) ->
  extract_at_start (l ++ lab ++ r ++ rest) l r (Z.of_nat (length lab + length r)) t = Ok (trim_ref lab, rest).
Proof.
  intros l lab r rest t Hr Hf Ha He. apply extract_head_sound; [lia|].
  apply HM_bounded; try assumption; try reflexivity. left. lia.
Qed.

(* ... one byte further and it is not *)
Lemma extract_head_edge_out : forall l lab r rest t maxr, r <> [] ->
  first_occurrence r (lab ++ r ++ rest) (length lab) ->
  (0 <= maxr)%Z -> maxr = (Z.of_nat (length lab + length r) - 1)%Z ->
  extract_at_start (l ++ lab ++ r ++ rest) l r maxr t = Ok ([], l ++ lab ++ r ++ rest).
Proof.
  intros l lab r rest t maxr Hr Hf Hmax Hm.
  destruct (extract_head_spec l r maxr t (l ++ lab ++ r ++ rest) Hmax (or_introl Hr)) as [(lab' & rest' & H & _)|[_ H]]; [|assumption].
  exfalso. destruct H as [lab' rest' _ Ht Hf' Hw _ _ | tb lab' rest' Hr' _ _ _ _ _]; [|congruence].
  apply app_inv_head in Ht. rewrite <- Ht in Hf', Hw.
  pose proof (first_occurrence_unique _ _ _ _ Hf Hf') as Hi. rewrite !app_length in Hw. lia.
Qed.

(* extractLabelAtEnd is extractLabelAtStart read backwards: boundaries swapped, every string reversed *)
Definition rev_result (o : outcome (bytes * bytes)) : outcome (bytes * bytes) :=
  match o with Ok (lab, rest) => Ok (rev lab, rev rest) | Err e => Err e | Panic p => Panic p end.

Lemma trim_result_rev : forall tag rest,
  rev_result (lbl <-- trim_blank (rev tag) ;; Ok (lbl, rev rest)) = (lbl <-- trim_blank tag ;; Ok (lbl, rest)).
Proof. intros. rewrite !trim_blank_spec. cbn [obind rev_result]. rewrite trim_ref_rev, !rev_involutive. reflexivity. Qed.

Lemma extract_at_end_mirror : forall text l r maxr t,
  extract_at_end text l r maxr t = rev_result (extract_at_start (rev text) (rev r) (rev l) maxr t).
Proof.
  intros text l r maxr t. unfold extract_at_end, extract_at_start. cbv zeta.
  rewrite !match_rev, is_prefix_rev, skipn_rev, !rev_length.
  set (s := firstn (length text - length r) text). clearbody s.
  assert (Hfail : Ok ([], text) = rev_result (Ok ([], rev text))) by (cbn; rewrite rev_involutive; reflexivity).
  rewrite Hfail.
  destruct (match r with [] => true | _ => is_suffix r text end); cbn [negb]; [|reflexivity].
  destruct (table_rejects t (hd_error (rev s))); [reflexivity|].
  destruct l as [|l0 l'].
  - (* the run of class bytes at the end of s is the run at the start of rev s *)
    destruct t as [tb|]; cbn [match_valid_from_end match_valid_from_start obind].
    2:{ rewrite match_rev. destruct s; reflexivity. }
    pose proof (count_while_le tb (rev s)) as Hk. rewrite rev_length in Hk.
    destruct (count_while tb (rev s)) as [|k].
    + rewrite Nat.sub_0_r, Nat.eqb_refl. reflexivity.
    + replace (length s - S k =? length s)%nat with false by lia.
      rewrite firstn_rev, skipn_rev. symmetry. apply trim_result_rev.
  - (* the last maxr bytes of s, reversed, are the first maxr bytes of rev s *)
    destruct (maxr <? 0)%Z; [reflexivity|].
    set (off := if (Z.of_nat (length s) >? maxr)%Z then (length s - Z.to_nat maxr)%nat else O).
    assert (Hoff : (off <= length s)%nat) by (unfold off; destruct (Z.of_nat (length s) >? maxr)%Z; lia).
    replace (if (Z.of_nat (length s) >? maxr)%Z then firstn (Z.to_nat maxr) (rev s) else rev s) with (rev (skipn off s))
      by (unfold off; destruct (Z.of_nat (length s) >? maxr)%Z; [symmetry; apply firstn_rev|reflexivity]).
    rewrite index_of_rev.
    destruct (last_index_of (l0 :: l') (skipn off s)) as [i|] eqn:E; cbn [option_map]; [|reflexivity].
    apply last_index_of_iff in E. destruct E as (_ & Hb & _). rewrite (skipn_length off s) in Hb |- *.
    set (n := length (l0 :: l')) in *.
    rewrite firstn_rev, skipn_rev, !rev_length.
    replace (length s - (length s - off - i - n))%nat with (i + off + n)%nat by lia.
    replace (length s - (length s - off - i - n + n))%nat with (i + off)%nat by lia.
    destruct (match t with Some tb => _ | None => false end); [reflexivity|]. symmetry. apply trim_result_rev.
Qed.

Lemma allowed_rev : forall t lab, allowed t lab -> allowed t (rev lab).
Proof. intros [tb|] lab H; [apply Forall_rev; exact H|exact I]. Qed.

Lemma tail_head_match : forall l r maxr t text lab rest, tail_match l r maxr t text lab rest ->
  head_match (rev r) (rev l) maxr t (rev text) (rev lab) (rev rest).
Proof.
  intros l r maxr t text lab rest H.
  destruct H as [lab rest Hl -> Hlast Hw Ha He | tb lab rest -> -> -> Hne Hall Hstop].
  - rewrite !rev_app_distr, <- app_assoc in He.
    apply HM_bounded; [apply rev_nonempty; exact Hl| |apply last_occurrence_rev; exact Hlast| |apply allowed_rev; exact Ha|exact He].
    + rewrite !rev_app_distr, <- !app_assoc. reflexivity.
    + rewrite !app_length, !rev_length in *. lia.
  - apply (HM_open _ _ _ _ _ tb); [reflexivity|reflexivity| |apply rev_nonempty; exact Hne|apply Forall_rev; exact Hall|exact Hstop].
    cbn [app]. rewrite !rev_app_distr, <- !app_assoc. reflexivity.
Qed.

Lemma head_tail_match : forall l r maxr t text lab rest, head_match l r maxr t text lab rest ->
  tail_match (rev r) (rev l) maxr t (rev text) (rev lab) (rev rest).
Proof.
  intros l r maxr t text lab rest H.
  destruct H as [lab rest Hr -> Hfirst Hw Ha He | tb lab rest -> -> -> Hne Hall Hstop].
  - apply TM_bounded; [apply rev_nonempty; exact Hr| | | |apply allowed_rev; exact Ha|].
    + rewrite !rev_app_distr, <- !app_assoc. reflexivity.
    + apply last_occurrence_rev. rewrite !rev_involutive. exact Hfirst.
    + rewrite !app_length, !rev_length in *. lia.
    + rewrite !rev_app_distr, !rev_involutive, <- app_assoc. exact He.
  - apply (TM_open _ _ _ _ _ tb); [reflexivity|reflexivity| |apply rev_nonempty; exact Hne|apply Forall_rev; exact Hall|].
    + cbn [app]. rewrite !rev_app_distr, <- !app_assoc. reflexivity.
    + rewrite rev_involutive. exact Hstop.
Qed.

Lemma extract_tail_sound : forall l r maxr t text lab rest, (0 <= maxr)%Z ->
  tail_match l r maxr t text lab rest ->
  extract_at_end text l r maxr t = Ok (trim_ref lab, rest).
Proof.
  intros l r maxr t text lab rest Hmax H.
  rewrite extract_at_end_mirror, (extract_head_sound _ _ _ _ _ _ _ Hmax (tail_head_match _ _ _ _ _ _ _ H)).
  cbn [rev_result]. rewrite trim_ref_rev, !rev_involutive. reflexivity.
Qed.

Lemma extract_tail_cases : forall l r maxr t text, (0 <= maxr)%Z -> (l <> [] \/ t <> None) ->
  (exists lab rest, tail_match l r maxr t text lab rest) \/
  ((forall lab rest, ~ tail_match l r maxr t text lab rest) /\
   extract_at_end text l r maxr t = Ok ([], text)).
Proof.
  intros l r maxr t text Hmax Hlt. rewrite extract_at_end_mirror.
  destruct (extract_head_cases (rev r) (rev l) maxr t (rev text) Hmax) as [(lab & rest & H)|[Hno He]].
  - destruct Hlt as [Hl|Ht]; [left; apply rev_nonempty; exact Hl|right; exact Ht].
  - left. exists (rev lab), (rev rest). apply head_tail_match in H. rewrite !rev_involutive in H. exact H.
  - right. split; [intros lab rest H; exact (Hno _ _ (tail_head_match _ _ _ _ _ _ _ H))|].
    rewrite He. cbn [rev_result rev]. rewrite rev_involutive. reflexivity.
Qed.

Lemma extract_tail_spec : forall l r maxr t text, (0 <= maxr)%Z -> (l <> [] \/ t <> None) ->
  (exists lab rest, tail_match l r maxr t text lab rest /\
                    extract_at_end text l r maxr t = Ok (trim_ref lab, rest)) \/
  ((forall lab rest, ~ tail_match l r maxr t text lab rest) /\
   extract_at_end text l r maxr t = Ok ([], text)).
Proof.
  intros l r maxr t text Hmax Hlt.
  destruct (extract_tail_cases l r maxr t text Hmax Hlt) as [(lab & rest & H)|H]; [left|right; assumption].
  exists lab, rest. split; [assumption|]. apply extract_tail_sound; assumption.
Qed.

Lemma extract_tail_edge_in : forall l lab r rest t, l <> [] ->
  last_occurrence l (rest ++ l ++ lab) (length rest) -> allowed t lab ->
  edge_ok t (hd_error (rev (rest ++ l ++ lab))) ->
  extract_at_end (rest ++ l ++ lab ++ r) l r (Z.of_nat (length l + length lab)) t = Ok (trim_ref lab, rest).
Proof.
  intros l lab r rest t Hl Hf Ha He. apply extract_tail_sound; [lia|].
  apply TM_bounded; try assumption; try reflexivity. left. lia.
Qed.

Lemma extract_tail_edge_out : forall l lab r rest t maxr, l <> [] ->
  last_occurrence l (rest ++ l ++ lab) (length rest) ->
  (0 <= maxr)%Z -> maxr = (Z.of_nat (length l + length lab) - 1)%Z ->
  extract_at_end (rest ++ l ++ lab ++ r) l r maxr t = Ok ([], rest ++ l ++ lab ++ r).
Proof.
  intros l lab r rest t maxr Hl Hf Hmax Hm. rewrite extract_at_end_mirror.
  replace (rev (rest ++ l ++ lab ++ r)) with (rev r ++ rev lab ++ rev l ++ rev rest)
    by (rewrite !rev_app_distr, <- !app_assoc; reflexivity).
  rewrite extract_head_edge_out; [|apply rev_nonempty; exact Hl|apply last_occurrence_rev; exact Hf|exact Hmax|rewrite !rev_length; lia].
  cbn [rev_result rev]. rewrite !rev_app_distr, !rev_involutive, <- !app_assoc. reflexivity.
Qed.

(* no panic: with a non-negative range and a boundary or a class where the code needs one *)
Lemma extract_no_panic : forall ex text, (0 <= ex_max ex)%Z ->
  (if ex_head ex then ex_right ex <> [] \/ ex_table ex <> None else ex_left ex <> [] \/ ex_table ex <> None) ->
  exists p, extract ex text = Ok p.
Proof.
  intros ex text Hmax Hb. unfold extract. destruct (ex_head ex).
  - destruct (extract_head_spec (ex_left ex) (ex_right ex) (ex_max ex) (ex_table ex) text Hmax Hb)
      as [(lab & rest & _ & H)|[_ H]]; eexists; exact H.
  - destruct (extract_tail_spec (ex_left ex) (ex_right ex) (ex_max ex) (ex_table ex) text Hmax Hb)
      as [(lab & rest & _ & H)|[_ H]]; eexists; exact H.
Qed.
