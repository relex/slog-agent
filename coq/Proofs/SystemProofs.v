(* Proofs about Model/System.v, one step at a time: the invariant [aux] that ties the contents of the stages to the
   control state (at Stopped every stage is empty), and what a step does to the places where a token can be
   ([step_anywhere]).  Runs are handled by [steps_inv]; conservation and at-least-once over runs are in SystemAlo.v. *)
From Coq Require Import List Arith Bool Lia PeanoNat NArith.
From SV Require Import Model.Common Model.System Proofs.SystemLists.
From SV Require Export Proofs.SystemStep.
Import ListNotations.
Open Scope nat_scope.

Definition live (s : state) : list tok := transit s ++ safe s ++ lost s.
Definition anywhere (s : state) : list tok := live s ++ filtered s.
Definition items (s : state) : list qitem := queue s ++ fhand s ++ window s ++ leftovers s ++ unacked s.

(* the selectors of Model/System.v compare one field with [Nat.eqb] *)
Lemma on_pipe_eq : forall p t, on_pipe p t = true <-> t_pipe t = p.
Proof. intros. unfold on_pipe. apply Nat.eqb_eq. Qed.
Lemma batch_on_eq : forall p b, batch_on p b = true <-> fst b = p.
Proof. intros. unfold batch_on. apply Nat.eqb_eq. Qed.
Lemma item_on_eq : forall p q, item_on p q = true <-> q_pipe q = p.
Proof. intros. unfold item_on. apply Nat.eqb_eq. Qed.
Lemma on_cp_eq : forall k p t, on_cp k p t = true <-> t_conn t = k /\ t_pipe t = p.
Proof. intros. unfold on_cp, on_conn, on_pipe. rewrite andb_true_iff, !Nat.eqb_eq. tauto. Qed.
Lemma on_conn_false : forall k t, on_conn k t = false -> t_conn t <> k.
Proof. unfold on_conn. intros. apply Nat.eqb_neq. assumption. Qed.
Lemma on_pipe_false : forall p t, on_pipe p t = false -> t_pipe t <> p.
Proof. unfold on_pipe. intros. apply Nat.eqb_neq. assumption. Qed.
Lemma batch_on_false : forall p b, batch_on p b = false -> fst b <> p.
Proof. unfold batch_on. intros. apply Nat.eqb_neq. assumption. Qed.
Lemma item_on_false : forall p q, item_on p q = false -> q_pipe q <> p.
Proof. unfold item_on. intros. apply Nat.eqb_neq. assumption. Qed.

Lemma nil_of_empty : forall A (l : list A), (forall x, In x l -> False) -> l = [].
Proof. intros A [|x l] H; [reflexivity|]. exfalso. apply (H x). left. reflexivity. Qed.
Lemma persist_spec : forall q ok fl dr fl' dr', persist q ok fl dr = (fl', dr') ->
  (q_saved q = true /\ fl' = fl /\ dr' = dr) \/
  (q_saved q = false /\ ok = true /\ fl' = fl ++ [q_chunk q] /\ dr' = dr) \/
  (q_saved q = false /\ ok = false /\ fl' = fl /\ dr' = dr ++ [q_chunk q]).
Proof.
  intros q ok fl dr fl' dr' H. unfold persist in H. destruct (q_saved q); [|destruct ok]; inversion H; subst; tauto.
Qed.
Lemma chunk_eq_dec : forall a b : chunk, {a = b} + {a <> b}.
Proof.
  intros a b. destruct (chunk_eqb a b) eqn:E; [left; apply chunk_eqb_eq; assumption|right; intros ->].
  assert (chunk_eqb b b = true) by (apply chunk_eqb_eq; reflexivity). congruence.
Qed.
Lemma toks_items_in : forall t l, In t (toks_of_items l) -> exists q, In q l /\ In t (c_toks (q_chunk q)).
Proof. intros t l H. unfold toks_of_items in H. apply in_flat_map in H. exact H. Qed.
Lemma remove_file_toks : forall c0 fl t, In t (flat_map c_toks fl) ->
  In t (flat_map c_toks (remove_file c0 fl)) \/ In t (c_toks c0).
Proof.
  intros c0 fl t H. apply in_flat_map in H. destruct H as [c [Hc Ht]].
  destruct (chunk_eq_dec c c0) as [->|N]; [right; assumption|left]. apply in_flat_map. exists c. split; [|assumption].
  apply remove_file_in. tauto.
Qed.

(* compute the fields of the state after a step *)
Ltac fields :=
  cbn [set_in set_work set_buf set_pph set_cph set_phase add_received cut_chunk do_accept new_item
       phase open_conns ingested conn_buf sink_batch key_buf chans hand cur lastid pipes pph cph queue fhand window
       leftovers unacked files acked dropped filtered lost received q_chunk q_loaded q_saved c_toks c_id c_pipe] in *.

(* instantiate, at the element [t], the membership decomposition of every take_first / partition hypothesis [E];
   what the selector says of the element taken is named [E_hd], what it says of the first part [E_fst] *)
Ltac split_facts t :=
  repeat match goal with
  | E : take_first ?f ?l = Some (?x, ?r) |- _ =>
    try pose proof (proj2 (take_first_in _ f l x r E t));
    let S := fresh E "_hd" in pose proof (proj1 (take_first_spec _ f l x r E)) as S;
    revert E
  | E : partition ?f ?l = (?a, ?b) |- _ =>
    try pose proof (proj2 (partition_in _ f l a b E t));
    try (let S := fresh E "_fst" in pose proof (partition_fst_true _ f l a b E t) as S);
    try pose proof (partition_snd_false _ f l a b E t);
    revert E
  end; intros.

Ltac norm_mem :=
  repeat (rewrite ?sort_items_in, ?in_app_iff in * ); cbn [In snd fst app q_chunk q_loaded q_saved c_toks c_id c_pipe] in *.

Ltac guards := repeat match goal with E : none_of _ _ = true |- _ => rewrite none_of_spec in E end.

Ltac fin := intuition (auto using on_conn_false; subst; auto; try congruence;
  try (unfold on_conn, on_pipe, on_cp, item_on, batch_on in *; rewrite ?Nat.eqb_refl in *; cbn in *; congruence)).

Ltac by_pipe q p := destruct (Nat.eq_dec q p) as [->|N]; [rewrite ?upd_same in *|rewrite ?upd_other in * by assumption].

(* control state vs. contents *)

Record aux (s : state) : Prop := mkAux {
  aA : forall t, In t (conn_buf s ++ sink_batch s ++ key_buf s) -> In (t_conn t) (open_conns s);
  aD : phase s = Draining \/ phase s = Stopped -> open_conns s = [];
  aG : forall p, pph s p <> PRun -> phase s = Draining \/ phase s = Stopped;
  aB0 : forall b t, In b (chans s) -> In t (snd b) -> t_pipe t = fst b;
  aB1 : forall t, In t (key_buf s) -> In (t_pipe t) (pipes s);
  aBc : forall b, In b (chans s) -> In (fst b) (pipes s);
  aBt : forall t, In t (hand s ++ cur s) -> In (t_pipe t) (pipes s);
  aBq : forall q, In q (items s) -> In (q_pipe q) (pipes s);
  aC : forall p, pph s p <> PRun ->
         (forall b, In b (chans s) -> fst b <> p) /\ (forall t, In t (hand s ++ cur s) -> t_pipe t <> p);
  aH : forall p, pph s p = PDone -> cph s p = CDone;
  aE : forall p q, pph s p = PDone -> In q (queue s ++ fhand s ++ window s) -> q_pipe q <> p;
  aF : forall p q, cph s p <> CSess -> In q (unacked s) -> q_pipe q <> p;
  aF2 : forall p q, cph s p = CDone -> In q (leftovers s) -> q_pipe q <> p;
  aK : forall q, In q (items s) -> q_saved q = true -> In (q_chunk q) (files s) \/ In (q_chunk q) (acked s);
  aJ : phase s = Stopped -> (forall t, ~ In t (transit s)) /\ (forall q, ~ In q (items s))
}.

Lemma cur_pipe_in : forall s p mine others, aux s -> partition (on_pipe p) (cur s) = (mine, others) -> mine <> [] ->
  In p (pipes s).
Proof.
  intros s p [|t l1] l0 Hs E Ne; [congruence|].
  assert (X: on_pipe p t = true) by (eapply partition_fst_true; [eassumption|left; reflexivity]).
  apply on_pipe_eq in X. subst p. apply (aBt _ Hs). apply in_app_iff. right.
  apply (partition_in _ _ _ _ _ E). left. left. reflexivity.
Qed.

Lemma keybuf_empty_when_draining : forall s, aux s -> phase s = Draining \/ phase s = Stopped ->
  conn_buf s = [] /\ sink_batch s = [] /\ key_buf s = [].
Proof.
  intros s Hs Hp. pose proof (aD _ Hs Hp) as HO.
  assert (X: forall t, In t (conn_buf s ++ sink_batch s ++ key_buf s) -> False).
  { intros t Ht. apply (aA _ Hs) in Ht. rewrite HO in Ht. destruct Ht. }
  apply nil_of_empty in X. apply app_eq_nil in X. destruct X as [X1 X2]. apply app_eq_nil in X2. tauto.
Qed.

Lemma items_empty_when_done : forall s, aux s -> (forall p, In p (pipes s) -> pph s p = PDone) -> forall q, ~ In q (items s).
Proof.
  intros s Hs Done q Hq. pose proof (Done _ (aBq _ Hs q Hq)) as HD. pose proof (aH _ Hs _ HD) as HC.
  unfold items in Hq. rewrite !in_app_iff in Hq.
  destruct Hq as [Hq|[Hq|[Hq|[Hq|Hq]]]].
  1-3: apply (aE _ Hs _ q HD); [rewrite !in_app_iff; tauto|reflexivity].
  - apply (aF2 _ Hs _ q HC Hq). reflexivity.
  - apply (aF _ Hs (q_pipe q) q); [congruence|assumption|reflexivity].
Qed.

(* at Stopped every stage is empty (the channels may still hold empty batches) *)
Lemma stopped_nil : forall s, aux s -> phase s = Stopped ->
  conn_buf s = [] /\ sink_batch s = [] /\ key_buf s = [] /\ hand s = [] /\ cur s = [] /\
  queue s = [] /\ fhand s = [] /\ window s = [] /\ leftovers s = [] /\ unacked s = [].
Proof.
  intros s Hs Hp. destruct (aJ _ Hs Hp) as [T I]. apply nil_of_empty in T. apply nil_of_empty in I.
  unfold transit in T. unfold items in I.
  apply app_eq_nil in T as [C T]. apply app_eq_nil in T as [Sb T]. apply app_eq_nil in T as [K T].
  apply app_eq_nil in T as [_ T]. apply app_eq_nil in T as [Hd T]. apply app_eq_nil in T as [Cu _].
  apply app_eq_nil in I as [Q I]. apply app_eq_nil in I as [F I]. apply app_eq_nil in I as [W I].
  apply app_eq_nil in I as [L U]. tauto.
Qed.

(* when the inputs are closed and every pipeline has shut down, nothing is in transit *)
Lemma done_quiescent : forall s, aux s -> phase s = Draining -> (forall p, In p (pipes s) -> pph s p = PDone) ->
  (forall t, ~ In t (transit s)) /\ (forall q, ~ In q (items s)).
Proof.
  intros s Hs Hph Done. split; [|exact (items_empty_when_done s Hs Done)]. intros t Ht.
  destruct (keybuf_empty_when_draining s Hs (or_introl Hph)) as [X1 [X2 X3]].
  unfold transit, toks_of_items, toks_of_batches in Ht. rewrite X1, X2, X3 in Ht. norm_mem.
  assert (NR : forall p, In p (pipes s) -> pph s p <> PRun) by (intros p Hp; rewrite (Done p Hp); discriminate).
  destruct Ht as [[]|[[]|[[]|Ht]]].
  destruct Ht as [Ht|[Ht|[Ht|Ht]]].
  - apply in_flat_map in Ht. destruct Ht as [b [Hb Ht]].
    apply (proj1 (aC _ Hs (fst b) (NR _ (aBc _ Hs b Hb))) b Hb). reflexivity.
  - apply (proj2 (aC _ Hs (t_pipe t) (NR _ (aBt _ Hs t (in_or_app _ _ _ (or_introl Ht))))) t); [apply in_or_app; tauto|reflexivity].
  - apply (proj2 (aC _ Hs (t_pipe t) (NR _ (aBt _ Hs t (in_or_app _ _ _ (or_intror Ht))))) t); [apply in_or_app; tauto|reflexivity].
  - assert (X: exists q, In q (items s)).
    { unfold items. destruct Ht as [Ht|[Ht|[Ht|[Ht|Ht]]]]; apply in_flat_map in Ht; destruct Ht as [q [Hq _]]; exists q; rewrite !in_app_iff; tauto. }
    destruct X as [q Hq]. exact (items_empty_when_done s Hs Done q Hq).
Qed.

Lemma saved_tokens_safe : forall s q t, aux s -> In q (items s) -> q_saved q = true -> In t (c_toks (q_chunk q)) ->
  In t (flat_map c_toks (files s)) \/ In t (flat_map c_toks (acked s)).
Proof.
  intros s q t Hs Hq Hsv Ht. destruct (aK _ Hs q Hq Hsv) as [H|H]; [left|right]; apply in_flat_map; eauto.
Qed.

Lemma aux_init : aux init.
Proof.
  constructor; cbn; try (intros; contradiction); try (intros; congruence); try tauto.
  all: try (intros [H|H]; discriminate).
  all: try (intros; split; intros; contradiction).
  all: try (intros H; discriminate).
Qed.

Lemma aux_step : forall s e s', aux s -> step s e = Some s' -> aux s'.
Proof.
  intros s e s' Hs H. apply step_Step in H. constructor.
  { (* aA *) intros t Ht. pose proof (aA _ Hs t) as HA.
    destruct H; try destruct o; fields; try (exact (HA Ht)).
    all: split_facts t; norm_mem.
    all: try tauto.
    - (* EIngest *) fin.
    - (* EConnEnd *) rewrite remove_nat_in. fin. }
  { (* aD *) pose proof (aD _ Hs) as HD.
    destruct H; try destruct o; guards; fields; try (exact HD).
    all: try (intros [X|X]; congruence).
    all: try (intros; reflexivity).
    - (* EConnEnd *) intros X. rewrite (HD X) in *. contradiction.
    - (* EStopped *) intros. apply HD. left. assumption. }
  { (* aG *) intros q. pose proof (aG _ Hs q) as HG.
    destruct H; try destruct o; guards; fields; try (exact HG).
    all: try (intros X; destruct (HG X); congruence).
    all: try (intros; left; assumption).
    all: try (intros; left; reflexivity).
    all: try (intros; right; reflexivity).
    all: try (destruct (Nat.eq_dec q p) as [->|N]; [|rewrite upd_other by assumption; exact HG]).
    all: try (intros _; apply (aG _ Hs p); congruence).
    congruence. }
  { (* aB0 *) intros b t Hb Ht. pose proof (aB0 _ Hs b t) as HB.
    destruct H; try destruct o; guards; fields; try (exact (HB Hb Ht)).
    all: split_facts b; norm_mem.
    all: try (apply HB; tauto).
    all: try contradiction.
    - (* EKeyFlush *) destruct Hb as [Hb|[<-|[]]]; [auto|]. cbn in *. 
      assert (X: on_cp k p t = true) by (eapply partition_fst_true; eauto).
      apply on_cp_eq in X. tauto.
    - (* EConnEnd *) destruct Hb as [Hb|Hb]; [auto|]. apply singleton_batches_in in Hb. destruct Hb as [u [_ ->]]. cbn in Ht. destruct Ht as [<-|[]]. reflexivity. }
  { (* aB1 *) intros t Ht. pose proof (aB1 _ Hs t) as HB.
    destruct H; try destruct o; guards; fields; try (exact (HB Ht)).
    all: split_facts t; norm_mem.
    all: try tauto.
    all: try (rewrite add_pipes_in; cbn [In]).
    - (* ESinkSend *) destruct Ht as [Ht|Ht]; [right; auto|left; exists t; tauto].
    - (* EConnEnd *) right. apply HB. tauto. }
  { (* aBc *) intros b Hb. pose proof (aBc _ Hs b) as HB.
    destruct H; try destruct o; guards; fields; try (exact (HB Hb)).
    all: split_facts b; norm_mem.
    all: try tauto.
    all: try (rewrite add_pipes_in; cbn [In]).
    - (* ESinkSend *) right; auto.
    - (* EKeyFlush *) destruct Hb as [Hb|[<-|[]]]; [auto|]. cbn. destruct mine as [|t mine]; [congruence|].
      assert (X: on_cp k p t = true) by (eapply partition_fst_true; [eassumption|left; reflexivity]).
      apply on_cp_eq in X. destruct X as [_ <-]. apply (aB1 _ Hs).
      apply (partition_in _ _ _ _ _ Pt). left. left. reflexivity.
    - (* EConnEnd *) destruct Hb as [Hb|Hb]; [right; auto|]. apply singleton_batches_in in Hb. destruct Hb as [u [Hu ->]]. cbn. left. eauto. }
  { (* aBt *) intros t Ht. pose proof (aBt _ Hs t) as HB.
    destruct H; try destruct o; guards; fields; try (exact (HB Ht)).
    all: split_facts t; norm_mem.
    all: try tauto.
    all: try (rewrite add_pipes_in; cbn [In]).
    all: try (right; tauto).
    destruct Ht as [[Ht|Ht]|Ht]; [tauto| |tauto].
    assert (Hin : In b (chans s)) by (apply (take_first_in _ _ _ _ _ Tf); left; reflexivity).
    rewrite (aB0 _ Hs b t Hin Ht). apply (aBc _ Hs). assumption. }
  { (* aBq *) intros q Hq. pose proof (aBq _ Hs q) as HB. unfold items in *. norm_mem.
    destruct H; try destruct o; guards; fields; try (exact (HB Hq)).
    all: split_facts q; norm_mem.
    all: try tauto.
    all: try (rewrite add_pipes_in; cbn [In]).
    all: try (right; tauto).
    all: try (destruct Hq as [[Hq|[<-|[]]]|Hq]; [tauto| |tauto]; cbn; eapply cur_pipe_in; eassumption).
    - (* EFeederLoad *) destruct Hq as [Hq|[[<-|Hq]|Hq]]; try tauto.
      change (In (q_pipe q0) (pipes s)). apply (aBq _ Hs). unfold items. rewrite !in_app_iff. right. left. eapply tf_head_in; eassumption.
    - (* ERestart *) apply add_pipe_list_in. left. unfold recovered_queue in Hq. norm_mem. rewrite in_map_iff in *.
      destruct Hq as [[c [<- Hc]]|Hq]; [|tauto]. cbn. exists c. tauto. }
  { (* aC *) intros q. pose proof (aC _ Hs q) as HC.
    destruct H; try destruct o; guards; fields; try (exact HC).
    all: intros Hq.
    all: try (destruct (Nat.eq_dec q p) as [->|N]; [rewrite ?upd_same in *|rewrite ?upd_other in * by assumption]).
    all: try congruence.
    all: try (assert (Hq' : pph s p <> PRun) by congruence; specialize (HC Hq')).
    all: try (specialize (HC Hq)).
    all: try (destruct HC as [HC1 HC2]; split; [intros bb Hb; pose proof (HC1 bb) as HCb; split_facts bb|intros tt Ht; pose proof (HC2 tt) as HCt; split_facts tt]; norm_mem).
    all: try tauto.
    all: try congruence.
    (* KeyFlush / ConnEnd add batches: impossible once a worker has stopped (inputs are closed) *)
    all: try (exfalso; match goal with E : partition _ (key_buf ?s0) = (?m, _), Hs0 : aux ?s0, Hq0 : pph ?s0 _ <> PRun |- _ =>
              destruct (keybuf_empty_when_draining s0 Hs0 (aG _ Hs0 _ Hq0)) as [X1 [X2 X3]]; rewrite X3 in E; cbn in E; congruence end).
    all: try (split; [intros bb Hb; apply batch_on_false; auto|intros tt Ht; apply on_pipe_false; apply in_app_iff in Ht; destruct Ht as [Ht|Ht]; auto];
              try (eapply partition_snd_false; eassumption); fail).
    - (* EConnEnd *) exfalso. rewrite (aD _ Hs (aG _ Hs _ Hq)) in Op. destruct Op.
    - (* EWorkerTake *) destruct Ht as [[Ht|Ht]|Ht]; try tauto.
      apply batch_on_eq in Tf_hd. rewrite (aB0 _ Hs b tt (tf_head_in _ _ _ _ _ Tf) Ht), Tf_hd. congruence. }
  { (* aH *) intros q. pose proof (aH _ Hs q) as HH.
    destruct H; try destruct o; guards; fields; try (exact HH).
    all: intros Hq.
    all: try (by_pipe q p).
    all: try congruence.
    all: try (specialize (HH Hq); congruence). }
  { (* aE *) intros r q. pose proof (aE _ Hs r q) as HE. norm_mem.
    destruct H; try destruct o; guards; fields; try (exact HE).
    all: intros Hr Hq.
    all: try (by_pipe r p).
    all: try congruence.
    all: try (specialize (HE Hr)).
    all: split_facts q; norm_mem.
    all: try tauto.
    all: try (destruct Hq as [[Hq|[<-|[]]]|Hq]; [tauto|cbn; congruence|tauto]).
    - (* EFeederLoad *) destruct Hq as [Hq|[[<-|Hq]|Hq]]; try tauto.
      change (q_pipe q0 <> p). apply (aE _ Hs p q0 Hr). rewrite !in_app_iff. right. left. eapply tf_head_in; eassumption.
    - (* EFeederLoad *) destruct Hq as [Hq|[[<-|Hq]|Hq]]; try tauto.
      change (q_pipe q0 <> r). apply item_on_eq in Tf_hd. congruence.
    - (* EFeederEnd *) apply item_on_false. destruct Hq as [Hq|[Hq|Hq]]; auto. }
  { (* aF *) intros r q. pose proof (aF _ Hs r q) as HF.
    destruct H; try destruct o; guards; fields; try (exact HF).
    all: intros Hr Hq.
    all: try (by_pipe r p).
    all: try congruence.
    all: try (assert (Hr' : cph s p <> CSess) by congruence; specialize (HF Hr')).
    all: try (specialize (HF Hr)).
    all: split_facts q; norm_mem.
    all: try tauto.
    all: try (destruct Hq as [Hq|[<-|[]]]; [tauto|apply item_on_eq in Tf_hd; congruence]).
    all: apply item_on_false; tauto. }
  { (* aF2 *) intros r q. pose proof (aF2 _ Hs r q) as HF.
    destruct H; try destruct o; guards; fields; try (exact HF).
    all: intros Hr Hq.
    all: try (by_pipe r p).
    all: try congruence.
    all: try (specialize (HF Hr)).
    all: split_facts q; norm_mem.
    all: try tauto.
    - (* ESendNewFail *) destruct Hq as [Hq|[Hq|[<-|[]]]]; [tauto| |]; [apply Pt_fst in Hq; apply item_on_eq in Hq|apply item_on_eq in Tf_hd]; congruence.
    - (* ESessionEnd *) destruct Hq as [Hq|Hq]; [tauto|]. apply Pt_fst in Hq; apply item_on_eq in Hq. congruence.
    - (* EClientDone *) apply item_on_false. auto. }
  { (* aK *) intros q Hq Hsv. pose proof (aK _ Hs q) as HK. unfold items in *. norm_mem.
    destruct H; try destruct o; guards; fields; try (exact (HK Hq Hsv)).
    all: split_facts q; norm_mem.
    all: try tauto.
    all: try (destruct Hq as [[Hq|[<-|[]]]|Hq]; [tauto|discriminate Hsv|tauto]).
    all: try (destruct Hq as [[Hq|[<-|[]]]|Hq]; [tauto|cbn; tauto|tauto]).
    all: try (match goal with E : persist _ _ _ _ = _ |- _ => apply persist_spec in E;
              destruct E as [[? [-> ->]]|[[? [? [-> ->]]]|[? [? [-> ->]]]]]; norm_mem; tauto end).
    - (* EFeederLoad *) destruct Hq as [Hq|[[<-|Hq]|Hq]]; try tauto. cbn in *.
      apply (aK _ Hs q0); [|assumption]. unfold items. rewrite !in_app_iff. right. left. eapply tf_head_in; eassumption.
    - (* EAckRead *) destruct (chunk_eq_dec (q_chunk q) (q_chunk q0)) as [Eq|Nq].
      + right. rewrite Eq. assumption.
      + assert (X: In (q_chunk q) (files s) \/ In (q_chunk q) (acked s)) by tauto.
        destruct X as [X|X]; [left|right; assumption]. destruct (q_saved q0); [apply remove_file_in; tauto|assumption].
    - (* ERestart *) left. unfold recovered_queue in Hq. norm_mem. rewrite in_map_iff in Hq. destruct Hq as [[c [<- Hc]]|Hq]; [assumption|tauto]. }
  { (* aJ: a step that ends in Stopped is [EStopped], or starts from Stopped, where nothing that moves a token is
       enabled *)
    intros Hp. destruct H; try destruct o; fields; try congruence; try exact (aJ _ Hs Hp).
    all: try (destruct (stopped_nil s Hs Hp) as (C & Sb & K & Hd & Cu & Q & F & W & L & U)).
    all: try (rewrite ?C, ?Sb, ?K, ?Hd, ?Cu, ?Q, ?F, ?W, ?L, ?U in Tf; discriminate Tf).
    all: try (rewrite (aD _ Hs (or_intror Hp)) in Op; destruct Op).
    all: try (rewrite ?Sb, ?K, ?Cu, ?U in Pt; injection Pt as <- <-; try congruence).
    - (* EWorkerTake: the batch taken is empty *)
      split; [intros t Ht; apply (proj1 (aJ _ Hs Hp) t)|exact (proj2 (aJ _ Hs Hp))].
      unfold transit, toks_of_batches in *. fields. rewrite !in_app_iff, (take_first_flat _ _ snd _ _ _ _ Tf t) in *. tauto.
    - (* ESessionEnd: nothing is unacknowledged *)
      split; intros x Hx; [apply (proj1 (aJ _ Hs Hp) x)|apply (proj2 (aJ _ Hs Hp) x)]; revert Hx; unfold transit, items; fields;
        rewrite L, U; exact (fun Hx => Hx).
    - (* EStopped *) exact (done_quiescent s Hs Gph (proj1 (all_done_spec s) Ad)). }
Qed.

Lemma steps_app : forall es1 es2 s, steps s (es1 ++ es2) = match steps s es1 with Some s1 => steps s1 es2 | None => None end.
Proof. induction es1 as [|e es1 IH]; intros es2 s; cbn; [reflexivity|]. destruct (step s e); [apply IH|reflexivity]. Qed.

(* an invariant preserved by every step whose event satisfies [G] holds along the runs all of whose events satisfy [G] *)
Lemma steps_inv : forall (G : event -> Prop) (P : state -> Prop),
  (forall s e s', P s -> G e -> step s e = Some s' -> P s') ->
  forall es s s', P s -> (forall e, In e es -> G e) -> steps s es = Some s' -> P s'.
Proof.
  intros G P Pres. induction es as [|e es IH]; intros s s' Hs Hg H; cbn in H.
  - inversion H; subst; assumption.
  - destruct (step s e) as [s1|] eqn:E; [|discriminate].
    apply (IH s1 s'); [|intros x Hx; apply Hg; right; exact Hx|exact H].
    apply (Pres s e s1); [exact Hs|apply Hg; left; reflexivity|exact E].
Qed.

Lemma aux_steps : forall es s s', aux s -> steps s es = Some s' -> aux s'.
Proof. intros es s s' Hs H. exact (steps_inv (fun _ => True) aux (fun s e s' Ha _ => aux_step s e s' Ha) es s s' Hs (fun _ _ => I) H). Qed.

(* [anywhere] by groups of fields: the input stages, the channels, the worker, the buffer and the client *)
Lemma anywhere_groups : forall s t, In t (anywhere s) <->
  In t (conn_buf s ++ sink_batch s ++ key_buf s ++ lost s) \/ In t (toks_of_batches (chans s)) \/
  In t (hand s ++ cur s ++ filtered s) \/
  In t (toks_of_items (items s) ++ toks_of_chunks (acked s ++ files s ++ dropped s)).
Proof.
  intros. unfold anywhere, live, transit, safe, items. rewrite !toks_of_items_app, !toks_of_chunks_app, !in_app_iff. tauto.
Qed.

(* an update of one or two groups: it is enough to compare these *)
Lemma anywhere_set_in : forall s oc ing cb sb kb ch ps lo t (P : Prop),
  (In t ((cb ++ sb ++ kb ++ lo) ++ toks_of_batches ch) <->
   In t ((conn_buf s ++ sink_batch s ++ key_buf s ++ lost s) ++ toks_of_batches (chans s)) \/ P) ->
  (In t (anywhere (set_in s oc ing cb sb kb ch ps lo)) <-> In t (anywhere s) \/ P).
Proof.
  intros * H. rewrite !anywhere_groups. unfold items. fields.
  rewrite (in_app_iff (cb ++ sb ++ kb ++ lo)), (in_app_iff (conn_buf s ++ sink_batch s ++ key_buf s ++ lost s)) in H. tauto.
Qed.
Lemma anywhere_set_work : forall s ch h c f t (P : Prop),
  (In t (toks_of_batches ch ++ h ++ c ++ f) <-> In t (toks_of_batches (chans s) ++ hand s ++ cur s ++ filtered s) \/ P) ->
  (In t (anywhere (set_work s ch h c f)) <-> In t (anywhere s) \/ P).
Proof.
  intros * H. rewrite !anywhere_groups. unfold items. fields.
  rewrite (in_app_iff (toks_of_batches ch)), (in_app_iff (toks_of_batches (chans s))) in H. tauto.
Qed.
Lemma anywhere_set_buf : forall s q fh w lo ua fl ak dr t (P : Prop),
  (In t (toks_of_items (q ++ fh ++ w ++ lo ++ ua) ++ toks_of_chunks (ak ++ fl ++ dr)) <->
   In t (toks_of_items (items s) ++ toks_of_chunks (acked s ++ files s ++ dropped s)) \/ P) ->
  (In t (anywhere (set_buf s q fh w lo ua fl ak dr)) <-> In t (anywhere s) \/ P).
Proof. intros * H. rewrite !anywhere_groups. unfold items in *. fields. tauto. Qed.
Lemma anywhere_close : forall s p id o mine others t, partition (on_pipe p) (cur s) = (mine, others) ->
  In t (anywhere (do_accept (cut_chunk s others id) (mkChunk id p mine) o)) <-> In t (anywhere s) \/ False.
Proof.
  intros * Pt. rewrite !anywhere_groups. unfold items, toks_of_items, toks_of_chunks.
  destruct o; fields; rewrite ?flat_map_app, !in_app_iff, (partition_in _ _ _ _ _ Pt t); cbn [flat_map In app];
    rewrite ?app_nil_r; tauto.
Qed.
(* the control fields and the upstream's history hold no tokens *)
Lemma anywhere_set_pph : forall s p v t Q, (In t (anywhere s) <-> Q) -> (In t (anywhere (set_pph s p v)) <-> Q).
Proof. intros * H. exact H. Qed.
Lemma anywhere_set_cph : forall s p v t Q, (In t (anywhere s) <-> Q) -> (In t (anywhere (set_cph s p v)) <-> Q).
Proof. intros * H. exact H. Qed.
Lemma anywhere_set_phase : forall s v t Q, (In t (anywhere s) <-> Q) -> (In t (anywhere (set_phase s v)) <-> Q).
Proof. intros * H. exact H. Qed.
Lemma anywhere_add_received : forall s c t Q, (In t (anywhere s) <-> Q) -> (In t (anywhere (add_received s c)) <-> Q).
Proof. intros * H. exact H. Qed.

(* a chunk leaving memory at shutdown stays in a safe place: in its file or acknowledged if it was saved (aK),
   else in the file just written or among the dropped *)
Lemma persist_keeps : forall s q ok fl dr t, aux s -> In q (items s) -> persist q ok (files s) (dropped s) = (fl, dr) ->
  In t (flat_map c_toks (acked s)) \/ In t (flat_map c_toks fl) \/ In t (flat_map c_toks dr) <->
  In t (c_toks (q_chunk q)) \/
  In t (flat_map c_toks (acked s)) \/ In t (flat_map c_toks (files s)) \/ In t (flat_map c_toks (dropped s)).
Proof.
  intros s q ok fl dr t Hs Hq Pe. pose proof (saved_tokens_safe s q t Hs Hq) as Sv.
  destruct (persist_spec _ _ _ _ _ _ Pe) as [[Sq [-> ->]]|[[Sq [_ [-> ->]]]|[Sq [_ [-> ->]]]]];
    rewrite ?flat_map_app, ?in_app_iff; cbn [flat_map]; rewrite ?app_nil_r; tauto.
Qed.

(* the record that event [e] reads from its connection *)
Definition ingests (e : event) (t : tok) : Prop := match e with EIngest t0 => t0 = t | _ => False end.

Ltac in_items := unfold items; rewrite !in_app_iff;
  first [ left; eapply tf_head_in; eassumption
        | right; left; eapply tf_head_in; eassumption
        | right; right; left; eapply tf_head_in; eassumption
        | right; right; right; left; eapply tf_head_in; eassumption
        | right; right; right; right; eapply tf_head_in; eassumption ].
(* CONSERVATION, one step: a token is somewhere afterwards iff it was somewhere before or has just been read *)
Lemma step_anywhere : forall s e s', aux s -> Step s e s' ->
  forall t, In t (anywhere s') <-> In t (anywhere s) \/ ingests e t.
Proof.
  intros s e s' Hs H t. destruct H; cbn [ingests].
  all: try simple apply anywhere_set_pph; try simple apply anywhere_set_cph; try simple apply anywhere_set_phase;
    try simple apply anywhere_add_received.
  all: try tauto.
  all: try (simple apply anywhere_close; assumption).
  all: try (simple apply anywhere_set_in); try (simple apply anywhere_set_work); try (simple apply anywhere_set_buf).
  all: unfold items, toks_of_items, toks_of_batches, toks_of_chunks; rewrite ?flat_map_app, ?in_app_iff.
  all: try rewrite (take_first_in _ _ _ _ _ Tf t); try rewrite (take_first_flat _ _ _ _ _ _ _ Tf t);
    try rewrite (partition_in _ _ _ _ _ Pt t); try rewrite (partition_flat _ _ _ _ _ _ _ Pt t).
  all: try rewrite (persist_keeps s q ok fl dr t Hs ltac:(in_items) Pe).
  all: rewrite ?sort_items_flat, ?flat_map_app, ?in_app_iff; cbn [flat_map In app new_item q_chunk]; rewrite ?app_nil_r, ?in_app_iff.
  all: try tauto.
  - rewrite singleton_batches_flat, !in_app_iff, (partition_in _ _ _ _ _ Ptk t), (partition_in _ _ _ _ _ Pts t),
      (partition_in _ _ _ _ _ Ptc t). tauto.
  - (* EAckRead: the chunk whose file is removed has been acknowledged *)
    assert (X : In t (c_toks (q_chunk q)) -> In t (flat_map c_toks (acked s))) by (intros; apply in_flat_map; eauto).
    pose proof (remove_file_toks (q_chunk q) (files s) t) as Y.
    assert (Z : In t (flat_map c_toks (remove_file (q_chunk q) (files s))) -> In t (flat_map c_toks (files s))).
    { rewrite !in_flat_map. intros [c [Hc Hin]]. apply remove_file_in in Hc. exists c. tauto. }
    destruct (q_saved q); tauto.
  - (* ERestart: nothing was in transit (aJ); the queue is rebuilt from the files *)
    pose proof (proj1 (aJ _ Hs Gph) t) as Em. unfold anywhere, live, transit, safe, toks_of_items, toks_of_chunks, recovered_queue in *.
    fields. rewrite !in_app_iff in *. rewrite sort_items_flat, flat_map_concat_map, map_map, <- flat_map_concat_map.
    cbn [In flat_map toks_of_batches]. rewrite (flat_map_ext _ c_toks) by reflexivity. tauto.
Qed.

Lemma step_ingested : forall s e s', step s e = Some s' ->
  ingested s' = ingested s \/ exists t, e = EIngest t /\ ingested s' = t :: ingested s.
Proof.
  intros s e s' H. apply step_Step in H. destruct H; try destruct o; try (left; reflexivity).
  right. eexists. split; reflexivity.
Qed.

Lemma step_ingested_in : forall s e s', Step s e s' -> forall t, In t (ingested s') <-> In t (ingested s) \/ ingests e t.
Proof. intros s e s' H t. destruct H; try destruct o; cbn [ingests In ingested set_in]; try tauto; intuition congruence. Qed.

Lemma step_filtered : forall s e s', step s e = Some s' ->
  (forall t, In t (filtered s) -> t_keep t = false) -> forall t, In t (filtered s') -> t_keep t = false.
Proof.
  intros s e s' H IH t Ht. apply step_Step in H. destruct H; try destruct o; fields; try (apply IH; assumption).
  apply in_app_iff in Ht. destruct Ht as [Ht|[<-|[]]]; [apply IH; assumption|assumption].
Qed.

Lemma step_lost : forall s e s', step s e = Some s' -> is_flush_timeout e = false -> lost s' = lost s.
Proof.
  intros s e s' H N. apply step_Step in H. destruct H; try discriminate N; try destruct o; reflexivity.
Qed.
