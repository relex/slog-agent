(* The invariant of the hybrid-buffer LTS (Model/Buffer.v) and the helper lemmas used to show that
   every event preserves it (Proofs/BufferProofs.v). *)
From SV Require Import Model.Common Model.FileWrite Model.Buffer Spec.BufferSpec Proofs.CommonFacts Proofs.FileWriteProofs.
From Coq Require Import Lia ZifyBool ZifyN ZifyNat Sorting.Sorted.
Ltac Zify.zify_post_hook ::= Z.div_mod_to_equations.

Definition cnt (x : name) (l : list name) : nat := count_occ name_eq_dec l x.

Lemma cnt_nil : forall x, cnt x [] = 0%nat.
Proof. reflexivity. Qed.

Lemma cnt_app : forall x l1 l2, cnt x (l1 ++ l2) = (cnt x l1 + cnt x l2)%nat.
Proof. intros. unfold cnt. apply count_occ_app. Qed.

Lemma cnt_cons : forall x y l, cnt x (y :: l) = (cnt x [y] + cnt x l)%nat.
Proof. intros. change (y :: l) with ([y] ++ l). apply cnt_app. Qed.

Lemma cnt_single_same : forall x, cnt x [x] = 1%nat.
Proof. intros. unfold cnt. cbn. destruct (name_eq_dec x x); [reflexivity|congruence]. Qed.

Lemma cnt_single_other : forall x y, x <> y -> cnt x [y] = 0%nat.
Proof. intros. unfold cnt. cbn. destruct (name_eq_dec y x); [congruence|reflexivity]. Qed.

Lemma cnt_single_le : forall x y, (cnt x [y] <= 1)%nat.
Proof. intros. unfold cnt. cbn. destruct (name_eq_dec y x); lia. Qed.

Lemma cnt_in : forall x l, In x l <-> (cnt x l > 0)%nat.
Proof. intros. unfold cnt. apply count_occ_In. Qed.

Lemma cnt_notin : forall x l, ~ In x l <-> cnt x l = 0%nat.
Proof. intros. unfold cnt. apply count_occ_not_In. Qed.

Lemma nodup_cnt : forall l, NoDup l <-> (forall x, (cnt x l <= 1)%nat).
Proof. intros. unfold cnt. apply NoDup_count_occ. Qed.

(* the same elements, as often: then both lists are duplicate-free or neither is, and they have the same members *)
Lemma cnt_eq_nodup : forall l1 l2, (forall x, cnt x l1 = cnt x l2) -> NoDup l2 -> NoDup l1 /\ (forall x, In x l2 <-> In x l1).
Proof.
  intros l1 l2 H Hnd. split; [apply nodup_cnt; intros x; rewrite H; apply nodup_cnt; exact Hnd|].
  intros x. rewrite !cnt_in, H. reflexivity.
Qed.

Definition ids (l : list chunk) : list name := map c_id l.

Lemma ids_app : forall a b, ids (a ++ b) = ids a ++ ids b.
Proof. intros. apply map_app. Qed.

Lemma ids_in : forall c l, In c l -> In (c_id c) (ids l).
Proof. intros. apply in_map. assumption. Qed.

Lemma nth_error_split_remove : forall {A} (l : list A) i c,
  nth_error l i = Some c -> exists l1 l2, l = l1 ++ c :: l2 /\ remove_nth i l = l1 ++ l2.
Proof.
  intros A l i c H. apply nth_error_split in H. destruct H as (l1 & l2 & Hl & Hlen).
  exists l1, l2. split; [assumption|]. subst l i. unfold remove_nth.
  rewrite firstn_app, firstn_all, Nat.sub_diag, firstn_O, app_nil_r.
  change (S (length l1)) with (1 + length l1)%nat. rewrite Nat.add_comm.
  rewrite skipn_app. rewrite skipn_all2 by lia.
  replace (length l1 + 1 - length l1)%nat with 1%nat by lia. reflexivity.
Qed.

Lemma cnt_remove_nth : forall x l i c,
  nth_error l i = Some c -> cnt x (ids l) = (cnt x [c_id c] + cnt x (ids (remove_nth i l)))%nat.
Proof.
  intros x l i c H. apply nth_error_split_remove in H. destruct H as (l1 & l2 & Hl & Hr).
  rewrite Hr, Hl. rewrite !ids_app. cbn [ids map]. rewrite !cnt_app. rewrite (cnt_cons x (c_id c)).
  fold (ids l2). lia.
Qed.

Lemma in_remove_nth : forall {A} (l : list A) i x, In x (remove_nth i l) -> In x l.
Proof.
  intros A l i x H. unfold remove_nth in H. apply in_app_or in H. destruct H as [H|H].
  - eapply in_firstn_in. eassumption.
  - eapply in_skipn_in. eassumption.
Qed.

(* the chunk(s) the feeder holds, counted once *)
Definition hand (p : fpc) : list chunk :=
  match p with
  | FLoad c => [c]
  | FPush _ c' => [c']
  | FSave (Some c) => [c]
  | FSaveW (Some l) c => [c; l]
  | FSaveW None c => [c]
  | FSaveOutW c => [c]
  | _ => []
  end.

(* ... and every copy it holds (Run's own copy and the loaded one) *)
Definition hand_all (p : fpc) : list chunk :=
  match p with
  | FPush c c' => [c; c']
  | _ => hand p
  end.

Definition inflight (s : state) : list chunk := st_queue s ++ hand (st_fpc s) ++ st_win s ++ st_hold s.
Definition tracked (s : state) : list chunk := st_queue s ++ hand_all (st_fpc s) ++ st_win s ++ st_hold s.

(* the feeder is past saveQueued: the queue has been drained for good *)
Definition after_queue (p : fpc) : bool :=
  match p with FWait | FSaveOut | FSaveOutW _ | FStopped => true | _ => false end.

Definition main_loop (p : fpc) : bool :=
  match p with FRecv | FLoad _ | FPush _ _ => true | _ => false end.

Definition feeder_ids (p : fpc) : list name :=
  match p with FLoad c => [c_id c] | FPush c _ => [c_id c] | _ => [] end.

Definition wf_chunk (s : state) (c : chunk) : Prop :=
  match c_data c, c_saved c with
  | Some d, false => (exists b, In (c_id c, d, b) (g_acc (st_gh s))) /\ dir_get (st_dir s) (c_id c) = None
  | Some d, true => dir_get (st_dir s) (c_id c) = Some (EFile d) /\ is_orig (st_gh s) (c_id c) (EFile d) /\ st_dirok s = true
  | None, true => (exists e, dir_get (st_dir s) (c_id c) = Some e /\ is_orig (st_gh s) (c_id c) e) /\ st_dirok s = true
  | None, false => False
  end.

Section Sizes.
Variable dirsize : Z.

Lemma owned_sum_app : forall d l1 l2, owned_sum dirsize d (l1 ++ l2) = (owned_sum dirsize d l1 + owned_sum dirsize d l2)%Z.
Proof. induction l1 as [|x l1 IH]; intros; cbn [owned_sum app]; [lia|]. rewrite IH. lia. Qed.

Lemma owned_sum_ext : forall d d' l,
  (forall x, In x l -> dir_get d' x = dir_get d x) -> owned_sum dirsize d' l = owned_sum dirsize d l.
Proof.
  induction l as [|x l IH]; intros H; cbn [owned_sum]; [reflexivity|].
  rewrite H by (left; reflexivity). rewrite IH; [reflexivity|]. intros y Hy. apply H. right. exact Hy.
Qed.

Lemma owned_sum_change : forall d d' l x,
  NoDup l -> In x l ->
  (forall y, In y l -> y <> x -> dir_get d' y = dir_get d y) ->
  owned_sum dirsize d' l = (owned_sum dirsize d l - esize dirsize (dir_get d x) + esize dirsize (dir_get d' x))%Z.
Proof.
  induction l as [|a l IH]; intros x Hnd Hin Hfr; [contradiction|].
  inversion Hnd as [|? ? Hnotin Hnd']; subst. cbn [owned_sum].
  destruct Hin as [Hin|Hin].
  - subst a. rewrite (owned_sum_ext d d' l); [lia|].
    intros y Hy. apply Hfr; [right; exact Hy|]. intros E; subst. contradiction.
  - rewrite (IH x Hnd' Hin) by (intros y Hy Hne; apply Hfr; [right; exact Hy|exact Hne]).
    rewrite (Hfr a) by (try (left; reflexivity); intros E; subst; contradiction). lia.
Qed.

End Sizes.

Section Inv.
Variable matchf : name -> bool.
Variable dirsize : Z.

(* holds whether or not a bufferer is running *)
Record PInv (s : state) : Prop := {
  p_sorted : dir_sorted (st_dir s);
  p_ever_files : forall x d, In (x, d) (st_ever s) ->
                   dir_get (st_dir s) x = None \/ dir_get (st_dir s) x = Some (EFile d);
  p_ever_nodup : NoDup (map fst (st_ever s));
  p_ever_match : forall x, In x (map fst (st_ever s)) -> matchf x = true
}.

(* holds while a bufferer exists (st_up).  [l]: the chunks an event has taken out of the buffer's lists and not
   yet settled (confirmed, retained or dropped); between two events there are none *)
Record Inv (l : list chunk) (s : state) : Prop := {
  i_nodup : NoDup (entered (st_gh s));
  i_count : forall x, (cnt x (ids (inflight s ++ l)) + cnt x (g_confirmed (st_gh s)) + cnt x (g_dropped (st_gh s))
                       + cnt x (g_retained (st_gh s)) = cnt x (entered (st_gh s)))%nat;
  i_match : forall x, In x (entered (st_gh s)) -> matchf x = true;
  i_chunk : forall c, In c (tracked s ++ l) -> wf_chunk s c;
  i_ret : forall x, In x (g_retained (st_gh s)) ->
            exists e, dir_get (st_dir s) x = Some e /\ is_orig (st_gh s) x e;
  i_conf : forall x, In x (g_confirmed (st_gh s)) -> dir_get (st_dir s) x = None;
  i_space : m_pbytes (st_met s) = owned_sum dirsize (st_dir s) (entered (st_gh s));
  i_bound : (m_pbytes (st_met s) <= Z.max (g_initbytes (st_gh s)) (st_max s) + g_maxfw (st_gh s))%Z
            /\ (0 <= g_maxfw (st_gh s))%Z;
  i_savew : forall c back, saving (st_fpc s) = Some (c, back) ->
              (m_pbytes (st_met s) <= st_max s)%Z /\ (dlen c <= g_maxfw (st_gh s))%Z /\
              c_saved c = false /\ exists d, c_data c = Some d;
  i_push : forall c c', st_fpc s = FPush c c' -> c_id c' = c_id c /\ zero_length c' = false;
  i_dropped : m_dropped (st_met s) = Z.of_nat (length (g_dropped (st_gh s)));
  i_consumed : m_consumed (st_met s) = Z.of_nat (length (g_confirmed (st_gh s)));
  i_fifo : exists rest, g_rec (st_gh s) ++ enq_ids (st_gh s) = map fst (g_proc (st_gh s)) ++ rest /\
             (main_loop (st_fpc s) = true -> rest = feeder_ids (st_fpc s) ++ ids (st_queue s));
  i_offered_ids : ids (g_offered (st_gh s)) = offered_ids (st_gh s);
  i_offered_orig : forall c, In c (g_offered (st_gh s)) ->
                     exists d, c_data c = Some d /\ is_orig (st_gh s) (c_id c) (EFile d);
  i_win : g_offered (st_gh s) = map fst (g_out (st_gh s)) ++ st_win s;
  i_hold : forall c, In c (st_hold s) -> In c (g_offered (st_gh s));
  i_winbound : (length (st_win s) <= st_M s)%nat;
  i_qbound : (length (st_queue s) <= st_Q s)%nat;
  i_closed : main_loop (st_fpc s) = false -> st_closed s = true;
  i_empty : (after_queue (st_fpc s) = true -> st_queue s = []) /\ (st_fpc s = FStopped -> st_win s = []);
  i_recsorted : StronglySorted name_lt (g_rec (st_gh s));
  i_acc_ever : forall x d b, In (x, d, b) (g_acc (st_gh s)) -> In (x, d) (st_ever s);
  i_rec_ever : forall x d e, In (x, d) (st_ever s) -> In x (g_rec (st_gh s)) ->
                 dir_get (g_init (st_gh s)) x = Some e -> e = EFile d;
  i_rec_def : g_rec (st_gh s) = ids (firstn (st_Q s) (scan matchf (st_dirok s) (g_init (st_gh s))))
}.

Definition Good (s : state) : Prop := PInv s /\ (st_up s = true -> Inv [] s).

Lemma is_orig_mono : forall g g' x e,
  incl (g_acc g) (g_acc g') -> g_rec g' = g_rec g -> g_init g' = g_init g ->
  is_orig g x e -> is_orig g' x e.
Proof.
  intros g g' x e Hi Hr Hn [(d & b & Hin & He)|[Hin Hg]].
  - left. exists d, b. split; [apply Hi; exact Hin|exact He].
  - right. rewrite Hr, Hn. split; assumption.
Qed.

Lemma wf_chunk_frame : forall s s' c,
  dir_get (st_dir s') (c_id c) = dir_get (st_dir s) (c_id c) ->
  incl (g_acc (st_gh s)) (g_acc (st_gh s')) ->
  g_rec (st_gh s') = g_rec (st_gh s) -> g_init (st_gh s') = g_init (st_gh s) ->
  st_dirok s' = st_dirok s ->
  wf_chunk s c -> wf_chunk s' c.
Proof.
  intros s s' c Hd Hi Hr Hn Hok Hwf. unfold wf_chunk in *.
  destruct (c_data c) as [d|]; destruct (c_saved c); rewrite ?Hd, ?Hok.
  - destruct Hwf as (H1 & H2 & H3). repeat split; try assumption. eapply is_orig_mono; eassumption.
  - destruct Hwf as ((b & Hb) & H2). split; [exists b; apply Hi; exact Hb|exact H2].
  - destruct Hwf as ((e & H1 & H2) & H3). split; [|exact H3]. exists e. split; [exact H1|].
    eapply is_orig_mono; eassumption.
  - exact Hwf.
Qed.

End Inv.
