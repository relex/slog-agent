(* Order invariants of Model/System.v (C05): chunks are transmitted, recovered and retransmitted in creation
   (= id) order; the first deliveries of the records of a stream (connection, pipeline) are in arrival order.

   The invariant [ordp] has ten conjuncts, preserved one by one ([pres_P4] .. [pres_P13]) by cases over the step
   relation of SystemStep.v; a conjunct that does not mention the fields an event changes is preserved by
   conversion.  What a step does to the chunk sets is said once, independently of the invariant: [held_step],
   [hist_step], [chunks_step], [item_chunks_kept], [received_step], [sendable_step], [orphan_step]. *)
From Coq Require Import List Arith Bool Lia PeanoNat NArith Permutation.
From SV Require Import Model.Common Model.System Proofs.ListFacts Proofs.SystemLists Proofs.SystemProofs Proofs.SystemStep Proofs.SystemAlo Proofs.SystemOrderLists.
Import ListNotations.
Open Scope nat_scope.

Definition all_chunks (s : state) : list chunk :=
  map q_chunk (items s) ++ files s ++ acked s ++ dropped s ++ received s.

Fixpoint ro (l : list chunk) : Prop :=   (* l newest first: every first receipt has an id above all earlier ones *)
  match l with
  | [] => True
  | c :: r => (In c r \/ forall a, In a r -> c_id a < c_id c) /\ ro r
  end.

Section Pipe.
Variable p : nat.

Definition chunk_on (c : chunk) : bool := Nat.eqb (c_pipe c) p.
Definition idsp (l : list qitem) : list nat := map q_id (filter (item_on p) l).
Definition chain (s : state) : list nat :=
  idsp (unacked s) ++ idsp (leftovers s) ++ idsp (window s) ++ idsp (fhand s) ++ idsp (queue s).
Definition recvp (s : state) : list chunk := filter chunk_on (received s).
Definition filesp (s : state) : list chunk := filter chunk_on (files s).
Definition itemsp (s : state) : list qitem := filter (item_on p) (items s).
Definition sendable (s : state) : list qitem := filter (item_on p) (unacked s ++ leftovers s ++ window s).

(* The conjuncts are the fields [P4] .. [P13]; [pres_Pn] is the preservation of the field [Pn] by a step.  The
   numbering starts at 4: no conjunct, lemma or file of the development is called P1, P2 or P3. *)
Record ordp (s : state) : Prop := mkOrdp {
  P4 : forall c, In c (all_chunks s) -> c_id c <= lastid s;
  P5 : incr (chain s);
  P6 : forall q, In q (filter (item_on p) (unacked s)) -> In (q_chunk q) (received s);
  P7 : forall c, (In c (map q_chunk (itemsp s)) \/ In c (filesp s)) -> ~ In c (received s) ->
                 forall a, In a (recvp s) -> c_id a < c_id c;
  P8 : forall c, In c (filesp s) -> ~ In c (map q_chunk (itemsp s)) -> ~ In c (received s) ->
                 cph s p = CHanding \/ cph s p = CDone \/ (forall q, In q (sendable s) -> q_id q < c_id c);
  P9 : forall c, In c (filesp s) -> ~ In c (map q_chunk (itemsp s)) -> ~ In c (received s) ->
                 pph s p = PSaving \/ pph s p = PDone;
  P10 : ro (recvp s);
  P11 : NoDup (map c_id (filesp s));
  P12 : forall q, In q (itemsp s) -> q_saved q = false -> forall c, In c (filesp s) -> c_id c <> q_id q;
  P13 : cph s p = CHanding \/ cph s p = CDone -> pph s p = PSaving \/ pph s p = PDone
}.

Lemma idsp_app : forall a b, idsp (a ++ b) = idsp a ++ idsp b.
Proof. intros. unfold idsp. rewrite filter_app, map_app. reflexivity. Qed.

Lemma idsp_take_same : forall l q r, take_first (item_on p) l = Some (q, r) -> idsp l = q_id q :: idsp r.
Proof.
  intros l q r H. unfold idsp.
  rewrite (take_first_filter_hit _ (item_on p) (item_on p) l q r H); [reflexivity|auto|].
  apply (proj1 (take_first_spec _ _ _ _ _ H)).
Qed.

Lemma idsp_take_other : forall p0 l q r, p0 <> p -> take_first (item_on p0) l = Some (q, r) -> idsp l = idsp r.
Proof.
  intros p0 l q r N H. unfold idsp. f_equal. apply (take_first_filter_miss _ (item_on p0) (item_on p) l q r H).
  pose proof (proj1 (take_first_spec _ _ _ _ _ H)) as F. apply item_on_eq in F.
  destruct (item_on p q) eqn:E; [apply item_on_eq in E; congruence|reflexivity].
Qed.

Lemma idsp_single_same : forall q, item_on p q = true -> idsp [q] = [q_id q].
Proof. intros q H. unfold idsp. cbn. rewrite H. reflexivity. Qed.

Lemma idsp_single_other : forall q, item_on p q = false -> idsp [q] = [].
Proof. intros q H. unfold idsp. cbn. rewrite H. reflexivity. Qed.

Lemma idsp_none : forall l, (forall y, In y l -> item_on p y = false) -> idsp l = [].
Proof.
  intros l H. unfold idsp. induction l as [|x l IH]; cbn; [reflexivity|].
  rewrite (H x (or_introl eq_refl)). apply IH. intros y Hy. apply H. right. assumption.
Qed.

Lemma idsp_sublist : forall a b, sublist a b -> sublist (idsp a) (idsp b).
Proof. intros. unfold idsp. apply sublist_map. apply sublist_filter_mono. assumption. Qed.

Lemma idsp_in : forall l x, In x (idsp l) <-> exists q, In q l /\ item_on p q = true /\ q_id q = x.
Proof.
  intros. unfold idsp. rewrite in_map_iff. split.
  - intros [q [E H]]. apply filter_In in H. exists q. tauto.
  - intros [q [H1 [H2 H3]]]. exists q. split; [assumption|]. apply filter_In. tauto.
Qed.

End Pipe.


(* the fields of an updated state *)
Ltac fields :=
  unfold all_chunks, items;
  cbn [phase open_conns ingested conn_buf sink_batch key_buf chans hand cur lastid pipes pph cph queue fhand window
       leftovers unacked files acked dropped filtered lost received
       set_in set_work set_buf set_pph set_cph set_phase add_received cut_chunk do_accept].

Lemma in_map_chunk_tf : forall f l q r c, take_first f l = Some (q, r) ->
  (In c (map q_chunk l) <-> q_chunk q = c \/ In c (map q_chunk r)).
Proof.
  intros f l q r c H. destruct (take_first_spec _ _ _ _ _ H) as [_ [a [b [-> [-> _]]]]].
  rewrite !map_app. cbn. rewrite !in_app_iff. cbn. tauto.
Qed.
Lemma in_map_chunk_part : forall f l a b c, partition f l = (a, b) ->
  (In c (map q_chunk l) <-> In c (map q_chunk a) \/ In c (map q_chunk b)).
Proof.
  intros f l a b c H. rewrite !in_map_iff. split.
  - intros [q [E Hq]]. apply (partition_in _ _ _ _ _ H) in Hq. destruct Hq; [left|right]; eauto.
  - intros [[q [E Hq]]|[q [E Hq]]]; exists q; split; auto; apply (partition_in _ _ _ _ _ H); auto.
Qed.
Lemma in_map_chunk_sort : forall l c, In c (map q_chunk (sort_items l)) <-> In c (map q_chunk l).
Proof.
  intros. rewrite !in_map_iff. split; intros [q [E Hq]]; exists q; split; auto; apply sort_items_in; auto.
Qed.
Lemma in_recovered : forall fl c, In c (map q_chunk (recovered_queue fl)) <-> In c fl.
Proof. intros. unfold recovered_queue. rewrite in_map_chunk_sort, map_map. cbn. rewrite map_id. tauto. Qed.

(* membership of c among the chunks of the item lists after the step, in terms of the lists before *)
Ltac chunk_mem c :=
  rewrite ?map_app, ?in_app_iff;
  try match goal with E : take_first _ _ = _ |- _ => rewrite (in_map_chunk_tf _ _ _ _ c E) end;
  try match goal with E : partition _ (unacked _) = _ |- _ => rewrite (in_map_chunk_part _ _ _ _ c E) end;
  rewrite ?in_map_chunk_sort, ?in_recovered, ?map_app, ?in_app_iff; cbn [map In q_chunk new_item].

(* the same for membership of q in the item lists *)
Ltac item_mem q :=
  rewrite ?in_app_iff;
  try match goal with E : take_first _ _ = _ |- _ => rewrite (take_first_in _ _ _ _ _ E q) end;
  try match goal with E : partition _ (unacked _) = _ |- _ => rewrite (partition_in _ _ _ _ _ E q) end;
  rewrite ?sort_items_in, ?in_app_iff; cbn [In].

Ltac persist_cases :=
  match goal with E : persist _ _ _ _ = _ |- _ => apply persist_spec in E;
    destruct E as [[? [-> ->]]|[[? [? [-> ->]]]|[? [? [-> ->]]]]] end.

Lemma persist_in : forall q ok fl dr fl' dr', persist q ok fl dr = (fl', dr') ->
  forall c, (In c fl' -> In c fl \/ q_chunk q = c) /\ (In c dr' -> In c dr \/ q_chunk q = c).
Proof. intros q ok fl dr fl' dr' H c. persist_cases; rewrite ?in_app_iff; cbn; tauto. Qed.

Lemma ack_files_in : forall q fl c, In c (if q_saved q then remove_file (q_chunk q) fl else fl) -> In c fl.
Proof. intros q fl c. destruct (q_saved q); [rewrite remove_file_in|]; tauto. Qed.

Lemma pres_P13 : forall p s e s', ordp p s -> step s e = Some s' ->
  cph s' p = CHanding \/ cph s' p = CDone -> pph s' p = PSaving \/ pph s' p = PDone.
Proof.
  intros p s e s' Ho H. pose proof (P13 _ _ Ho) as IH.
  destruct (step_Step _ _ _ H); try (destruct o); fields; try (exact IH).
  all: try (by_pipe p p0; [|exact IH]).
  all: try tauto.
  all: try (intros X; destruct X; congruence).
  all: intros X; specialize (IH X); destruct IH; congruence.
Qed.

Lemma filter_item_on_in : forall p l q, In q (filter (item_on p) l) <-> In q l /\ q_pipe q = p.
Proof. intros. rewrite filter_In, item_on_eq. tauto. Qed.

Lemma pres_P6 : forall p s e s', ordp p s -> step s e = Some s' ->
  forall q, In q (filter (item_on p) (unacked s')) -> In (q_chunk q) (received s').
Proof.
  intros p s e s' Ho H q. pose proof (P6 _ _ Ho q) as IH. rewrite filter_item_on_in in *.
  destruct (step_Step _ _ _ H); try (destruct o); fields; try (exact IH); intros [Hq Ep].
  1,2: apply in_app_or in Hq; destruct Hq as [Hq|[<-|[]]]; [right; apply IH; auto|left; reflexivity].
  1,3: apply IH; split; [eapply part_snd_in; eassumption|exact Ep].
  - apply IH. split; [eapply tf_rest_in; eassumption|exact Ep].
  - destruct Hq.
Qed.

Lemma chunk_on_eq : forall p c, chunk_on p c = true <-> c_pipe c = p.
Proof. intros. unfold chunk_on. apply Nat.eqb_eq. Qed.
Lemma filesp_in : forall p s c, In c (filesp p s) <-> In c (files s) /\ c_pipe c = p.
Proof. intros. unfold filesp. rewrite filter_In, chunk_on_eq. tauto. Qed.
Lemma itemsp_in : forall p s q, In q (itemsp p s) <-> In q (items s) /\ q_pipe q = p.
Proof. intros. unfold itemsp. apply filter_item_on_in. Qed.
Lemma recvp_in : forall p s c, In c (recvp p s) <-> In c (received s) /\ c_pipe c = p.
Proof. intros. unfold recvp. rewrite filter_In, chunk_on_eq. tauto. Qed.

Lemma chain_ids_of_items : forall p s q, In q (itemsp p s) -> In (q_id q) (chain p s).
Proof.
  intros p s q H. apply itemsp_in in H. destruct H as [H E]. unfold items in H. unfold chain.
  rewrite !in_app_iff in *. rewrite !idsp_in.
  assert (X : item_on p q = true) by (apply item_on_eq; assumption).
  destruct H as [H|[H|[H|[H|H]]]]; [do 4 right|do 3 right; left|do 2 right; left|right; left|left]; exists q; auto.
Qed.

Lemma NoDup_sublist : forall A (a b : list A), sublist a b -> NoDup b -> NoDup a.
Proof.
  induction 1; intros Hb; auto.
  - inversion Hb; subst. auto.
  - inversion Hb; subst. constructor; auto. intros Hx. apply H2. eapply sublist_in; eauto.
Qed.

Lemma filesp_snoc_nodup : forall p fl c,
  NoDup (map c_id (filter (chunk_on p) fl)) ->
  (c_pipe c = p -> forall c', In c' fl -> c_pipe c' = p -> c_id c' <> c_id c) ->
  NoDup (map c_id (filter (chunk_on p) (fl ++ [c]))).
Proof.
  intros p fl c Hn Hc. rewrite filter_app, map_app. cbn. destruct (chunk_on p c) eqn:E; cbn; [|rewrite app_nil_r; assumption].
  apply chunk_on_eq in E. apply NoDup_snoc; [assumption|].
  intros H. apply in_map_iff in H. destruct H as [c' [E' H]]. apply filter_In in H. destruct H as [H1 H2].
  apply chunk_on_eq in H2. exact (Hc E c' H1 H2 E').
Qed.

Lemma P4_files : forall p s c, ordp p s -> In c (files s) -> c_id c <= lastid s.
Proof. intros p s c Ho H. apply (P4 _ _ Ho). unfold all_chunks. rewrite !in_app_iff. tauto. Qed.
Lemma P4_items : forall p s q, ordp p s -> In q (items s) -> q_id q <= lastid s.
Proof. intros p s q Ho H. apply (P4 _ _ Ho (q_chunk q)). unfold all_chunks. rewrite !in_app_iff. left. apply in_map. assumption. Qed.
Lemma P4_received : forall p s c, ordp p s -> In c (received s) -> c_id c <= lastid s.
Proof. intros p s c Ho H. apply (P4 _ _ Ho). unfold all_chunks. rewrite !in_app_iff. tauto. Qed.


Lemma in_items : forall s q, In q (items s) <->
  In q (queue s) \/ In q (fhand s) \/ In q (window s) \/ In q (leftovers s) \/ In q (unacked s).
Proof. intros. unfold items. rewrite !in_app_iff. tauto. Qed.

(* writing an item of the pipeline to its file keeps the file ids distinct *)
Lemma persist_nodup : forall p s q ok fl dr, ordp p s -> In q (items s) -> persist q ok (files s) (dropped s) = (fl, dr) ->
  NoDup (map c_id (filter (chunk_on p) fl)).
Proof.
  intros p s q ok fl dr Ho Hq E. pose proof (P11 _ _ Ho) as IH. unfold filesp in IH.
  persist_cases; try (exact IH). apply filesp_snoc_nodup; [exact IH|]. intros Ep c' Hc' Ep'.
  apply (P12 _ _ Ho q); [apply itemsp_in; auto|assumption|apply filesp_in; auto].
Qed.

Lemma pres_P11 : forall p s e s', ordp p s -> order_safe_event e = true -> step s e = Some s' ->
  NoDup (map c_id (filesp p s')).
Proof.
  intros p s e s' Ho Hs H. pose proof (P11 _ _ Ho) as IH. unfold filesp in *.
  destruct (step_Step _ _ _ H); try (destruct o; try discriminate Hs); fields; try (exact IH).
  1,2: apply filesp_snoc_nodup; [exact IH|]; intros _ c' Hc' _; cbn; pose proof (P4_files _ _ _ Ho Hc'); lia.
  1,2,3,5: eapply persist_nodup; [exact Ho| |eassumption]; apply in_items; eauto 6 using tf_head_in.
  destruct (q_saved q); [|exact IH]. eapply NoDup_sublist; [|exact IH].
  apply sublist_map. apply sublist_filter_mono. unfold remove_file. apply sublist_filter.
Qed.

Lemma incr_mid : forall pre x post, incr (pre ++ x :: post) -> forall y, In y (pre ++ post) -> y <> x.
Proof.
  intros pre x post H y Hy. apply incr_NoDup in H. apply NoDup_remove_2 in H. intros ->. contradiction.
Qed.

Lemma idsp_intro : forall p l q, In q l -> q_pipe q = p -> In (q_id q) (idsp p l).
Proof. intros. apply idsp_in. exists q. rewrite item_on_eq. auto. Qed.

Lemma idsp_split : forall p x a b, q_pipe x = p -> idsp p (a ++ x :: b) = idsp p a ++ q_id x :: idsp p b.
Proof.
  intros p x a b Hx. rewrite idsp_app. unfold idsp at 2. cbn. apply item_on_eq in Hx. rewrite Hx. reflexivity.
Qed.

(* the chain lists every item of the pipeline once: the item taken from one of the five stages has an id
   different from the items of the pipeline at all other positions *)
Lemma taken_distinct : forall p s f l x r pre post, ordp p s -> q_pipe x = p -> take_first f l = Some (x, r) ->
  unacked s ++ leftovers s ++ window s ++ fhand s ++ queue s = pre ++ l ++ post ->
  forall q, In q (pre ++ r ++ post) -> q_pipe q = p -> q_id q <> q_id x.
Proof.
  intros p s f l x r pre post Ho Hx H E q Hq Ep. destruct (take_first_spec _ _ _ _ _ H) as [_ [a [b [-> [-> _]]]]].
  pose proof (P5 _ _ Ho) as C. unfold chain in C. rewrite <- !idsp_app, E, <- app_assoc, app_assoc, <- app_comm_cons in C.
  rewrite (idsp_split p x _ _ Hx) in C. apply (incr_mid _ _ _ C). rewrite <- idsp_app. apply idsp_intro; [|exact Ep].
  rewrite <- !app_assoc in *. exact Hq.
Qed.

Section Distinct.
Variables (p : nat) (s : state) (x : qitem) (r : list qitem) (f : qitem -> bool).
Hypothesis Ho : ordp p s.
Hypothesis Hx : q_pipe x = p.

Lemma distinct_unacked : take_first f (unacked s) = Some (x, r) ->
  forall q, In q (r ++ leftovers s ++ window s ++ fhand s ++ queue s) -> q_pipe q = p -> q_id q <> q_id x.
Proof. intros H. exact (taken_distinct p s f _ x r [] _ Ho Hx H eq_refl). Qed.
End Distinct.


Lemma pres_P12 : forall p s e s', ordp p s -> order_safe_event e = true -> step s e = Some s' ->
  forall q, In q (itemsp p s') -> q_saved q = false -> forall c, In c (filesp p s') -> c_id c <> q_id q.
Proof.
  intros p s e s' Ho Hs H q Hq Hu c Hc. apply itemsp_in in Hq. destruct Hq as [Hq Ep]. apply filesp_in in Hc. destruct Hc as [Hc Ec].
  assert (Old : forall c, In q (items s) -> In c (files s) -> c_pipe c = p -> c_id c <> q_id q).
  { intros c0 Hq0 Hc0 Ec0. apply (P12 _ _ Ho q); [apply itemsp_in|assumption|apply filesp_in]; auto. }
  revert Hq Hc. destruct (step_Step _ _ _ H); try (destruct o); try discriminate Hs; fields;
    try (intros Hq Hc; exact (Old c Hq Hc Ec)); item_mem q; intros Hq Hc.
  (* a new chunk: its id is above every file and every item *)
  1-4: destruct Hq as [[Hq|[<-|[]]]|Hq];
       [ | try discriminate Hu; pose proof (P4_files p s c Ho); cbn in *; intuition lia | ];
       (assert (X : In q (items s)) by (apply in_items; tauto));
       try (apply Old; assumption);
       (destruct Hc as [Hc|[<-|[]]]; [apply Old; assumption|pose proof (P4_items _ _ _ Ho X); cbn; lia]).
  (* the items and the files of the new state are among the old ones *)
  all: try (apply Old; [apply in_items; item_mem q; tauto|first [exact Hc|exact (ack_files_in _ _ _ Hc)]|exact Ec]; fail).
  { (* FeederLoad: the loaded item keeps its chunk and its file status *)
    destruct Hq as [Hq|[[<-|Hq]|Hq]]; try (apply Old; [apply in_items; item_mem q; tauto|exact Hc|exact Ec]).
    apply (P12 _ _ Ho q0); [apply itemsp_in; split; [apply in_items; eauto using tf_head_in|exact Ep]|exact Hu|apply filesp_in; auto]. }
  (* an item is written to its file: its id differs from those of the other items *)
  1-4: match goal with E : persist _ _ _ _ = _ |- _ => destruct (proj1 (persist_in _ _ _ _ _ _ E c) Hc) as [Hc0| <-] end;
       [apply Old; [apply in_items; item_mem q; tauto|exact Hc0|exact Ec]|apply not_eq_sym];
       first [eapply (taken_distinct p s _ (queue s) q0 rest (unacked s ++ leftovers s ++ window s ++ fhand s) []); [| |eassumption| | |]
             |eapply (taken_distinct p s _ (fhand s) q0 rest (unacked s ++ leftovers s ++ window s) (queue s)); [| |eassumption| | |]
             |eapply (taken_distinct p s _ (window s) q0 rest (unacked s ++ leftovers s) (fhand s ++ queue s)); [| |eassumption| | |]
             |eapply (taken_distinct p s _ (leftovers s) q0 rest (unacked s) (window s ++ fhand s ++ queue s)); [| |eassumption| | |]];
       [exact Ho|exact Ec|rewrite ?app_nil_r, <- ?app_assoc; reflexivity|rewrite !in_app_iff; cbn [In]; tauto|exact Ep].
  (* Restart: every recovered item is saved *)
  exfalso. unfold recovered_queue in Hq. rewrite sort_items_in, in_map_iff in Hq.
  destruct Hq as [[c0 [<- _]]|Hq]; [discriminate Hu|tauto].
Qed.


Lemma idsp_snoc : forall p l x, idsp p (l ++ [x]) = idsp p l ++ (if item_on p x then [q_id x] else []).
Proof. intros. rewrite idsp_app. unfold idsp at 2. cbn. destruct (item_on p x); reflexivity. Qed.
Lemma idsp_cons : forall p l x, idsp p (x :: l) = (if item_on p x then [q_id x] else []) ++ idsp p l.
Proof. intros. unfold idsp. cbn. destruct (item_on p x); reflexivity. Qed.

Lemma item_on_diff : forall p p0 x, p0 <> p -> item_on p0 x = true -> item_on p x = false.
Proof. intros p p0 x N H. apply item_on_eq in H. destruct (item_on p x) eqn:E; [apply item_on_eq in E; congruence|reflexivity]. Qed.

(* the item taken from a stage by its pipeline is the first one of that pipeline there *)
Lemma idsp_take : forall p p0 l q r, take_first (item_on p0) l = Some (q, r) -> idsp p l = idsp p [q] ++ idsp p r.
Proof.
  intros p p0 l q r H. pose proof (proj1 (take_first_spec _ _ _ _ _ H)) as Fq. destruct (Nat.eq_dec p0 p) as [->|N].
  - rewrite (idsp_take_same _ _ _ _ H), (idsp_single_same _ _ Fq). reflexivity.
  - rewrite (idsp_take_other _ _ _ _ _ N H), (idsp_single_other _ _ (item_on_diff _ _ _ N Fq)). reflexivity.
Qed.

Lemma idsp_part_other : forall p p0 l a b, p0 <> p -> partition (item_on p0) l = (a, b) -> idsp p l = idsp p b /\ idsp p a = [].
Proof.
  intros p p0 l a b N H. unfold idsp.
  destruct (partition_filter_out _ (item_on p0) (item_on p) l a b H) as [E1 E2].
  - intros y Hy. destruct (item_on p0 y) eqn:E; [|reflexivity]. rewrite (item_on_diff p p0 y N E) in Hy. discriminate.
  - rewrite E1, E2. split; reflexivity.
Qed.
Lemma idsp_part_same : forall p l a b, partition (item_on p) l = (a, b) -> idsp p l = idsp p a /\ idsp p b = [].
Proof.
  intros p l a b H. unfold idsp.
  destruct (partition_filter_in _ (item_on p) (item_on p) l a b H) as [E1 E2]; [auto|]. rewrite E1, E2. split; reflexivity.
Qed.

Lemma chain_le_lastid : forall p s x, ordp p s -> In x (chain p s) -> x <= lastid s.
Proof.
  intros p s x Ho H. unfold chain in H. rewrite !in_app_iff in H. rewrite !idsp_in in H.
  assert (X : exists q, In q (items s) /\ q_id q = x).
  { unfold items. destruct H as [H|[H|[H|[H|H]]]]; destruct H as [q [H1 [_ H3]]]; exists q; rewrite !in_app_iff; tauto. }
  destruct X as [q [Hq <-]]. eapply P4_items; eauto.
Qed.

Lemma incr_snoc_chain : forall a b c d e x, incr (a ++ b ++ c ++ d ++ e) ->
  (forall y, In y (a ++ b ++ c ++ d ++ e) -> y < x) -> incr (a ++ b ++ c ++ d ++ e ++ [x]).
Proof.
  intros a b c d e x H Hx.
  replace (a ++ b ++ c ++ d ++ e ++ [x]) with ((a ++ b ++ c ++ d ++ e) ++ [x]) by (rewrite <- !app_assoc; reflexivity).
  apply incr_app. split; [assumption|]. split; [apply incr_single|]. intros u v Hu [<-|[]]. auto.
Qed.

Lemma idsp_sort : forall p L, NoDup (idsp p L) ->
  incr (idsp p (sort_items L)) /\ (forall z, In z (idsp p (sort_items L)) <-> In z (idsp p L)).
Proof.
  intros p L Hn. split; [apply sorted_ids_incr; exact Hn|].
  intros z. rewrite !idsp_in. split; intros [q [H1 H2]]; exists q; (split; [|exact H2]); apply sort_items_in; assumption.
Qed.

Lemma chain_resort : forall ua lo rest ua' lo',
  incr (ua ++ lo ++ rest) -> incr lo' -> incr ua' ->
  (forall z, In z ua' -> In z ua) -> (forall z, In z lo' -> In z ua \/ In z lo) ->
  (forall x y, In x ua' -> In y lo' -> x < y) ->
  incr (ua' ++ lo' ++ rest).
Proof.
  intros ua lo rest ua' lo' H Hl Hu Mu Ml Hc. rewrite !incr_app in *.
  destruct H as [H1 [[H2 [H3 H4]] H5]]. repeat split; auto.
  - intros x y Hx Hy. destruct (Ml x Hx) as [X|X]; [apply H5; [assumption|apply in_or_app; auto]|apply H4; assumption].
  - intros x y Hx Hy. apply in_app_or in Hy. destruct Hy as [Hy|Hy]; [apply Hc; assumption|].
    apply H5; [apply Mu; assumption|apply in_or_app; auto].
Qed.

(* a session ends: the unacknowledged chunks of pipeline p0 (and what the client held, [extra]) join its leftovers, sorted by id *)
Lemma resort_chain : forall p p0 s mine others extra R,
  partition (item_on p0) (unacked s) = (mine, others) -> (forall x, In x extra -> item_on p0 x = true) ->
  incr (idsp p (unacked s) ++ idsp p (leftovers s) ++ idsp p extra ++ R) ->
  incr (idsp p others ++ idsp p (sort_items (leftovers s ++ mine ++ extra)) ++ R).
Proof.
  intros p p0 s mine others extra R Hp He IH.
  assert (El : forall z, In z (idsp p (leftovers s ++ mine ++ extra)) <->
                         In z (idsp p mine) \/ In z (idsp p (leftovers s) ++ idsp p extra))
    by (intros z; rewrite !idsp_app, !in_app_iff; tauto).
  rewrite (app_assoc (idsp p (leftovers s))) in IH.
  destruct (Nat.eq_dec p0 p) as [->|N].
  - destruct (idsp_part_same _ _ _ _ Hp) as [Eu Eo]. rewrite Eu in IH. rewrite Eo.
    assert (Hn : NoDup (idsp p (leftovers s ++ mine ++ extra))).
    { rewrite !idsp_app. eapply Permutation_NoDup; [apply Permutation_app_swap_app|].
      apply incr_NoDup. rewrite app_assoc, incr_app in IH. tauto. }
    destruct (idsp_sort _ _ Hn) as [S1 S2].
    apply (chain_resort _ _ _ [] _ IH S1 I); [intros ? []| |intros ? ? []].
    intros z Hz. apply S2, El in Hz. exact Hz.
  - destruct (idsp_part_other _ _ _ _ _ N Hp) as [Eu Em]. rewrite Eu in IH.
    assert (Ex : idsp p extra = []) by (apply idsp_none; intros y Hy; exact (item_on_diff _ _ _ N (He y Hy))).
    rewrite Em, Ex, app_nil_r in El. rewrite Ex, app_nil_r in IH.
    assert (Hn : NoDup (idsp p (leftovers s ++ mine ++ extra))).
    { rewrite !idsp_app, Em, Ex, !app_nil_r. apply incr_NoDup. rewrite !incr_app in IH. exact (proj1 (proj1 (proj2 IH))). }
    destruct (idsp_sort _ _ Hn) as [S1 S2].
    apply (chain_resort _ _ _ _ _ IH S1); [rewrite !incr_app in IH; tauto|auto| |].
    + intros z Hz. apply S2, El in Hz. destruct Hz as [[]|Hz]. auto.
    + intros x y Hx Hy. apply S2, El in Hy. destruct Hy as [[]|Hy]. rewrite !incr_app in IH. destruct IH as [_ [_ C]].
      apply C; [assumption|apply in_or_app; auto].
Qed.

Lemma recovered_ids : forall p fl, idsp p (map (fun c => new_item c false true) fl) = map c_id (filter (chunk_on p) fl).
Proof.
  intros p fl. unfold idsp. induction fl as [|c fl IH]; cbn; [reflexivity|].
  unfold item_on at 1, q_pipe at 1, chunk_on at 1. cbn. destruct (Nat.eqb (c_pipe c) p); cbn; [f_equal|]; exact IH.
Qed.

Lemma pres_P5 : forall p s e s', ordp p s -> order_safe_event e = true -> step s e = Some s' -> incr (chain p s').
Proof.
  intros p s e s' Ho Hs H. pose proof (P5 _ _ Ho) as IH. unfold chain in *.
  destruct (step_Step _ _ _ H); try (destruct o); try discriminate Hs; fields; try (exact IH).
  (* a new chunk enters the queue with an id above every existing one *)
  1-4: rewrite idsp_snoc; match goal with |- context [item_on ?pp ?q] => destruct (item_on pp q) end;
       [apply incr_snoc_chain; [exact IH|]; intros y Hy; pose proof (chain_le_lastid _ _ y Ho Hy); cbn; lia
       |rewrite app_nil_r; exact IH].
  (* removals: the new chain is a sublist of the old one *)
  all: try (eapply incr_sublist; [|exact IH];
            repeat (apply sublist_app; [first [apply sublist_refl|apply idsp_sublist; eapply take_first_sublist; eassumption]|]);
            first [apply sublist_refl|apply idsp_sublist; eapply take_first_sublist; eassumption]; fail).
  (* moves: the item taken is the first of its stage and becomes the last of the stage before *)
  all: try (match goal with E : take_first (item_on _) _ = Some _ |- _ => rewrite (idsp_take p _ _ _ _ E) in IH end;
            rewrite ?idsp_app; rewrite <- ?app_assoc in *; exact IH).
  - (* FeederLoad: the loaded item stands for the one taken *)
    rewrite (idsp_take p _ _ _ _ Tf), (idsp_cons p [] q) in IH. change (idsp p []) with (@nil nat) in IH.
    rewrite app_nil_r in IH. rewrite idsp_cons. exact IH.
  - (* SendNew: no leftover of the pipeline is waiting *)
    rewrite (idsp_take p _ _ _ _ Tf) in IH. rewrite idsp_app. destruct (item_on p q) eqn:Fq.
    + assert (p0 = p) by (apply item_on_eq in Fq; apply take_first_spec in Tf; destruct Tf as [F _]; apply item_on_eq in F; congruence).
      subst p0. rewrite (idsp_none _ _ (proj1 (none_of_spec _ _ _) Nl)) in *. rewrite <- ?app_assoc in *. exact IH.
    + rewrite (idsp_single_other _ _ Fq) in *. rewrite app_nil_r. exact IH.
  - (* SendNewFail: the chunk taken from the window joins the leftovers too *)
    rewrite (idsp_take p _ _ _ _ Tf), <- app_assoc in IH.
    apply (resort_chain p p0 s mine others [q] _ Pt); [|exact IH].
    intros x [<-|[]]. exact (proj1 (take_first_spec _ _ _ _ _ Tf)).
  - (* SessionEnd *)
    rewrite <- (app_nil_r mine). apply (resort_chain p p0 s mine others [] _ Pt); [intros ? []|exact IH].
  - (* Restart *)
    unfold idsp at 1 2 3 4. cbn [filter map app]. unfold recovered_queue.
    apply sorted_ids_incr. fold (idsp p (map (fun c => new_item c false true) (files s))).
    rewrite recovered_ids. exact (P11 _ _ Ho).
Qed.


Lemma itemchunk_in : forall p s c, In c (map q_chunk (itemsp p s)) <-> In c (map q_chunk (items s)) /\ c_pipe c = p.
Proof.
  intros. rewrite !in_map_iff. split.
  - intros [q [E H]]. apply itemsp_in in H. destruct H as [H1 H2]. subst c. split; [eauto|exact H2].
  - intros [[q [E H]] Ep]. exists q. split; [assumption|]. apply itemsp_in. subst c. auto.
Qed.

(* the events that take an item out of the five stages *)
Definition removing (e : event) : bool :=
  match e with ESave _ _ _ | EHandback _ _ | EAckRead _ _ | EFeederLoad _ false | ERestart => true | _ => false end.

Lemma item_chunks_kept : forall s e s', step s e = Some s' -> removing e = false ->
  forall c, In c (map q_chunk (items s)) -> In c (map q_chunk (items s')).
Proof.
  intros s e s' H Hr c. destruct (step_Step _ _ _ H); try discriminate Hr;
    try match goal with |- context [do_accept _ _ ?o] => destruct o end; fields; try (exact (fun Y => Y)); chunk_mem c; tauto.
Qed.

Lemma in_dec_chunk : forall (c : chunk) l, {In c l} + {~ In c l}.
Proof. intros. apply in_dec. apply chunk_eq_dec. Qed.

(* a file of the pipeline whose chunk is in none of the stages and was never received *)
Definition orphan (p : nat) (s : state) (c : chunk) : Prop :=
  (In c (files s) /\ c_pipe c = p) /\ ~ (In c (map q_chunk (items s)) /\ c_pipe c = p) /\ ~ In c (received s).

Definition persisting (e : event) : bool := match e with ESave _ _ _ | EHandback _ _ => true | _ => false end.

(* orphans arise only when an item is written to its file at shutdown *)
Lemma orphan_step : forall p s e s' c, ordp p s -> order_safe_event e = true -> step s e = Some s' ->
  orphan p s' c -> orphan p s c \/ (persisting e = true /\ In c (map q_chunk (items s))).
Proof.
  intros p s e s' c Ho Hs H [[Hf Ec] [Hi Hr]].
  destruct (in_dec_chunk c (map q_chunk (items s))) as [Hc|Hc].
  - (* c had an item: an item was taken out *)
    destruct (removing e) eqn:Re; [|exfalso; apply Hi; split; [exact (item_chunks_kept _ _ _ H Re c Hc)|exact Ec]].
    destruct (step_Step _ _ _ H); try discriminate Re; try discriminate Hs; try (right; split; [reflexivity|exact Hc]); exfalso.
    + (* AckRead: the confirmed chunk was received *)
      destruct (chunk_eq_dec (q_chunk q) c) as [Eq|Nq].
      * apply Hr. rewrite <- Eq. apply (P6 _ _ Ho q). apply filter_item_on_in. split;
          [eapply tf_head_in; eassumption|unfold q_pipe; rewrite Eq; exact Ec].
      * apply Hi. split; [|exact Ec]. revert Hc. fields. chunk_mem c. tauto.
    + (* Restart: every file has an item again *)
      apply Hi. split; [|exact Ec]. revert Hf. fields. chunk_mem c. tauto.
  - left. split; [split; [|exact Ec]|split; [tauto|]].
    + revert Hf Hi. destruct (step_Step _ _ _ H); try match goal with |- context [do_accept _ _ ?o] => destruct o end;
        try discriminate Hs; fields; try (intros Hf _; exact Hf); intros Hf Hi.
      (* ADisk: the new file has an item *)
      1,2: apply in_app_or in Hf; destruct Hf as [Hf|[<-|[]]]; [exact Hf|];
           exfalso; apply Hi; split; [|exact Ec]; rewrite !map_app, !in_app_iff; cbn; tauto.
      (* an item is written to its file: c is not its chunk *)
      all: try (match goal with E : persist _ _ _ _ = _ |- _ => destruct (proj1 (persist_in _ _ _ _ _ _ E c) Hf) as [Y|Y] end;
                [exact Y|exfalso; apply Hc; rewrite <- Y; apply in_map; apply in_items; eauto 6 using tf_head_in]).
      exact (ack_files_in _ _ _ Hf).
    + intros Y. apply Hr. revert Y. destruct (step_Step _ _ _ H); try match goal with |- context [do_accept _ _ ?o] => destruct o end;
        fields; try (exact (fun Y => Y)); intros Y; right; exact Y.
Qed.

Lemma pres_P9 : forall p s e s', ordp p s -> order_safe_event e = true -> step s e = Some s' ->
  forall c, In c (filesp p s') -> ~ In c (map q_chunk (itemsp p s')) -> ~ In c (received s') ->
  pph s' p = PSaving \/ pph s' p = PDone.
Proof.
  intros p s e s' Ho Hs H c Hf Hi Hr. rewrite filesp_in, itemchunk_in in *.
  destruct (orphan_step p s e s' c Ho Hs H (conj Hf (conj Hi Hr))) as [[Of [Oi Or]]|[Pe Hc]].
  - (* c was an orphan before: the phase of its pipeline can only move on *)
    assert (X : pph s p = PSaving \/ pph s p = PDone) by (apply (P9 _ _ Ho c); [apply filesp_in|rewrite itemchunk_in|]; assumption).
    destruct (step_Step _ _ _ H); try match goal with |- context [do_accept _ _ ?o] => destruct o end; fields; try (exact X).
    all: try (by_pipe p p0; [first [destruct X; congruence|auto]|exact X]).
    exfalso. apply Hi. split; [|tauto]. fields. chunk_mem c. tauto.
  - (* c has just been written: its pipeline is saving, or its client hands back *)
    destruct (step_Step _ _ _ H); try discriminate Pe; fields;
      (destruct (chunk_eq_dec (q_chunk q) c) as [Eq|Nq]; [|exfalso; apply Hi; split; [|tauto]; revert Hc; fields; chunk_mem c; tauto]);
      pose proof (proj1 (take_first_spec _ _ _ _ _ ltac:(eassumption))) as Fq; apply item_on_eq in Fq;
      (assert (Ep : p0 = p) by (unfold q_pipe in Fq; destruct Hf; congruence)); rewrite Ep in *; [left; assumption..|].
    apply (P13 _ _ Ho). left. assumption.
Qed.

Lemma sendable_in : forall p s q, In q (sendable p s) <-> (In q (unacked s) \/ In q (leftovers s) \/ In q (window s)) /\ q_pipe q = p.
Proof. intros. unfold sendable. rewrite filter_item_on_in, !in_app_iff. tauto. Qed.

Lemma sendable_lt_back : forall p s q q', ordp p s -> In q (sendable p s) ->
  (In q' (fhand s) \/ In q' (queue s)) -> q_pipe q' = p -> q_id q < q_id q'.
Proof.
  intros p s q q' Ho Hq Hq' Ep'. apply sendable_in in Hq. destruct Hq as [Hq Ep].
  pose proof (P5 _ _ Ho) as C. unfold chain in C.
  assert (A : In (q_id q) (idsp p (unacked s) ++ idsp p (leftovers s) ++ idsp p (window s))).
  { rewrite !in_app_iff. destruct Hq as [Hq|[Hq|Hq]]; [left|right; left|right; right]; apply idsp_intro; assumption. }
  assert (B : In (q_id q') (idsp p (fhand s) ++ idsp p (queue s))).
  { rewrite in_app_iff. destruct Hq' as [Hq'|Hq']; [left|right]; apply idsp_intro; assumption. }
  replace (idsp p (unacked s) ++ idsp p (leftovers s) ++ idsp p (window s) ++ idsp p (fhand s) ++ idsp p (queue s))
    with ((idsp p (unacked s) ++ idsp p (leftovers s) ++ idsp p (window s)) ++ idsp p (fhand s) ++ idsp p (queue s)) in C
    by (rewrite <- !app_assoc; reflexivity).
  apply incr_app in C. destruct C as [_ [_ C]]. apply C; assumption.
Qed.

(* the only way into the stages the client sends from is the feeder's push *)
Lemma sendable_step : forall p s e s', step s e = Some s' -> forall q, In q (sendable p s') ->
  In q (sendable p s) \/
  exists p0 rest, e = EFeederPush p0 /\ take_first (item_on p0) (fhand s) = Some (q, rest) /\ feeder_alive (pph s p0) = true.
Proof.
  intros p s e s' H q. rewrite !sendable_in.
  destruct (step_Step _ _ _ H); try match goal with |- context [do_accept _ _ ?o] => destruct o end;
    fields; try (left; assumption); intros [Hq Ep]; revert Hq; item_mem q; intros Hq.
  all: try (left; split; [tauto|exact Ep]).
  destruct Hq as [Hq|[Hq|[Hq|[<-|[]]]]]; [left; split; [tauto|exact Ep]..|right; eauto].
Qed.

Lemma pres_P8 : forall p s e s', ordp p s -> order_safe_event e = true -> step s e = Some s' ->
  forall c, In c (filesp p s') -> ~ In c (map q_chunk (itemsp p s')) -> ~ In c (received s') ->
  cph s' p = CHanding \/ cph s' p = CDone \/ (forall q, In q (sendable p s') -> q_id q < c_id c).
Proof.
  intros p s e s' Ho Hs H c Hf Hi Hr. rewrite filesp_in, itemchunk_in in *.
  destruct (orphan_step p s e s' c Ho Hs H (conj Hf (conj Hi Hr))) as [[Of [Oi Or]]|[Pe Hc]].
  - (* c was an orphan before *)
    assert (X : cph s p = CHanding \/ cph s p = CDone \/ (forall q, In q (sendable p s) -> q_id q < c_id c))
      by (apply (P8 _ _ Ho c); [apply filesp_in|rewrite itemchunk_in|]; assumption).
    assert (X9 : pph s p = PSaving \/ pph s p = PDone)
      by (apply (P9 _ _ Ho c); [apply filesp_in|rewrite itemchunk_in|]; assumption).
    assert (Y : cph s p = CHanding \/ cph s p = CDone \/ (forall q, In q (sendable p s') -> q_id q < c_id c)).
    { destruct X as [X|[X|X]]; [tauto|tauto|]. right. right. intros q Hq.
      destruct (sendable_step p s e s' H q Hq) as [Z|[p0 [rest [_ [Z Al]]]]]; [exact (X q Z)|].
      (* the feeder of an orphan's pipeline pushes no more *)
      exfalso. apply sendable_in in Hq.
      pose proof (proj1 (take_first_spec _ _ _ _ _ Z)) as Fq. apply item_on_eq in Fq.
      assert (Ep0 : p0 = p) by (destruct Hq; congruence). rewrite Ep0 in Al. destruct X9 as [X9|X9]; rewrite X9 in Al; discriminate Al. }
    clear X. destruct (step_Step _ _ _ H); try match goal with |- context [do_accept _ _ ?o] => destruct o end; fields; try (exact Y).
    all: try (by_pipe p p0; [|exact Y]; destruct Y as [Y|[Y|Y]]; solve [congruence|auto]).
    exfalso. apply Hi. split; [|tauto]. fields. chunk_mem c. tauto.
  - (* c has just been written: it is newer than everything sendable, or the client is past sending *)
    destruct (step_Step _ _ _ H); try discriminate Pe; fields;
      (destruct (chunk_eq_dec (q_chunk q) c) as [Eq|Nq]; [|exfalso; apply Hi; split; [|tauto]; revert Hc; fields; chunk_mem c; tauto]);
      pose proof (proj1 (take_first_spec _ _ _ _ _ ltac:(eassumption))) as Fq; apply item_on_eq in Fq;
      (assert (Ep : p0 = p) by (unfold q_pipe in Fq; destruct Hf; congruence)); rewrite Ep in *; [| |tauto|tauto].
    all: right; right; intros q0 Hq0; destruct (sendable_step p s _ _ H q0 Hq0) as [Z|[p1 [r1 [Z _]]]]; [|discriminate Z];
         rewrite <- Eq; apply (sendable_lt_back p s q0 q Ho Z); [|exact Fq]; eauto using tf_head_in.
Qed.

(* the client transmits q next: its first leftover, or the head of the window when no leftover waits *)
Definition sends (s : state) (q : qitem) : Prop :=
  cph s (q_pipe q) = CSess /\
  ((exists rest, take_first (item_on (q_pipe q)) (leftovers s) = Some (q, rest)) \/
   (none_of (item_on (q_pipe q)) (leftovers s) = true /\ exists rest, take_first (item_on (q_pipe q)) (window s) = Some (q, rest))).

Lemma received_step : forall s e s', step s e = Some s' ->
  received s' = received s \/ exists q, sends s q /\ received s' = q_chunk q :: received s.
Proof.
  intros s e s' H. destruct (step_Step _ _ _ H); try match goal with |- context [do_accept _ _ ?o] => destruct o end;
    fields; try (left; reflexivity); right; exists q; (split; [|reflexivity]);
    pose proof (proj1 (take_first_spec _ _ _ _ _ ltac:(eassumption))) as Fq; apply item_on_eq in Fq; unfold sends; rewrite Fq; eauto.
Qed.

(* chunk c was cut off the current chunk of its pipeline by the step *)
Definition closes (s : state) (c : chunk) (s' : state) : Prop :=
  exists others o, lastid s < c_id c /\ partition (on_pipe (c_pipe c)) (cur s) = (c_toks c, others) /\
    let s1 := do_accept (cut_chunk s others (c_id c)) c o in s' = s1 \/ s' = set_pph s1 (c_pipe c) PWStopped.

(* a chunk in a stage or in a file was there before the step, or has just been closed *)
Lemma held_step : forall s e s', step s e = Some s' ->
  forall c, In c (map q_chunk (items s')) \/ In c (files s') ->
  (In c (map q_chunk (items s)) \/ In c (files s)) \/ closes s c s'.
Proof.
  intros s e s' H c. destruct (step_Step _ _ _ H); try (left; assumption).
  1,2: intros Hc;
       (assert (X : (In c (map q_chunk (items s)) \/ In c (files s)) \/ mkChunk id p mine = c)
          by (revert Hc; destruct o; fields; chunk_mem c; tauto));
       destruct X as [X| <-]; [left; exact X|right; exists others, o; cbn; auto].
  all: fields; chunk_mem c; try tauto.
  all: try match goal with E : persist _ _ _ _ = _ |- _ => destruct (persist_in _ _ _ _ _ _ E c); tauto end.
  pose proof (ack_files_in q (files s) c). tauto.
Qed.

(* a chunk in one of the histories was there before, or comes from a stage, or has just been closed and dropped *)
Lemma hist_step : forall s e s', step s e = Some s' ->
  forall c, In c (acked s' ++ dropped s' ++ received s') ->
  In c (map q_chunk (items s) ++ acked s ++ dropped s ++ received s) \/ closes s c s'.
Proof.
  intros s e s' H c. destruct (step_Step _ _ _ H); try (intros Hc; left; apply in_or_app; right; exact Hc).
  1,2: intros Hc;
       (assert (X : In c (acked s ++ dropped s ++ received s) \/ mkChunk id p mine = c)
          by (revert Hc; destruct o; fields; rewrite !in_app_iff; cbn [In]; tauto));
       destruct X as [X| <-]; [left; apply in_or_app; right; exact X|right; exists others, o; cbn; auto].
  all: fields; chunk_mem c; try tauto.
  all: match goal with E : persist _ _ _ _ = _ |- _ => destruct (persist_in _ _ _ _ _ _ E c); tauto end.
Qed.

(* no step invents a chunk: every chunk of the new state was there before or has just been closed *)
Lemma chunks_step : forall s e s', step s e = Some s' ->
  forall c, In c (all_chunks s') -> In c (all_chunks s) \/ closes s c s'.
Proof.
  intros s e s' H c Hc. unfold all_chunks in *. rewrite app_assoc in Hc. apply in_app_or in Hc. destruct Hc as [Hc|Hc].
  - destruct (held_step _ _ _ H c) as [Old|Cl]; [apply in_app_or; exact Hc| |right; exact Cl].
    left. rewrite app_assoc. apply in_or_app. left. apply in_or_app. exact Old.
  - destruct (hist_step _ _ _ H c Hc) as [Old|Cl]; [|right; exact Cl].
    left. rewrite !in_app_iff in *. tauto.
Qed.

Lemma lastid_mono : forall s e s', step s e = Some s' -> lastid s <= lastid s'.
Proof.
  intros s e s' H. destruct (step_Step _ _ _ H); try (destruct o); fields; auto using Nat.lt_le_incl.
Qed.

Lemma pres_P4 : forall s e s', (forall c, In c (all_chunks s) -> c_id c <= lastid s) -> step s e = Some s' ->
  forall c, In c (all_chunks s') -> c_id c <= lastid s'.
Proof.
  intros s e s' IH H c Hc. destruct (chunks_step _ _ _ H c Hc) as [Old|[others [o [_ [_ E]]]]].
  - pose proof (IH c Old). pose proof (lastid_mono _ _ _ H). lia.
  - cbv zeta in E. destruct E as [-> | ->]; destruct o; apply Nat.le_refl.
Qed.

Lemma closes_received : forall s c s', closes s c s' -> lastid s < c_id c /\ received s' = received s.
Proof. intros s c s' [others [o [L [_ E]]]]. split; [exact L|]. cbv zeta in E. destruct E as [-> | ->]; destruct o; reflexivity. Qed.

(* what is transmitted stands in the chain before every other item of the pipeline not yet transmitted *)
Lemma sends_first : forall p s q q', ordp p s -> sends s q -> q_pipe q = p ->
  In q' (items s) -> q_pipe q' = p -> q' <> q -> In q' (unacked s) \/ q_id q < q_id q'.
Proof.
  intros p s q q' Ho [_ Hq] Ep Hq' Ep' Ne. rewrite Ep in Hq. pose proof (P5 _ _ Ho) as C. unfold chain in C.
  apply incr_app in C. destruct C as [_ [C _]]. apply in_items in Hq'.
  destruct Hq as [[rest E]|[Hn [rest E]]]; [|rewrite none_of_spec in Hn; rewrite (idsp_none _ _ Hn) in C]; rewrite (idsp_take_same _ _ _ _ E) in C;
    destruct C as [C _]; rewrite <- !idsp_app in C; rewrite (take_first_in _ _ _ _ _ E q') in Hq';
    (destruct Hq' as [Hq'|[Hq'|[Hq'|[Hq'|Hq']]]]; [| | | |left; exact Hq']); right; apply C;
    try (apply idsp_intro; [rewrite !in_app_iff; intuition congruence|exact Ep']).
  exfalso. specialize (Hn q' Hq'). apply item_on_eq in Ep'. congruence.
Qed.

(* what is transmitted is older than every chunk of the pipeline still held and never received *)
Lemma sent_is_oldest : forall p s q c, ordp p s -> sends s q -> q_pipe q = p ->
  (In c (map q_chunk (items s)) \/ In c (files s)) -> c_pipe c = p -> ~ In c (q_chunk q :: received s) ->
  c_id (q_chunk q) < c_id c.
Proof.
  intros p s q c Ho Sq Ep Hc Ec Hr.
  assert (Hr0 : ~ In c (received s)) by (intros Y; apply Hr; right; exact Y).
  destruct (in_dec_chunk (q_chunk q) (received s)) as [Rq|NRq].
  { apply (P7 _ _ Ho c); [rewrite filesp_in, itemchunk_in; tauto|exact Hr0|apply recvp_in; auto]. }
  destruct (in_dec_chunk c (map q_chunk (items s))) as [Hi|Hi].
  - (* c is in a stage: not among the unacknowledged ones, which were all received *)
    apply in_map_iff in Hi. destruct Hi as [q' [<- Hq']].
    destruct (sends_first p s q q' Ho Sq Ep Hq' Ec) as [Hu|Hl]; [intros ->; apply Hr; left; reflexivity| |exact Hl].
    exfalso. apply Hr0. apply (P6 _ _ Ho q'). apply filter_item_on_in. auto.
  - (* c is an orphan file: everything sendable is older *)
    destruct (P8 _ _ Ho c) as [X|[X|X]]; [apply filesp_in; tauto|rewrite itemchunk_in; tauto|exact Hr0| | |].
    1,2: destruct Sq as [Sq _]; rewrite Ep in Sq; congruence.
    apply X. apply sendable_in. split; [|exact Ep].
    destruct Sq as [_ [[rest E]|[_ [rest E]]]]; eauto using tf_head_in.
Qed.

Lemma pres_P7 : forall p s e s', ordp p s -> step s e = Some s' ->
  forall c, (In c (map q_chunk (itemsp p s')) \/ In c (filesp p s')) -> ~ In c (received s') ->
  forall a, In a (recvp p s') -> c_id a < c_id c.
Proof.
  intros p s e s' Ho H c Hc Hr a Ha. rewrite filesp_in, itemchunk_in in Hc. apply recvp_in in Ha. destruct Ha as [Ha Ea].
  assert (Ec : c_pipe c = p) by tauto.
  destruct (held_step _ _ _ H c) as [Old|Cl]; [tauto| |].
  - (* c was held before: a was received before, or is transmitted now *)
    destruct (received_step _ _ _ H) as [R|[q [Sq R]]]; rewrite R in *.
    + apply (P7 _ _ Ho c); [rewrite filesp_in, itemchunk_in; tauto|exact Hr|apply recvp_in; auto].
    + destruct Ha as [<-|Ha].
      * apply (sent_is_oldest p s q c Ho Sq Ea Old Ec Hr).
      * apply (P7 _ _ Ho c); [rewrite filesp_in, itemchunk_in; tauto|intros Y; apply Hr; right; exact Y|apply recvp_in; auto].
  - (* c is new: its id is above every id given before *)
    destruct (closes_received _ _ _ Cl) as [L R]. rewrite R in Ha. pose proof (P4_received _ _ _ Ho Ha). lia.
Qed.

Lemma pres_P10 : forall p s e s', ordp p s -> step s e = Some s' -> ro (recvp p s').
Proof.
  intros p s e s' Ho H. pose proof (P10 _ _ Ho) as IH. unfold recvp in *.
  destruct (received_step _ _ _ H) as [R|[q [Sq R]]]; rewrite R; [exact IH|].
  cbn [filter]. destruct (chunk_on p (q_chunk q)) eqn:Ec; [|exact IH]. cbn [ro]. split; [|exact IH]. apply chunk_on_eq in Ec.
  destruct (in_dec_chunk (q_chunk q) (received s)) as [Rq|NRq].
  - left. apply filter_In. split; [exact Rq|apply chunk_on_eq; exact Ec].
  - right. intros a Ha. apply (P7 _ _ Ho (q_chunk q)); [|exact NRq|exact Ha].
    left. apply in_map. apply itemsp_in. split; [|exact Ec]. apply in_items.
    destruct Sq as [_ [[rest E]|[_ [rest E]]]]; eauto 6 using tf_head_in.
Qed.

Lemma ordp_init : forall p, ordp p init.
Proof.
  intros p. constructor; cbn; try (intros; contradiction); try tauto.
  - constructor.
  - intros [H|H]; discriminate H.
Qed.

Lemma ordp_step : forall p s e s', ordp p s -> order_safe_event e = true -> step s e = Some s' -> ordp p s'.
Proof.
  intros p s e s' Ho Hs H. constructor.
  - eapply pres_P4; [exact (P4 _ _ Ho)|exact H].
  - eapply pres_P5; eauto.
  - eapply pres_P6; eauto.
  - eapply pres_P7; eauto.
  - eapply pres_P8; eauto.
  - eapply pres_P9; eauto.
  - eapply pres_P10; eauto.
  - eapply pres_P11; eauto.
  - eapply pres_P12; eauto.
  - eapply pres_P13; eauto.
Qed.

Lemma ordp_steps : forall p es s s', ordp p s -> order_safe es = true -> steps s es = Some s' -> ordp p s'.
Proof.
  intros p es s s' Ho Hs H.
  exact (steps_inv (fun e => order_safe_event e = true) (ordp p) (ordp_step p) es s s' Ho (proj1 (forallb_forall _ _) Hs) H).
Qed.
