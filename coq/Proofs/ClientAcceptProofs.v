(* C02 — soundness of the trace acceptor: an accepted observation list is the observable projection of
   a run of the client LTS (inside the connection contract when the acceptor was asked to stay inside it),
   and the projection printed is that of the state the run ends in. *)
From SV Require Import Model.Common Model.Client Model.ClientAccept Spec.ClientSpec
     Proofs.ClientBase Proofs.ClientSafety Proofs.ClientHistory.
From Coq Require Import Lia.

Lemma obs_of_snoc : forall tr e, obs_of (tr ++ [e]) = obs_of tr ++ (if is_obs e then [e] else []).
Proof. intros. unfold obs_of. rewrite filter_app. simpl. destruct (is_obs e); reflexivity. Qed.

Section Acceptor.
Variable P : params.
Variable bug : bool.

(* every state of the set is reached by a run whose observable projection is [os] *)
Definition good (os : list event) (S : list state) : Prop :=
  forall s, In s S -> exists tr, run P init tr = Some s /\ obs_of tr = os /\ (bug = false -> in_contract tr).

Lemma taus_hidden : forall s e, In e (taus bug s) -> is_obs e = false /\ (bug = false -> e <> EBugTimeout).
Proof.
  intros s e H. unfold taus in H. repeat (apply in_app_or in H; destruct H as [H|H]).
  1: simpl in H; repeat (destruct H as [<-|H]; [split; [reflexivity|discriminate]|]); contradiction.
  1: destruct bug; simpl in H; [|contradiction]; destruct H as [<-|[]]; split; [reflexivity|discriminate].
  (* the head of the leftovers, of the queue, of ackerChan *)
  all: try (destruct (cur s) as [ss|]; [|contradiction]).
  all: unfold hd_events in H; match type of H with In _ match ?l with _ => _ end => destruct l end; [contradiction|].
  all: destruct H as [<-|[]]; split; [reflexivity|discriminate].
Qed.

Lemma add_new_In : forall l acc x, In x (add_new l acc) -> In x l \/ In x acc.
Proof.
  induction l as [|a l IH]; intros acc x H; simpl in H; [right; exact H|].
  destruct (existsb (state_eqb a) acc).
  - destruct (IH _ _ H); auto. left. right. assumption.
  - destruct (IH _ _ H) as [H1|H1]; [left; right; exact H1|].
    apply in_app_or in H1. destruct H1 as [H1|[<-|[]]]; [right; exact H1|left; left; reflexivity].
Qed.

Lemma filter_map_In : forall (A B : Type) (f : A -> option B) l y,
  In y (filter_map f l) -> exists x, In x l /\ f x = Some y.
Proof.
  induction l as [|a l IH]; intros y H; simpl in H; [contradiction|].
  destruct (f a) eqn:E.
  - destruct H as [<-|H]; [exists a; split; [left; reflexivity|exact E]|].
    destruct (IH _ H) as (x & Hx & Hf). exists x. split; [right; exact Hx|exact Hf].
  - destruct (IH _ H) as (x & Hx & Hf). exists x. split; [right; exact Hx|exact Hf].
Qed.

Lemma in_contract_snoc : forall tr e, in_contract tr -> e <> EBugTimeout -> in_contract (tr ++ [e]).
Proof.
  unfold in_contract. intros tr e H1 H2 H. apply in_app_or in H. destruct H as [H|[H|[]]]; [auto|congruence].
Qed.

Lemma good_tau : forall os S, good os S -> good os (add_new (tau_succ P bug S) S).
Proof.
  intros os S HS s' Hin. apply add_new_In in Hin. destruct Hin as [Hin|Hin]; [|apply HS; exact Hin].
  unfold tau_succ in Hin. apply in_flat_map in Hin. destruct Hin as (s & Hs & Hin).
  apply filter_map_In in Hin. destruct Hin as (e & He & Hst).
  destruct (HS s Hs) as (tr & Hr & Ho & Hc). destruct (taus_hidden s e He) as [Hh Hb].
  exists (tr ++ [e]). split; [rewrite run_snoc, Hr; exact Hst|].
  split; [rewrite obs_of_snoc, Hh, app_nil_r; exact Ho|].
  intro Hbug. apply in_contract_snoc; auto.
Qed.

Lemma good_closure : forall fuel os S, good os S -> good os (closure P bug fuel S).
Proof.
  induction fuel as [|f IH]; intros os S HS; simpl; [exact HS|].
  destruct (Nat.eqb _ _); [exact HS|]. apply IH. apply good_tau. exact HS.
Qed.

Lemma good_obs : forall os S o, is_obs o = true -> good os S -> good (os ++ [o]) (obs_succ P S o).
Proof.
  intros os S o Ho HS s' Hin. unfold obs_succ in Hin. apply add_new_In in Hin. destruct Hin as [Hin|[]].
  apply filter_map_In in Hin. destruct Hin as (s & Hs & Hst).
  destruct (HS s Hs) as (tr & Hr & Hob & Hc).
  exists (tr ++ [o]). split; [rewrite run_snoc, Hr; exact Hst|].
  split; [rewrite obs_of_snoc, Ho, Hob; reflexivity|].
  intro Hbug. apply in_contract_snoc; auto. intro; subst o; discriminate.
Qed.

Lemma good_sim : forall fuel os pre S n S' n',
  Forall (fun e => is_obs e = true) os -> good pre S -> sim P bug fuel S os n = (S', n') ->
  S' <> [] -> good (pre ++ os) S'.
Proof.
  induction os as [|o os IH]; intros pre S n S' n' Hf HS Hsim Hne; simpl in Hsim.
  - inversion Hsim; subst. rewrite app_nil_r. apply good_closure. exact HS.
  - inversion Hf as [|? ? Ho Hf']; subst.
    destruct (obs_succ P (closure P bug fuel S) o) as [|x S1] eqn:E.
    + inversion Hsim; subst. contradiction.
    + replace (pre ++ o :: os) with ((pre ++ [o]) ++ os) by (rewrite <- app_assoc; reflexivity).
      eapply IH; eauto. rewrite <- E. apply good_obs; [exact Ho|]. apply good_closure. exact HS.
Qed.

Lemma good_init : good [] [init].
Proof.
  intros s [<-|[]]. exists []. split; [reflexivity|]. split; [reflexivity|]. intros _ H. exact H.
Qed.

Lemma accept_sound_lemma : forall os out,
  Forall (fun e => is_obs e = true) os ->
  accept_out P bug os = str_accept ++ colon :: out ->
  exists tr s, run P init tr = Some s /\ obs_of tr = os /\ (bug = false -> in_contract tr) /\ render_proj s = out.
Proof.
  intros os out Hf Ha. unfold accept_out in Ha.
  destruct (sim P bug fuel0 [init] os 0) as [S n] eqn:E.
  destruct S as [|s rest]; [discriminate Ha|].
  destruct (forallb (proj_eqb s) rest); [|discriminate Ha].
  unfold str_accept in Ha. simpl in Ha. inversion Ha; subst out.
  pose proof (good_sim fuel0 os [] [init] 0 (s :: rest) n Hf good_init E) as Hg.
  destruct (Hg ltac:(discriminate) s (or_introl eq_refl)) as (tr & Hr & Ho & Hc).
  exists tr, s. auto.
Qed.

End Acceptor.

(* decoded traces contain observable events only *)
Lemma decode_obs_obs : forall code a b c e, decode_obs code a b c = Some e -> is_obs e = true.
Proof.
  intros code a b c e H. unfold decode_obs in H.
  repeat match type of H with
  | context [match ?x with _ => _ end] => destruct x; try discriminate H
  end; inversion H; reflexivity.
Qed.

Lemma decode_trace_obs : forall fuel zs os, decode_trace fuel zs = Some os -> Forall (fun e => is_obs e = true) os.
Proof.
  induction fuel as [|f IH]; intros zs os H; simpl in H.
  - destruct zs; inversion H; constructor.
  - destruct zs as [|code [|a [|b [|c rest]]]]; try discriminate H; [inversion H; constructor|].
    destruct (decode_obs code a b c) eqn:E1; [|discriminate H].
    destruct (decode_trace f rest) eqn:E2; [|discriminate H].
    inversion H; subst. constructor; [eapply decode_obs_obs; eauto|eapply IH; eauto].
Qed.
