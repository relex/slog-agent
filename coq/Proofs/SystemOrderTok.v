(* Record-level order invariants of Model/System.v (C05): along the pipeline of a stream (connection k, pipeline p)
   the sequence numbers increase; chunk ids order the records of a stream. *)
From Coq Require Import List Arith Bool Lia PeanoNat NArith Permutation.
From SV Require Import Model.Common Model.System Proofs.SystemLists Proofs.SystemProofs Proofs.SystemStep Proofs.SystemAlo
  Proofs.SystemOrderLists Proofs.SystemOrder.
Import ListNotations.
Open Scope nat_scope.

Section Stream.
Variables k p : nat.

Definition sq (l : list tok) : list nat := map t_seq (filter (on_cp k p) l).

(* the records of the stream that are still in front of the chunk maker, oldest first *)
Definition upath (s : state) : list tok :=
  cur s ++ hand s ++ toks_of_batches (chans s) ++ key_buf s ++ sink_batch s ++ conn_buf s.

Lemma sq_app : forall a b, sq (a ++ b) = sq a ++ sq b.
Proof. intros. unfold sq. rewrite filter_app, map_app. reflexivity. Qed.

Lemma sq_in : forall l x, In x (sq l) <-> exists t, In t l /\ on_cp k p t = true /\ t_seq t = x.
Proof.
  intros. unfold sq. rewrite in_map_iff. split.
  - intros [t [E H]]. apply filter_In in H. exists t. tauto.
  - intros [t [H1 [H2 H3]]]. exists t. split; [assumption|]. apply filter_In. tauto.
Qed.

Lemma sq_sublist : forall a b, sublist a b -> sublist (sq a) (sq b).
Proof. intros. unfold sq. apply sublist_map. apply sublist_filter_mono. assumption. Qed.

Lemma sq_none : forall l, (forall t, In t l -> on_cp k p t = false) -> sq l = [].
Proof.
  intros l H. unfold sq. induction l as [|x l IH]; cbn; [reflexivity|].
  rewrite (H x (or_introl eq_refl)). apply IH. intros y Hy. apply H. right. assumption.
Qed.

Record ordt (s : state) : Prop := mkOrdt {
  T1 : incr (sq (upath s));
  T2 : forall c, In c (all_chunks s) -> c_pipe c = p ->
         incr (sq (c_toks c)) /\ (forall x y, In x (sq (c_toks c)) -> In y (sq (upath s)) -> x < y);
  T3 : forall c c', In c (all_chunks s) -> In c' (all_chunks s) -> c_pipe c = p -> c_pipe c' = p -> c_id c < c_id c' ->
         forall x y, In x (sq (c_toks c)) -> In y (sq (c_toks c')) -> x < y;
  T5 : forall c t, In c (all_chunks s) -> In t (c_toks c) -> In t (ingested s)
}.

Lemma sq_single : forall t, sq [t] = if on_cp k p t then [t_seq t] else [].
Proof. intros. unfold sq. cbn. destruct (on_cp k p t); reflexivity. Qed.

Lemma sq_take : forall (f : tok -> bool) l t r, take_first f l = Some (t, r) ->
  (forall y, on_cp k p y = true -> f y = true) \/ (forall y, on_cp k p y = true -> f y = false) ->
  sq l = sq [t] ++ sq r.
Proof.
  intros f l t r H Hc. rewrite sq_single. unfold sq.
  pose proof (proj1 (take_first_spec _ _ _ _ _ H)) as Ft. destruct (on_cp k p t) eqn:E.
  - destruct Hc as [Hc|Hc]; [|rewrite (Hc t E) in Ft; discriminate Ft].
    rewrite (take_first_filter_hit _ f (on_cp k p) l t r H Hc E). reflexivity.
  - rewrite (take_first_filter_miss _ f (on_cp k p) l t r H E). reflexivity.
Qed.

Lemma sq_part_in : forall (f : tok -> bool) l a b, partition f l = (a, b) ->
  (forall y, on_cp k p y = true -> f y = true) -> sq l = sq a /\ sq b = [].
Proof.
  intros f l a b H Hc. unfold sq.
  destruct (partition_filter_in _ f (on_cp k p) l a b H Hc) as [E1 E2]. rewrite E1, E2. split; reflexivity.
Qed.

Lemma sq_part_out : forall (f : tok -> bool) l a b, partition f l = (a, b) ->
  (forall y, on_cp k p y = true -> f y = false) -> sq l = sq b /\ sq a = [].
Proof.
  intros f l a b H Hc. unfold sq.
  destruct (partition_filter_out _ f (on_cp k p) l a b H Hc) as [E1 E2]. rewrite E1, E2. split; reflexivity.
Qed.

Lemma sq_part_any : forall (f : tok -> bool) l a b, partition f l = (a, b) ->
  (forall y, on_cp k p y = true -> f y = true) \/ (forall y, on_cp k p y = true -> f y = false) ->
  sq l = sq a ++ sq b.
Proof.
  intros f l a b H [Hc|Hc].
  - destruct (sq_part_in _ _ _ _ H Hc) as [E1 E2]. rewrite E1, E2, app_nil_r. reflexivity.
  - destruct (sq_part_out _ _ _ _ H Hc) as [E1 E2]. rewrite E1, E2. reflexivity.
Qed.

Lemma conn_const : forall k0, (forall y, on_cp k p y = true -> on_conn k0 y = true) \/ (forall y, on_cp k p y = true -> on_conn k0 y = false).
Proof.
  intros k0. destruct (Nat.eq_dec k0 k) as [->|N]; [left|right]; intros y Hy; apply on_cp_eq in Hy; unfold on_conn.
  - apply Nat.eqb_eq. tauto.
  - apply Nat.eqb_neq. destruct Hy. congruence.
Qed.
Lemma pipe_const : forall p0, (forall y, on_cp k p y = true -> on_pipe p0 y = true) \/ (forall y, on_cp k p y = true -> on_pipe p0 y = false).
Proof.
  intros p0. destruct (Nat.eq_dec p0 p) as [->|N]; [left|right]; intros y Hy; apply on_cp_eq in Hy; unfold on_pipe.
  - apply Nat.eqb_eq. tauto.
  - apply Nat.eqb_neq. destruct Hy. congruence.
Qed.
Lemma cp_const : forall k0 p0, (forall y, on_cp k p y = true -> on_cp k0 p0 y = true) \/ (forall y, on_cp k p y = true -> on_cp k0 p0 y = false).
Proof.
  intros k0 p0. destruct (Nat.eq_dec k0 k) as [->|N]; [destruct (Nat.eq_dec p0 p) as [->|N]|]; [left; auto|right|right];
    intros y Hy; apply on_cp_eq in Hy; destruct Hy as [H1 H2]; unfold on_cp, on_conn, on_pipe; apply andb_false_iff.
  - right. apply Nat.eqb_neq. congruence.
  - left. apply Nat.eqb_neq. congruence.
Qed.

(* the batches in front of the first batch of pipeline p0 hold no record of that pipeline *)
Lemma sq_take_batch : forall s p0 b rest, aux s -> take_first (batch_on p0) (chans s) = Some (b, rest) ->
  sq (toks_of_batches (chans s)) = sq (snd b) ++ sq (toks_of_batches rest).
Proof.
  intros s p0 b rest Ha H. destruct (take_first_spec _ _ _ _ _ H) as [Fb [a [c [E1 [E2 Hpre]]]]].
  assert (B0 : forall b' t, In b' (chans s) -> In t (snd b') -> t_pipe t = fst b') by (apply (aB0 _ Ha)).
  rewrite E1 in *. subst rest. unfold toks_of_batches. rewrite !flat_map_app. cbn. rewrite !sq_app.
  apply batch_on_eq in Fb.
  destruct (Nat.eq_dec p0 p) as [->|N].
  - assert (X : sq (flat_map snd a) = []).
    { apply sq_none. intros t Ht. apply in_flat_map in Ht. destruct Ht as [b' [Hb' Ht]].
      assert (P : t_pipe t = fst b') by (apply B0; [apply in_or_app; tauto|assumption]).
      specialize (Hpre b' Hb'). apply batch_on_false in Hpre.
      destruct (on_cp k p t) eqn:E; [|reflexivity]. apply on_cp_eq in E. destruct E. congruence. }
    rewrite X. reflexivity.
  - assert (X : sq (snd b) = []).
    { apply sq_none. intros t Ht. assert (P : t_pipe t = fst b) by (apply B0; [apply in_or_app; right; left; reflexivity|assumption]).
      destruct (on_cp k p t) eqn:E; [|reflexivity]. apply on_cp_eq in E. destruct E. congruence. }
    rewrite X. cbn. reflexivity.
Qed.
End Stream.

(* both sides are the same concatenation, bracketed differently *)
Ltac same_concat := rewrite <- ?app_assoc; cbn [app]; rewrite <- ?app_assoc; apply sublist_refl.

Lemma sq_step_sub : forall k p s e s', aux s -> step s e = Some s' -> (forall t, e <> EIngest t) ->
  sublist (sq k p (upath s')) (sq k p (upath s)).
Proof.
  intros k p s e s' Ha H Hn. unfold upath.
  destruct (step_Step _ _ _ H); try match goal with |- context [do_accept _ _ ?o] => destruct o end; fields; try (apply sublist_refl).
  all: try (exfalso; eapply Hn; reflexivity).
  all: rewrite ?toks_of_batches_app, ?singleton_batches_toks; rewrite !sq_app.
  all: try (apply sublist_app; [|apply sublist_refl]; apply sq_sublist;
            match goal with E : partition _ (cur _) = _ |- _ => apply (proj2 (partition_sublists _ _ _ _ _ E)) end; fail).
  all: try (cbn; apply sublist_nil_l; fail).
  - (* Frame *)
    rewrite (sq_take k p _ _ _ _ Tf (conn_const k p k0)). same_concat.
  - (* SinkSend *)
    rewrite (sq_part_any k p _ _ _ _ Pt (conn_const k p k0)). same_concat.
  - (* KeyFlush *)
    rewrite (sq_part_any k p _ _ _ _ Pt (cp_const k p k0 p0)). unfold toks_of_batches at 2. cbn [flat_map snd]. rewrite app_nil_r.
    same_concat.
  - (* FlushTimeout *)
    repeat (apply sublist_app; [apply sublist_refl|]). apply sublist_app; [|apply sublist_refl].
    apply sq_sublist. apply (proj2 (partition_sublists _ _ _ _ _ Pt)).
  - (* ConnEnd *)
    rewrite (sq_part_any k p _ _ _ _ Ptk (conn_const k p k0)), (sq_part_any k p _ _ _ _ Pts (conn_const k p k0)),
            (sq_part_any k p _ _ _ _ Ptc (conn_const k p k0)).
    destruct (conn_const k p k0) as [C|C].
    + rewrite (proj2 (sq_part_in k p _ _ _ _ Ptk C)), (proj2 (sq_part_in k p _ _ _ _ Pts C)), (proj2 (sq_part_in k p _ _ _ _ Ptc C)).
      rewrite !app_nil_r. same_concat.
    + rewrite (proj2 (sq_part_out k p _ _ _ _ Ptk C)), (proj2 (sq_part_out k p _ _ _ _ Pts C)), (proj2 (sq_part_out k p _ _ _ _ Ptc C)).
      cbn [app]. same_concat.
  - (* WorkerTake *)
    rewrite (sq_take_batch k p s p0 _ _ Ha Tf). same_concat.
  - (* WorkerStep, kept *)
    rewrite (sq_take k p _ _ _ _ Tf (pipe_const k p p0)). same_concat.
  - (* WorkerStep, filtered *)
    apply sublist_app; [apply sublist_refl|]. apply sublist_app; [|apply sublist_refl].
    apply sq_sublist. eapply take_first_sublist; eassumption.
Qed.

Lemma ingest_step : forall k p s t s', step s (EIngest t) = Some s' ->
  stamp_fresh t (ingested s) = true /\ lastid s' = lastid s /\ sq k p (upath s') = sq k p (upath s) ++ sq k p [t].
Proof.
  intros k p s t s' H. cbn [step] in H. destruct (mem_nat (t_conn t) (open_conns s)); [|discriminate].
  destruct (stamp_fresh t (ingested s)); [|discriminate]. injection H as <-. repeat split.
  unfold upath. fields. rewrite !sq_app, <- !app_assoc. reflexivity.
Qed.

Lemma new_chunk_sq : forall k p (cur0 mine others R : list tok),
  partition (on_pipe p) cur0 = (mine, others) -> sq k p (cur0 ++ R) = sq k p mine ++ sq k p (others ++ R).
Proof.
  intros k p cur0 mine others R H. rewrite !sq_app.
  assert (C : forall y, on_cp k p y = true -> on_pipe p y = true).
  { intros y Hy. apply on_cp_eq in Hy. unfold on_pipe. apply Nat.eqb_eq. tauto. }
  destruct (sq_part_in k p _ _ _ _ H C) as [E1 E2]. rewrite E1, E2. reflexivity.
Qed.

Lemma all_chunks_step : forall k p s e s', step s e = Some s' ->
  forall c, In c (all_chunks s') ->
  In c (all_chunks s) \/
  (lastid s < c_id c /\ lastid s' = c_id c /\ (forall t, In t (c_toks c) -> In t (cur s)) /\
   (c_pipe c = p -> sq k p (upath s) = sq k p (c_toks c) ++ sq k p (upath s'))).
Proof.
  intros k p s e s' H c Hc. destruct (chunks_step _ _ _ H c Hc) as [Old|[others [o [L [E Es]]]]]; [left; exact Old|right].
  cbv zeta in Es. split; [exact L|].
  split; [destruct Es as [-> | ->]; destruct o; reflexivity|].
  split; [intros t Ht; eapply part_fst_in; eassumption|].
  intros Ep. rewrite Ep in E. unfold upath. destruct Es as [-> | ->]; destruct o; fields; exact (new_chunk_sq k p _ _ _ _ E).
Qed.

Lemma upath_anywhere : forall s t, In t (upath s) -> In t (anywhere s).
Proof.
  intros s t H. unfold upath in H. unfold anywhere, live, transit. rewrite !in_app_iff in *. tauto.
Qed.

Lemma fresh_lt : forall t l u, stamp_fresh t l = true -> In u l -> t_conn u = t_conn t -> t_seq u < t_seq t.
Proof.
  intros t l u H Hu Ec. unfold stamp_fresh in H. rewrite none_of_spec in H. specialize (H u Hu).
  apply andb_false_iff in H. destruct H as [H|H].
  - apply Nat.eqb_neq in H. congruence.
  - apply Nat.leb_gt in H. exact H.
Qed.

Lemma ingested_mono : forall s e s' t, step s e = Some s' -> In t (ingested s) -> In t (ingested s').
Proof.
  intros s e s' t H Ht. destruct (step_ingested _ _ _ H) as [E|[t0 [_ E]]]; rewrite E; [assumption|right; assumption].
Qed.

Lemma event_ingest_dec : forall e, (exists t, e = EIngest t) \/ (forall t, e <> EIngest t).
Proof. intros e. destruct e; try (right; intros t0 Ht0; discriminate Ht0). left. eauto. Qed.

Lemma ordt_step : forall k p s e s', aux s -> cons_inv s -> (forall c, In c (all_chunks s) -> c_id c <= lastid s) ->
  ordt k p s -> step s e = Some s' -> ordt k p s'.
Proof.
  intros k p s e s' Ha Hc Hid [I1 I2 I3 I5] H.
  assert (N5 : forall c t, In c (all_chunks s') -> In t (c_toks c) -> In t (ingested s')).
  { intros c t Hin Ht. destruct (all_chunks_step k p s e s' H c Hin) as [Old|[_ [_ [Hcur _]]]].
    - eapply ingested_mono; [exact H|]. eapply I5; eassumption.
    - eapply ingested_mono; [exact H|]. apply (cI2 _ Hc). apply upath_anywhere. unfold upath. apply in_or_app. left. auto. }
  destruct (event_ingest_dec e) as [[t0 ->]|Hn].
  - (* a record is read *)
    destruct (ingest_step k p _ _ _ H) as [F [El0 EU]].
    assert (Hlt : forall u, In u (ingested s) -> on_cp k p u = true -> on_cp k p t0 = true -> t_seq u < t_seq t0).
    { intros u Hu Eu Et. apply (fresh_lt t0 (ingested s)); [exact F|exact Hu|]. apply on_cp_eq in Eu. apply on_cp_eq in Et. destruct Eu, Et. congruence. }
    assert (HU : forall y, In y (sq k p (upath s')) -> In y (sq k p (upath s)) \/ (on_cp k p t0 = true /\ y = t_seq t0)).
    { intros y Hy. rewrite EU in Hy. apply in_app_or in Hy. destruct Hy as [Hy|Hy]; [left; assumption|right].
      unfold sq in Hy. cbn in Hy. destruct (on_cp k p t0); [destruct Hy as [<-|[]]; auto|destruct Hy]. }
    assert (Old : forall c, In c (all_chunks s') -> In c (all_chunks s)).
    { intros c Hin. destruct (all_chunks_step k p s _ s' H c Hin) as [O|[Hl [El _]]]; [exact O|].
      exfalso. lia. }
    constructor.
    + rewrite EU. apply incr_app. split; [exact I1|]. split.
      * unfold sq. cbn. destruct (on_cp k p t0); [apply incr_single|exact I].
      * intros x y Hx Hy. unfold sq in Hy. cbn in Hy. destruct (on_cp k p t0) eqn:Et; [|destruct Hy].
        destruct Hy as [<-|[]]. apply sq_in in Hx. destruct Hx as [u [Hu [Eu <-]]].
        apply Hlt; auto. apply (cI2 _ Hc). apply upath_anywhere. exact Hu.
    + intros c Hin Ep. destruct (I2 c (Old c Hin) Ep) as [A B]. split; [exact A|].
      intros x y Hx Hy. destruct (HU y Hy) as [Hy'|[Et ->]]; [apply B; assumption|].
      apply sq_in in Hx. destruct Hx as [u [Hu [Eu <-]]]. apply Hlt; auto. eapply I5; [exact (Old c Hin)|exact Hu].
    + intros c c' Hin Hin' Ep Ep' Hl x y Hx Hy. exact (I3 c c' (Old c Hin) (Old c' Hin') Ep Ep' Hl x y Hx Hy).
    + exact N5.
  - (* every other event *)
    pose proof (sq_step_sub k p s e s' Ha H Hn) as SU.
    constructor.
    + eapply incr_sublist; [exact SU|exact I1].
    + intros c Hin Ep. destruct (all_chunks_step k p s e s' H c Hin) as [O|[Hl [_ [_ Hs]]]].
      * destruct (I2 c O Ep) as [A B]. split; [exact A|]. intros x y Hx Hy. apply B; [exact Hx|]. eapply sublist_in; eassumption.
      * specialize (Hs Ep). rewrite Hs in I1. apply incr_app in I1. tauto.
    + intros c c' Hin Hin' Ep Ep' Hlt x y Hx Hy.
      destruct (all_chunks_step k p s e s' H c Hin) as [O|[Hl [El _]]];
      destruct (all_chunks_step k p s e s' H c' Hin') as [O'|[Hl' [El' [_ Hs']]]].
      * exact (I3 c c' O O' Ep Ep' Hlt x y Hx Hy).
      * specialize (Hs' Ep'). destruct (I2 c O Ep) as [_ B]. apply B; [exact Hx|]. rewrite Hs'. apply in_or_app. left. exact Hy.
      * exfalso. specialize (Hid c' O'). lia.
      * exfalso. lia.
    + exact N5.
Qed.

Lemma ordt_init : forall k p, ordt k p init.
Proof. intros. constructor; cbn; try (intros; contradiction); exact I. Qed.
