(* C17 - the invariant of the reloadable orchestrator (current code: NewSink creates the downstream
   sink under the read lock) and its preservation by every event, for runs in which client numbers
   are unique among open sinks ([guard]). *)
From SV Require Import Model.Common Model.Reload Spec.ReloadSpec Proofs.ListFacts Proofs.ReloadLists.
From Coq Require Import Arith Lia Permutation.
Local Open Scope nat_scope.

Definition in_lock (c : cthread) : bool :=
  match ct_pc c with PNewIn _ | PAccIn _ _ | PTickIn _ | PCloseIn _ => true | _ => false end.

Definition rl_post (r : rpc) : bool :=
  match r with RInClose _ | RInShutdown | RInComplete | RInNew _ => true | _ => false end.

Definition claimsP (c : cthread) : Prop := ct_h c = HOpen \/ exists g, ct_pc c = PNewIn g.

Definition sink_at (st : state) (s : nat) : option dsink := nth_error (st_sinks st) s.

Definition thr_ok (st : state) (c : cthread) : Prop :=
  match ct_h c, ct_pc c with
  | HNone, PIdle => True
  | HNone, PNewIn g => g = st_cur st /\ ct_num c < length (st_table st)
  | HOpen, PIdle => exists s, slot st (ct_num c) = Some s
  | HOpen, PAccIn s _ => slot st (ct_num c) = Some s
  | HOpen, PTickIn s => slot st (ct_num c) = Some s
  | HOpen, PCloseIn s => slot st (ct_num c) = Some s
  | HClosed, PIdle => True
  | _, _ => False
  end.

Definition phase_ok (st : state) : Prop :=
  match st_rl st with
  | RInClose j => forall i s d, i < j -> slot st i = Some s -> sink_at st s = Some d -> ds_closed d = true
  | RInShutdown => forall i s d, slot st i = Some s -> sink_at st s = Some d -> ds_closed d = true
  | RInComplete => forall i s d, slot st i = Some s -> sink_at st s = Some d -> ds_closed d = true
  | RInNew j => (exists s0, slot st j = Some s0) /\
                forall i s d, slot st i = Some s -> sink_at st s = Some d -> ds_closed d = negb (i <? j)
  | _ => True
  end.

Record INV (st : state) : Prop := mkINV {
  i_lock : st_readers st = count in_lock (st_thr st);
  i_wr : st_writer st = rl_post (st_rl st);
  i_wr0 : st_writer st = true -> st_readers st = 0;
  i_gen : gen_shut st (st_cur st) = false \/ st_rl st = RInComplete;
  i_sink : forall s d, sink_at st s = Some d ->
     (ds_closed d = true -> ds_pending d = []) /\
     (ds_closed d = false ->
        ds_gen d = st_cur st /\ gen_shut st (st_cur st) = false /\
        nth_error (st_table st) (ds_num d) = Some (Some s));
  i_tabv : forall n s, slot st n = Some s -> exists d, sink_at st s = Some d /\ ds_num d = n;
  i_tabo : st_writer st = false -> forall n s d, slot st n = Some s -> sink_at st s = Some d -> ds_closed d = false;
  i_own : forall n s, slot st n = Some s ->
     exists t c, get_thr st t = Some c /\ ct_num c = n /\ ct_h c = HOpen;
  i_thr : forall t c, get_thr st t = Some c -> thr_ok st c;
  i_uniq : forall t c t' c', get_thr st t = Some c -> get_thr st t' = Some c' ->
     claimsP c -> claimsP c' -> ct_num c = ct_num c' -> t = t';
  i_phase : phase_ok st;
  i_log : log_ok (st_log st)
}.

(* clause [i_sink] for one sink: what the frame lemmas [inv_thr_step] and [inv_wr_step] ask of the new sinks *)
Definition sink_ok (st : state) (s : nat) (d : dsink) : Prop :=
  (ds_closed d = true -> ds_pending d = []) /\
  (ds_closed d = false ->
     ds_gen d = st_cur st /\ gen_shut st (st_cur st) = false /\
     nth_error (st_table st) (ds_num d) = Some (Some s)).

Lemma inv_sink_ok : forall st, INV st -> forall s d, sink_at st s = Some d -> sink_ok st s d.
Proof. exact i_sink. Qed.

Lemma slot_slot_of : forall st n, slot st n = slot_of (st_table st) n.
Proof. reflexivity. Qed.

Lemma slot_nth : forall st n s, slot st n = Some s <-> nth_error (st_table st) n = Some (Some s).
Proof.
  intros. unfold slot. destruct (nth_error (st_table st) n) as [[x|]|]; split; intro H; try discriminate; congruence.
Qed.

Lemma slot_upd : forall st st' n x, n < length (st_table st) -> st_table st' = upd (st_table st) n x ->
  forall m, slot st' m = if n =? m then x else slot st m.
Proof.
  intros st st' n x Hn E m. apply Nat.ltb_lt in Hn. unfold slot. rewrite E, nth_error_upd, Hn, andb_true_r.
  destruct (n =? m); auto. destruct x; reflexivity.
Qed.

Lemma sink_at_upd : forall st st' s d d', sink_at st s = Some d -> st_sinks st' = upd (st_sinks st) s d' ->
  forall s', sink_at st' s' = if s =? s' then Some d' else sink_at st s'.
Proof. intros st st' s d d' Hd E s'. unfold sink_at. rewrite E. eapply nth_error_upd_in; eauto. Qed.

Lemma get_thr_upd : forall st st' t c c', get_thr st t = Some c -> st_thr st' = upd (st_thr st) t c' ->
  forall t', get_thr st' t' = if t =? t' then Some c' else get_thr st t'.
Proof. intros st st' t c c' Ht E t'. unfold get_thr. rewrite E. eapply nth_error_upd_in; eauto. Qed.

Lemma num_free_not : forall st n t c, num_free st n = true -> get_thr st t = Some c -> ct_num c = n -> ~ claimsP c.
Proof.
  intros st n t c H Ht Hn C. pose proof (forallb_nth _ _ _ _ _ H Ht) as H1. unfold claims in H1.
  rewrite Hn, Nat.eqb_refl in H1. destruct C as [Ho|[g Hg]].
  - rewrite Ho in H1. discriminate.
  - rewrite Hg in H1. destruct (ct_h c); discriminate.
Qed.

Lemma log_ok_cons : forall o lg, obs_ok o -> log_ok lg -> log_ok (o :: lg).
Proof. intros. constructor; auto. Qed.

Lemma log_ok_rev_map : forall A (f : A -> obs) l lg, (forall x, obs_ok (f x)) -> log_ok lg -> log_ok (rev (map f l) ++ lg).
Proof.
  intros A f l lg Hf Hlg. apply Forall_app. split; auto. apply Forall_rev, Forall_forall. intros o Ho.
  apply in_map_iff in Ho. destruct Ho as (x & <- & _). auto.
Qed.

Lemma slot_init : forall nthr maxn n, slot (init nthr maxn) n = None.
Proof.
  intros. unfold slot, init. cbn. destruct (nth_error (repeat None maxn) n) as [o|] eqn:E; auto.
  apply nth_error_repeat_inv in E. subst. reflexivity.
Qed.

Lemma inv_init : forall nthr maxn, INV (init nthr maxn).
Proof.
  intros. constructor.
  - cbn. unfold count. induction nthr; auto.
  - reflexivity.
  - discriminate.
  - left. reflexivity.
  - intros [|s] d H; discriminate.
  - intros n s H. rewrite slot_init in H. discriminate.
  - intros _ n s d H. rewrite slot_init in H. discriminate.
  - intros n s H. rewrite slot_init in H. discriminate.
  - intros t c H. apply nth_error_repeat_inv in H. subst. exact I.
  - intros t c t' c' H _ [Hc|[g Hc]] _ _; apply nth_error_repeat_inv in H; subst; discriminate.
  - exact I.
  - constructor.
Qed.

(* H : step true st e = Some st', e an event of goroutine t: the cases of the goroutine's entry and of the
   writer flag in which [step] accepts e *)
Ltac inv_step H :=
  unfold step in H;
  repeat match type of H with
  | context [match get_thr ?st ?t with _ => _ end] =>
      let E := fresh "Ht" in destruct (get_thr st t) as [[? [] []]|] eqn:E; try discriminate H
  | context [if st_writer ?st then _ else _] =>
      let E := fresh "Hw" in destruct (st_writer st) eqn:E; try discriminate H
  end.

Lemma put_thr_proj : forall st t c,
  st_cur (put_thr st t c) = st_cur st /\ st_shut (put_thr st t c) = st_shut st /\
  st_sinks (put_thr st t c) = st_sinks st /\ st_table (put_thr st t c) = st_table st /\
  st_readers (put_thr st t c) = st_readers st /\ st_writer (put_thr st t c) = st_writer st /\
  st_rl (put_thr st t c) = st_rl st /\ st_log (put_thr st t c) = st_log st.
Proof. intros. repeat split. Qed.

Lemma readers_pos : forall st t c, INV st -> get_thr st t = Some c -> in_lock c = true ->
  1 <= st_readers st /\ st_writer st = false.
Proof.
  intros st t c I Ht Hl. assert (1 <= st_readers st).
  { rewrite (i_lock _ I). eapply count_pos; eauto. }
  split; auto. destruct (st_writer st) eqn:E; auto. pose proof (i_wr0 _ I E). lia.
Qed.

(* One goroutine moves from [c] to [c'] while reload() does not hold the lock.  Only the slot of a number
   that [c] claims may change, and if that slot is filled afterwards the goroutine owns it; a number newly
   claimed is free.  What INV says of the sinks, the table and the log is left to the caller. *)
Lemma inv_thr_step : forall st st' t c c',
  INV st -> get_thr st t = Some c -> st_writer st = false ->
  st_thr st' = upd (st_thr st) t c' ->
  st_readers st' + Nat.b2n (in_lock c) = st_readers st + Nat.b2n (in_lock c') ->
  st_writer st' = false -> st_rl st' = st_rl st -> st_cur st' = st_cur st -> st_shut st' = st_shut st ->
  length (st_table st') = length (st_table st) ->
  (forall m, slot st' m = slot st m \/ m = ct_num c /\ claimsP c) ->
  (claimsP c -> (exists s, slot st' (ct_num c) = Some s) -> ct_h c' = HOpen /\ ct_num c' = ct_num c) ->
  (claimsP c' -> claimsP c /\ ct_num c' = ct_num c \/ num_free st (ct_num c') = true) ->
  thr_ok st' c' ->
  (forall s d, sink_at st' s = Some d -> sink_ok st' s d) ->
  (forall n s, slot st' n = Some s -> exists d, sink_at st' s = Some d /\ ds_num d = n) ->
  (forall n s d, slot st' n = Some s -> sink_at st' s = Some d -> ds_closed d = false) ->
  log_ok (st_log st') ->
  INV st'.
Proof.
  intros st st' t c c' I Ht Hw Eth Erd Hw' Erl Ecur Eshut Elen Hslot Hown Hcl Hok Hsink Htabv Htabo Hlog.
  pose proof (get_thr_upd _ _ _ _ _ Ht Eth) as Hget.
  assert (Hmine : claimsP c -> forall s, slot st' (ct_num c) = Some s ->
            exists t0 c0, get_thr st' t0 = Some c0 /\ ct_num c0 = ct_num c /\ ct_h c0 = HOpen).
  { intros C s Hs. destruct (Hown C (ex_intro _ s Hs)). exists t, c'. rewrite Hget, Nat.eqb_refl. auto. }
  assert (Hfresh : claimsP c' -> forall t0 c0, get_thr st t0 = Some c0 -> claimsP c0 -> ct_num c0 = ct_num c' -> t0 = t).
  { intros C' t0 c0 H0 C0 E. destruct (Hcl C') as [[C En]|F].
    - eapply (i_uniq _ I); eauto. congruence.
    - destruct (num_free_not _ _ _ _ F H0 E C0). }
  constructor; auto.
  - pose proof (count_upd _ in_lock _ _ _ c' Ht) as Hc. rewrite Eth. rewrite (i_lock _ I) in Erd. lia.
  - rewrite Hw', Erl, <- Hw. apply I.
  - rewrite Hw'. discriminate.
  - rewrite Ecur, Erl. unfold gen_shut. rewrite Eshut. apply I.
  - intros m s Hs. destruct (Hslot m) as [E|[-> C]]; [|eauto].
    rewrite E in Hs. destruct (i_own _ I _ _ Hs) as (t0 & c0 & H0 & Hn0 & Hh0).
    destruct (Nat.eqb_spec t t0) as [<-|Hne].
    + rewrite Ht in H0. injection H0 as <-. subst m. rewrite <- E in Hs. apply (Hmine (or_introl Hh0) _ Hs).
    + exists t0, c0. rewrite Hget. apply Nat.eqb_neq in Hne. rewrite Hne. auto.
  - intros t0 c0. rewrite Hget. destruct (Nat.eqb_spec t t0) as [<-|Hne]; intros H0.
    + injection H0 as <-. exact Hok.
    + pose proof (i_thr _ I _ _ H0) as Hok0.
      assert (Hs0 : claimsP c0 -> slot st' (ct_num c0) = slot st (ct_num c0)).
      { intros C0. destruct (Hslot (ct_num c0)) as [E|[E C]]; auto.
        destruct Hne. eapply (i_uniq _ I); eauto. }
      unfold thr_ok in *. rewrite Ecur, Elen. destruct c0 as [n0 h0 p0]; simpl in *.
      destruct h0, p0; try exact Hok0; rewrite Hs0 by (left; reflexivity); exact Hok0.
  - intros t1 c1 t2 c2. rewrite !Hget.
    destruct (Nat.eqb_spec t t1) as [<-|N1], (Nat.eqb_spec t t2) as [<-|N2]; intros H1 H2 C1 C2 E; auto.
    + injection H1 as <-. symmetry. eapply Hfresh; eauto.
    + injection H2 as <-. eapply Hfresh; eauto.
    + eapply (i_uniq _ I); eauto.
  - pose proof (i_wr _ I) as E. rewrite Hw in E. unfold phase_ok. rewrite Erl.
    destruct (st_rl st); try discriminate E; exact Logic.I.
Qed.

Lemma inv_enter : forall st t c c',
  INV st -> get_thr st t = Some c -> st_writer st = false ->
  in_lock c = false -> in_lock c' = true -> thr_ok st c' ->
  (claimsP c -> ct_h c' = HOpen /\ ct_num c' = ct_num c) ->
  (claimsP c /\ ct_num c' = ct_num c \/ num_free st (ct_num c') = true) ->
  INV (put_thr (set_readers st (S (st_readers st))) t c').
Proof.
  intros st t c c' I Ht Hw Hc Hc' Hok Hown Hcl.
  apply (inv_thr_step st _ t c c'); auto; try apply I.
  - cbn. rewrite Hc, Hc'. simpl. lia.
  - exact Hw.
Qed.

Lemma open_idle_slot : forall st t n, INV st -> get_thr st t = Some (mkThr n HOpen PIdle) ->
  exists s, slot st n = Some s.
Proof. intros st t n I Ht. apply (i_thr _ I) in Ht. exact Ht. Qed.

Lemma inv_call : forall st t n pc,
  INV st -> get_thr st t = Some (mkThr n HOpen PIdle) -> st_writer st = false ->
  in_lock (mkThr n HOpen pc) = true -> thr_ok st (mkThr n HOpen pc) ->
  INV (put_thr (set_readers st (S (st_readers st))) t (mkThr n HOpen pc)).
Proof. intros. eapply inv_enter; eauto; left; split; auto; left; reflexivity. Qed.

Lemma in_call_sink : forall st t n pc s, INV st -> get_thr st t = Some (mkThr n HOpen pc) ->
  in_lock (mkThr n HOpen pc) = true -> slot st n = Some s ->
  exists d, sink_at st s = Some d /\ ds_closed d = false.
Proof.
  intros st t n pc s I Ht Hin Hs. destruct (readers_pos _ _ _ I Ht Hin) as [_ Hw].
  destruct (i_tabv _ I _ _ Hs) as (d & Hd & _). exists d. split; auto. eapply (i_tabo _ I Hw); eauto.
Qed.

Lemma open_sink_alive : forall st s d, INV st -> sink_at st s = Some d -> ds_closed d = false ->
  sink_alive st d = true /\ gen_shut st (ds_gen d) = false.
Proof.
  intros st s d I Hd Ho. destruct (i_sink _ I _ _ Hd) as [_ H2]. destruct (H2 Ho) as (Eg & Hg & _).
  unfold sink_alive. rewrite Ho, Eg, Hg. auto.
Qed.

Lemma inv_exit_keep : forall st t n pc s d d' lg',
  INV st -> get_thr st t = Some (mkThr n HOpen pc) -> in_lock (mkThr n HOpen pc) = true ->
  slot st n = Some s -> sink_at st s = Some d ->
  ds_gen d' = ds_gen d -> ds_num d' = ds_num d -> ds_closed d' = false ->
  log_ok (lg' ++ st_log st) ->
  INV (put_thr (set_readers (set_log (set_sinks st (upd (st_sinks st) s d')) (lg' ++ st_log st))
                            (pred (st_readers st))) t (mkThr n HOpen PIdle)).
Proof.
  intros st t n pc s d d' lg' I Ht Hin Hs Hd Eg En Ec Hlg.
  destruct (readers_pos _ _ _ I Ht Hin) as [Hr Hw].
  match goal with |- INV ?X => pose proof (sink_at_upd st X s d d' Hd eq_refl) as Hsk end.
  eapply (inv_thr_step st _ t _ _ I Ht Hw); try reflexivity; auto.
  - cbn. rewrite Hin. simpl. lia.
  - left. split; [left|]; reflexivity.
  - exists s. exact Hs.
  - intros s' dd. rewrite Hsk. destruct (Nat.eqb_spec s s') as [<-|Hne]; intros Hdd; [|apply (inv_sink_ok _ I _ _ Hdd)].
    injection Hdd as <-. split; [congruence|]. intros _. rewrite Eg, En.
    apply (i_sink _ I _ _ Hd). eapply (i_tabo _ I Hw); eauto.
  - intros n' s' Hs'. rewrite Hsk. destruct (i_tabv _ I _ _ Hs') as (d0 & Hd0 & Hn0).
    destruct (Nat.eqb_spec s s') as [<-|Hne]; eauto. exists d'. split; congruence.
  - intros n' s' dd Hs'. rewrite Hsk. destruct (Nat.eqb_spec s s'); intros Hdd.
    + congruence.
    + eapply (i_tabo _ I Hw); eauto.
Qed.

Lemma inv_acc_end : forall st t st',
  INV st -> step true st (EAccEnd t) = Some st' -> INV st'.
Proof.
  intros st t st' I H. inv_step H. inversion H; subst st'; clear H.
  pose proof (i_thr _ I _ _ Ht) as Hs. unfold thr_ok in Hs; simpl in Hs.
  destruct (in_call_sink _ _ _ _ _ I Ht eq_refl Hs) as (d & Hd & Ho).
  destruct (open_sink_alive _ _ _ I Hd Ho) as [Hal _].
  unfold hand. unfold sink_at in Hd. rewrite Hd. rewrite Hal.
  eapply (inv_exit_keep st t _ _ _ d); eauto.
  apply log_ok_rev_map; [reflexivity|apply I].
Qed.

Lemma inv_tick_end : forall st t st',
  INV st -> step true st (ETickEnd t) = Some st' -> INV st'.
Proof.
  intros st t st' I H. inv_step H. inversion H; subst st'; clear H.
  pose proof (i_thr _ I _ _ Ht) as Hs. unfold thr_ok in Hs; simpl in Hs.
  destruct (in_call_sink _ _ _ _ _ I Ht eq_refl Hs) as (d & Hd & Ho).
  destruct (open_sink_alive _ _ _ I Hd Ho) as [_ Hg].
  unfold flush. unfold sink_at in Hd. rewrite Hd. rewrite Hg, Ho.
  eapply (inv_exit_keep st t _ _ _ d); eauto.
  apply log_ok_rev_map; [reflexivity|apply I].
Qed.

Lemma inv_close_end : forall st t st',
  INV st -> step true st (ECloseEnd t) = Some st' -> INV st'.
Proof.
  intros st t st' I H. inv_step H. inversion H; subst st'; clear H.
  rename ct_num into n. rename s into s0.
  pose proof (i_thr _ I _ _ Ht) as Hs. unfold thr_ok in Hs; simpl in Hs.
  destruct (in_call_sink _ _ _ _ _ I Ht eq_refl Hs) as (d & Hd & Ho).
  destruct (open_sink_alive _ _ _ I Hd Ho) as [_ Hg].
  destruct (readers_pos _ _ _ I Ht eq_refl) as [Hr Hw].
  assert (Hnl : n < length (st_table st)) by (eapply slot_some_lt; exact Hs).
  unfold flush. pose proof Hd as Hd'. unfold sink_at in Hd'. rewrite Hd', Hg.
  cbn [negb st_table set_log set_sinks st_readers set_table].
  match goal with |- INV ?X =>
    pose proof (sink_at_upd st X s0 d _ Hd eq_refl) as Hsk; pose proof (slot_upd st X n None Hnl eq_refl) as Hsl end.
  assert (Hinj : forall n' s', slot st n' = Some s' -> n <> n' -> (s0 =? s') = false).
  { intros n' s' Hs' Hne. apply Nat.eqb_neq. intros <-. destruct (i_tabv _ I _ _ Hs') as (d0 & Hd0 & Hn0).
    destruct (i_tabv _ I _ _ Hs) as (d1 & Hd1 & Hn1). congruence. }
  eapply (inv_thr_step st _ t _ (mkThr n HClosed PIdle) I Ht Hw); try reflexivity; try exact Hw.
  - cbn. lia.
  - cbn. apply upd_length.
  - intros m. rewrite Hsl. destruct (Nat.eqb_spec n m); [right; split; [auto|left; reflexivity]|auto].
  - intros _ [s Hs']. rewrite Hsl, Nat.eqb_refl in Hs'. discriminate.
  - intros [X|[g X]]; discriminate.
  - intros s' dd. rewrite Hsk. destruct (Nat.eqb_spec s0 s') as [<-|Hne]; intros Hdd.
    + injection Hdd as <-. split; [reflexivity|]. cbn. rewrite orb_true_r. discriminate.
    + destruct (i_sink _ I _ _ Hdd) as [H1 H2]. split; auto. intros Hoo. destruct (H2 Hoo) as (E1 & E2 & E3).
      split; auto. split; auto. apply slot_nth. apply slot_nth in E3. rewrite Hsl.
      destruct (Nat.eqb_spec n (ds_num dd)) as [En|]; auto. rewrite <- En in E3. congruence.
  - intros n' s'. rewrite Hsl, Hsk. destruct (Nat.eqb_spec n n') as [<-|Hne]; [discriminate|].
    intros Hs'. rewrite (Hinj _ _ Hs' Hne). apply (i_tabv _ I _ _ Hs').
  - intros n' s' dd. rewrite Hsl, Hsk. destruct (Nat.eqb_spec n n') as [<-|Hne]; [discriminate|].
    intros Hs'. rewrite (Hinj _ _ Hs' Hne). apply (i_tabo _ I Hw _ _ _ Hs').
  - cbn. apply log_ok_rev_map; [reflexivity|apply I].
Qed.

Lemma not_post_gen : forall st, INV st -> st_writer st = false -> gen_shut st (st_cur st) = false.
Proof.
  intros st I Hw. destruct (i_gen _ I) as [H|H]; auto.
  pose proof (i_wr _ I) as E. rewrite Hw, H in E. discriminate.
Qed.

Lemma new_sink_ok : forall st st' j a,
  INV st -> j < length (st_table st) -> gen_shut st (st_cur st) = false ->
  (forall s d, slot st j = Some s -> sink_at st s = Some d -> ds_closed d = true) ->
  st_sinks st' = st_sinks st ++ [mkSink (st_cur st) j a false []] ->
  st_table st' = upd (st_table st) j (Some (length (st_sinks st))) ->
  st_cur st' = st_cur st -> st_shut st' = st_shut st ->
  (forall s d, sink_at st' s = Some d -> sink_ok st' s d) /\
  (forall n s, slot st' n = Some s -> exists d, sink_at st' s = Some d /\ ds_num d = n) /\
  (forall n s d, slot st' n = Some s -> sink_at st' s = Some d ->
     if j =? n then ds_closed d = false else slot st n = Some s /\ sink_at st s = Some d).
Proof.
  intros st st' j a I Hj Hg Hold Esk Etb Ecur Esh.
  pose proof (slot_upd st st' j _ Hj Etb) as Hsl. split; [|split].
  - intros s d Hdd. unfold sink_at in Hdd. rewrite Esk in Hdd. unfold sink_ok, gen_shut. rewrite Ecur, Esh, <- slot_nth, Hsl.
    apply nth_error_snoc in Hdd. destruct Hdd as [Hdd|[-> ->]].
    + destruct (i_sink _ I _ _ Hdd) as [H1 H2]. split; auto. intros Hoo. destruct (H2 Hoo) as (E1 & E2 & E3).
      apply slot_nth in E3. repeat split; auto. destruct (Nat.eqb_spec j (ds_num d)) as [En|]; auto.
      rewrite <- En in E3. rewrite (Hold _ _ E3 Hdd) in Hoo. discriminate.
    + cbn. rewrite Nat.eqb_refl. split; [discriminate|auto].
  - intros n s. unfold sink_at. rewrite Hsl, Esk. destruct (Nat.eqb_spec j n) as [<-|Hne]; intros Hs.
    + injection Hs as <-. eexists. split; [apply nth_error_mid|reflexivity].
    + destruct (i_tabv _ I _ _ Hs) as (d0 & Hd0 & Hn0). exists d0. split; auto. apply nth_error_app_l. exact Hd0.
  - intros n s d. unfold sink_at at 1. rewrite Hsl, Esk. destruct (Nat.eqb_spec j n) as [<-|Hne]; intros Hs Hdd.
    + injection Hs as <-. rewrite nth_error_mid in Hdd. injection Hdd as <-. reflexivity.
    + split; auto. destruct (i_tabv _ I _ _ Hs) as (d0 & Hd0 & Hn0). rewrite (nth_error_app_l _ _ _ _ _ Hd0) in Hdd.
      congruence.
Qed.

Lemma inv_new_end : forall st t st',
  INV st -> step true st (ENewEnd t) = Some st' -> INV st'.
Proof.
  intros st t st' I H. inv_step H. rename ct_num into n.
  pose proof (i_thr _ I _ _ Ht) as Hok. unfold thr_ok in Hok; simpl in Hok. destruct Hok as [-> Hnl].
  destruct (readers_pos _ _ _ I Ht eq_refl) as [Hr Hw].
  unfold new_sink in H. cbn [st_readers set_sinks] in H. unfold store in H.
  cbn [st_table set_readers set_sinks] in H. pose proof Hnl as Hnl'. apply Nat.ltb_lt in Hnl'. rewrite Hnl' in H.
  inversion H; subst st'; clear H.
  assert (Hfree : slot st n = None).
  { destruct (slot st n) as [s'|] eqn:Hs'; auto. destruct (i_own _ I _ _ Hs') as (t0 & c0 & Ht0 & Hn0 & Hh0).
    assert (t0 = t) by (eapply (i_uniq _ I t0 c0 t _ Ht0 Ht); [left; auto|right; eexists; reflexivity|exact Hn0]).
    subst t0. rewrite Ht in Ht0. inversion Ht0; subst c0. discriminate. }
  match goal with |- INV ?X =>
    pose proof (slot_upd st X n _ Hnl eq_refl) as Hsl;
    destruct (new_sink_ok st X n t I Hnl (not_post_gen _ I Hw)) as (Hsink & Htabv & Hlook); try reflexivity end.
  { intros s d Hs. rewrite Hfree in Hs. discriminate. }
  eapply (inv_thr_step st _ t _ (mkThr n HOpen PIdle) I Ht Hw); try reflexivity; try exact Hw; auto.
  - cbn. lia.
  - cbn. apply upd_length.
  - intros m. rewrite Hsl. destruct (Nat.eqb_spec n m); [right; split; [auto|right; eexists; reflexivity]|auto].
  - intros _. left. split; [right; eexists|]; reflexivity.
  - eexists. rewrite Hsl, Nat.eqb_refl. reflexivity.
  - intros n' s' dd Hs' Hdd. specialize (Hlook _ _ _ Hs' Hdd). destruct (n =? n'); auto.
    destruct Hlook. eapply (i_tabo _ I Hw); eauto.
  - apply I.
Qed.

Lemma inv_rl_change : forall st w f r,
  INV st -> st_writer st = false -> w = rl_post r -> (w = true -> st_readers st = 0) ->
  phase_ok (set_rl st r) ->
  INV (set_rl (set_writer (set_fails st f) w) r).
Proof.
  intros st w f r I Hw Hwr Hw0 Hph. constructor; try apply I; auto.
  - left. apply (not_post_gen _ I Hw).
  - intros _. apply (i_tabo _ I Hw).
Qed.

Lemma inv_rl_lock : forall st st', INV st -> step true st ERlLock = Some st' -> INV st'.
Proof.
  intros st st' I H. unfold step in H. destruct (st_rl st) eqn:Er; try discriminate.
  destruct (st_writer st) eqn:Hw; try discriminate. destruct (st_readers st) eqn:Hr; try discriminate.
  inversion H; subst st'; clear H.
  apply (inv_rl_change st true (st_fails st) _ I Hw); auto.
  - unfold after_close. destruct (next_slot (st_table st) 0); reflexivity.
  - unfold phase_ok. cbn [st_rl set_rl]. unfold after_close.
    destruct (next_slot (st_table st) 0) as [j|] eqn:En.
    + intros i s d Hi Hs. destruct (next_slot_some _ _ _ En) as (_ & _ & Hmin). specialize (Hmin _ _ Hs). lia.
    + intros i s d Hs. pose proof (next_slot_none _ _ En _ _ Hs). lia.
Qed.

(* a step of reload() under the write lock: the goroutines are untouched and none of them is inside a call;
   the same slots are filled before and after.  What INV says of the sinks, the table, the phase and the
   log is left to the caller. *)
Lemma inv_wr_step : forall st st',
  INV st -> st_writer st = true ->
  st_thr st' = st_thr st -> st_readers st' = st_readers st ->
  st_writer st' = rl_post (st_rl st') ->
  (forall n, (exists s, slot st' n = Some s) <-> (exists s, slot st n = Some s)) ->
  (gen_shut st' (st_cur st') = false \/ st_rl st' = RInComplete) ->
  (forall s d, sink_at st' s = Some d -> sink_ok st' s d) ->
  (forall n s, slot st' n = Some s -> exists d, sink_at st' s = Some d /\ ds_num d = n) ->
  (st_writer st' = false -> forall n s d, slot st' n = Some s -> sink_at st' s = Some d -> ds_closed d = false) ->
  phase_ok st' -> log_ok (st_log st') ->
  INV st'.
Proof.
  intros st st' I Hw Hth Hrd Hwr Hsl Hgen Hsink Htabv Htabo Hph Hlog.
  assert (Hget : forall t, get_thr st' t = get_thr st t) by (intros; unfold get_thr; rewrite Hth; reflexivity).
  constructor; auto.
  - rewrite Hrd, Hth. apply I.
  - intros _. rewrite Hrd. apply (i_wr0 _ I Hw).
  - intros n s Hs. assert (Hex : exists s, slot st n = Some s) by (apply Hsl; eauto).
    destruct Hex as [s0 Hs0]. destruct (i_own _ I _ _ Hs0) as (t & c & Ht & Hx). exists t, c. rewrite Hget. auto.
  - intros t c. rewrite Hget. intros Ht. pose proof (i_thr _ I _ _ Ht) as Hok.
    assert (Hnl : in_lock c = false).
    { destruct (in_lock c) eqn:Hin; auto. destruct (readers_pos _ _ _ I Ht Hin) as [_ F]. congruence. }
    unfold thr_ok in *. destruct c as [n h pc]. simpl in *. unfold in_lock in Hnl. simpl in Hnl.
    destruct h, pc; auto; try discriminate. apply Hsl. exact Hok.
  - intros t c t' c'. rewrite !Hget. apply (i_uniq _ I).
Qed.

Lemma after_close_not_complete : forall st i, after_close st i <> RInComplete.
Proof. intros. unfold after_close. destruct (next_slot (st_table st) i); discriminate. Qed.

Lemma phase_after_close : forall st st1 j,
  st_table st1 = st_table st ->
  (forall i s d, i < S j -> slot st i = Some s -> sink_at st1 s = Some d -> ds_closed d = true) ->
  phase_ok (set_rl st1 (after_close st1 (S j))).
Proof.
  intros st st1 j Ht Hcl. unfold phase_ok, after_close, slot. cbn [st_rl set_rl st_table]. rewrite Ht.
  assert (Hall : forall j', (forall k s, slot st k = Some s -> S j <= k -> j' <= k) ->
            forall i s d, i < j' -> slot st i = Some s -> sink_at st1 s = Some d -> ds_closed d = true).
  { intros j' Hmin i s d Hi Hs. destruct (Nat.lt_ge_cases i (S j)) as [Hlt|Hge]; [eauto|].
    specialize (Hmin _ _ Hs). lia. }
  destruct (next_slot (st_table st) (S j)) as [j'|] eqn:En.
  - apply Hall. apply (next_slot_some _ _ _ En).
  - intros i s d. apply (Hall (S i)); auto. intros k s' Hs'. pose proof (next_slot_none _ _ En _ _ Hs'). lia.
Qed.

Lemma hand_proj : forall st t s rs, st_thr (hand st t s rs) = st_thr st /\ st_table (hand st t s rs) = st_table st.
Proof. intros. unfold hand. destruct (nth_error (st_sinks st) s); split; reflexivity. Qed.

Lemma flush_proj : forall st s cl,
  st_cur (flush st s cl) = st_cur st /\ st_shut (flush st s cl) = st_shut st /\
  st_table (flush st s cl) = st_table st /\ st_thr (flush st s cl) = st_thr st /\
  st_readers (flush st s cl) = st_readers st /\ st_writer (flush st s cl) = st_writer st /\
  st_rl (flush st s cl) = st_rl st.
Proof. intros. unfold flush. destruct (nth_error (st_sinks st) s); repeat split. Qed.

Lemma flush_sink_at : forall st s d cl s',
  sink_at st s = Some d ->
  sink_at (flush st s cl) s' =
  if s =? s' then Some (mkSink (ds_gen d) (ds_num d) (ds_addr d) (ds_closed d || cl) []) else sink_at st s'.
Proof.
  intros st s d cl s' Hd. unfold flush. pose proof Hd as Hd'. unfold sink_at in Hd'. rewrite Hd'.
  eapply sink_at_upd; eauto.
Qed.

Lemma flush_log_ok : forall st s d cl,
  INV st -> sink_at st s = Some d -> log_ok (st_log (flush st s cl)).
Proof.
  intros st s d cl I Hd. unfold flush. unfold sink_at in Hd. rewrite Hd. cbn [st_log set_log].
  destruct (i_sink _ I _ _ Hd) as [H1 H2]. destruct (ds_closed d) eqn:Ec.
  - rewrite (H1 eq_refl). apply I.
  - destruct (H2 eq_refl) as (Eg & Hg & _). rewrite Eg, Hg. apply log_ok_rev_map; [reflexivity|apply I].
Qed.

Lemma inv_rl_step_close : forall st j,
  INV st -> st_rl st = RInClose j ->
  INV (let st1 := match slot st j with Some s => flush st s true | None => st end in set_rl st1 (after_close st1 (S j))).
Proof.
  intros st j I Er. cbv zeta.
  assert (Hw : st_writer st = true) by (rewrite (i_wr _ I), Er; reflexivity).
  pose proof (i_phase _ I) as Hph. unfold phase_ok in Hph. rewrite Er in Hph.
  assert (Hg : gen_shut st (st_cur st) = false) by (destruct (i_gen _ I) as [G|G]; [auto|congruence]).
  assert (Hpost : forall st1, rl_post (after_close st1 (S j)) = true).
  { intros. unfold after_close. destruct (next_slot (st_table st1) (S j)); reflexivity. }
  destruct (slot st j) as [s|] eqn:Hsj.
  - destruct (i_tabv _ I _ _ Hsj) as (d & Hd & Hnd).
    destruct (flush_proj st s true) as (Pc & Psh & Ptb & Pth & Prd & Pw & Prl).
    assert (Hslot : forall x n, slot (set_rl (flush st s true) x) n = slot st n)
      by (intros; unfold slot; cbn; rewrite Ptb; reflexivity).
    assert (Hsk : forall x s', sink_at (set_rl (flush st s true) x) s' =
              if s =? s' then Some (mkSink (ds_gen d) (ds_num d) (ds_addr d) (ds_closed d || true) []) else sink_at st s')
      by (intros; apply (flush_sink_at st s d true s' Hd)).
    apply (inv_wr_step st); auto.
    + cbn. rewrite Pw, Hw, Hpost. reflexivity.
    + intros n. rewrite Hslot. tauto.
    + left. unfold gen_shut. cbn. rewrite Pc, Psh. exact Hg.
    + intros s' dd. rewrite Hsk. destruct (Nat.eqb_spec s s') as [<-|Hne]; intros Hdd.
      * injection Hdd as <-. split; auto. cbn. rewrite orb_true_r. discriminate.
      * unfold sink_ok, gen_shut. cbn. rewrite Pc, Psh, Ptb. apply (i_sink _ I _ _ Hdd).
    + intros n s'. rewrite Hslot, Hsk. intros Hs'. destruct (i_tabv _ I _ _ Hs') as (d0 & Hd0 & Hn0).
      destruct (Nat.eqb_spec s s') as [<-|Hne]; eauto. eexists; split; [reflexivity|]. cbn. congruence.
    + cbn. rewrite Pw, Hw. discriminate.
    + apply (phase_after_close st); auto.
      intros i s' dd Hi Hs'. rewrite (flush_sink_at st s d true s' Hd). destruct (Nat.eqb_spec s s') as [<-|Hne]; intros Hdd.
      * injection Hdd as <-. cbn. apply orb_true_r.
      * destruct (Nat.eq_dec i j) as [->|Hij]; [congruence|]. eapply Hph; eauto. lia.
    + cbn. eapply flush_log_ok; eauto.
  - apply (inv_wr_step st); auto; try apply I; try (intros n; tauto).
    + cbn. rewrite Hw, Hpost. reflexivity.
    + apply (phase_after_close st); auto.
      intros i s' dd Hi Hs' Hdd. destruct (Nat.eq_dec i j) as [->|Hij]; [congruence|]. eapply Hph; eauto. lia.
Qed.

(* once every sink of the table is closed, all sinks are, and INV asks nothing more of them *)
Lemma closed_sink_ok : forall st st',
  INV st -> (forall i s d, slot st i = Some s -> sink_at st s = Some d -> ds_closed d = true) ->
  st_sinks st' = st_sinks st -> forall s d, sink_at st' s = Some d -> sink_ok st' s d.
Proof.
  intros st st' I Hall E s d Hd. unfold sink_at in Hd. rewrite E in Hd. destruct (i_sink _ I _ _ Hd) as [H1 H2].
  split; auto. intros Ho. destruct (H2 Ho) as (_ & _ & Ht). apply slot_nth in Ht.
  rewrite (Hall _ _ _ Ht Hd) in Ho. discriminate.
Qed.

Lemma inv_rl_step_shutdown : forall st,
  INV st -> st_rl st = RInShutdown -> INV (set_rl (set_shut st (upd (st_shut st) (st_cur st) true)) RInComplete).
Proof.
  intros st I Er.
  assert (Hw : st_writer st = true) by (rewrite (i_wr _ I), Er; reflexivity).
  pose proof (i_phase _ I) as Hph. unfold phase_ok in Hph. rewrite Er in Hph.
  apply (inv_wr_step st); auto; try apply I; try (intros n; tauto).
  apply (closed_sink_ok st); auto.
Qed.

Lemma inv_rl_step_complete : forall st,
  INV st -> st_rl st = RInComplete ->
  INV (after_new (set_cur (set_shut st (st_shut st ++ [false])) (length (st_shut st))) 0).
Proof.
  intros st I Er.
  assert (Hw : st_writer st = true) by (rewrite (i_wr _ I), Er; reflexivity).
  pose proof (i_phase _ I) as Hph. unfold phase_ok in Hph. rewrite Er in Hph.
  set (st1 := set_cur (set_shut st (st_shut st ++ [false])) (length (st_shut st))).
  assert (Hg1 : gen_shut st1 (st_cur st1) = false) by apply nth_middle.
  unfold after_new, finish_reload. change (st_table st1) with (st_table st).
  destruct (next_slot (st_table st) 0) as [j|] eqn:En;
    (apply (inv_wr_step st); auto; try apply I; try (intros n; tauto); try (apply (closed_sink_ok st); auto)).
  - unfold phase_ok. cbn [st_rl set_rl]. destruct (next_slot_some _ _ _ En) as (_ & Hs0 & Hmin). split; auto.
    intros i s d Hs Hd. rewrite (Hph _ _ _ Hs Hd). destruct (Nat.ltb_spec i j) as [Hlt|Hge]; auto.
    specialize (Hmin _ _ Hs). lia.
  - intros _ n s d Hs. pose proof (next_slot_none _ _ En _ _ Hs). lia.
  - exact Logic.I.
Qed.

Lemma inv_rl_step_new : forall st j,
  INV st -> st_rl st = RInNew j ->
  INV (let (st1, s) := new_sink st (st_cur st) j (nth j (st_addrs st) 0) in
       after_new (set_table st1 (upd (st_table st1) j (Some s))) (S j)).
Proof.
  intros st j I Er. unfold new_sink.
  assert (Hw : st_writer st = true) by (rewrite (i_wr _ I), Er; reflexivity).
  pose proof (i_phase _ I) as Hph. unfold phase_ok in Hph. rewrite Er in Hph. destruct Hph as [[s0 Hs0] Hph].
  assert (Hjl : j < length (st_table st)) by (eapply slot_some_lt; exact Hs0).
  assert (Hg : gen_shut st (st_cur st) = false) by (destruct (i_gen _ I) as [G|G]; [auto|congruence]).
  cbn [st_table set_sinks].
  set (st2 := set_table (set_sinks st _) _).
  pose proof (slot_upd st st2 j (Some (length (st_sinks st))) Hjl eq_refl) as Hsl2.
  destruct (new_sink_ok st st2 j (nth j (st_addrs st) 0) I Hjl Hg) as (Hsink & Htabv & Hlook); try reflexivity.
  { intros s d Hs Hd. rewrite (Hph _ _ _ Hs Hd), Nat.ltb_irrefl. reflexivity. }
  assert (Hcl : forall i s d, slot st2 i = Some s -> sink_at st2 s = Some d -> ds_closed d = negb (i <? S j)).
  { intros i s d Hs Hd. specialize (Hlook _ _ _ Hs Hd). destruct (Nat.eqb_spec j i) as [<-|Hne].
    - rewrite Hlook. destruct (Nat.ltb_spec j (S j)); [reflexivity|lia].
    - destruct Hlook as [Hs' Hd']. rewrite (Hph _ _ _ Hs' Hd').
      destruct (Nat.ltb_spec i j), (Nat.ltb_spec i (S j)); auto; lia. }
  assert (Hdom : forall n, (exists s, slot st2 n = Some s) <-> (exists s, slot st n = Some s)).
  { intros n. rewrite Hsl2. destruct (Nat.eqb_spec j n) as [<-|Hne]; [|tauto]. split; intros _; eauto. }
  unfold after_new, finish_reload. change (st_table st2) with (upd (st_table st) j (Some (length (st_sinks st)))).
  rewrite next_slot_upd by lia.
  destruct (next_slot (st_table st) (S j)) as [j'|] eqn:En; (apply (inv_wr_step st); auto; try apply I).
  - cbn. rewrite Hw. discriminate.
  - unfold phase_ok. cbn [st_rl set_rl]. destruct (next_slot_some _ _ _ En) as (Hle & (s1 & Hs1) & Hmin). split.
    + exists s1. change (slot st2 j' = Some s1). rewrite Hsl2. destruct (Nat.eqb_spec j j'); [lia|]. exact Hs1.
    + intros i s d Hs Hd. change (slot st2 i = Some s) in Hs.
      rewrite (Hcl _ _ _ Hs Hd). destruct (Nat.ltb_spec i (S j)), (Nat.ltb_spec i j'); auto; try lia.
      rewrite Hsl2 in Hs. destruct (Nat.eqb_spec j i); [lia|]. specialize (Hmin _ _ Hs). lia.
  - intros _ i s d Hs Hd. change (slot st2 i = Some s) in Hs.
    rewrite (Hcl _ _ _ Hs Hd). destruct (Nat.ltb_spec i (S j)); auto.
    rewrite Hsl2 in Hs. destruct (Nat.eqb_spec j i); [lia|]. pose proof (next_slot_none _ _ En _ _ Hs). lia.
  - exact Logic.I.
Qed.

Theorem step_inv : forall st e st',
  INV st -> guard st e = true -> step true st e = Some st' -> INV st'.
Proof.
  intros st e st' I G H. destruct e.
  - inv_step H. inversion H; subst st'; clear H. simpl in G. apply andb_true_iff in G. destruct G as [Gn Gf].
    apply Nat.ltb_lt in Gn. apply (inv_enter st t _ _ I Ht Hw); auto.
    + split; auto.
    + intros [C|[g C]]; discriminate.
  - inv_step H.
  - eapply inv_new_end; eauto.
  - inv_step H. destruct (open_idle_slot _ _ _ I Ht) as [s Hs]. rewrite Hs in H. inversion H. apply inv_call; auto.
  - eapply inv_acc_end; eauto.
  - inv_step H. destruct (open_idle_slot _ _ _ I Ht) as [s Hs]. rewrite Hs in H. inversion H. apply inv_call; auto.
  - eapply inv_tick_end; eauto.
  - inv_step H. destruct (open_idle_slot _ _ _ I Ht) as [s Hs]. rewrite Hs in H. inversion H. apply inv_call; auto.
  - eapply inv_close_end; eauto.
  - unfold step in H. destruct (st_rl st) eqn:Er; try discriminate. inversion H.
    pose proof (i_wr _ I) as Hw. rewrite Er in Hw. simpl in Hw.
    apply (inv_rl_change st (st_writer st) (st_fails st) RInit I Hw Hw); [congruence|exact Logic.I].
  - unfold step in H. destruct (st_rl st) eqn:Er; try discriminate.
    pose proof (i_wr _ I) as Hw. rewrite Er in Hw. simpl in Hw. destruct ok; inversion H.
    + apply (inv_rl_change st (st_writer st) (st_fails st) RWantLock I Hw Hw); [congruence|exact Logic.I].
    + apply (inv_rl_change st (st_writer st) _ RIdle I Hw Hw); [congruence|exact Logic.I].
  - eapply inv_rl_lock; eauto.
  - unfold step in H. destruct (st_rl st) eqn:Er; try discriminate; injection H as <-.
    + apply inv_rl_step_close; auto.
    + apply inv_rl_step_shutdown; auto.
    + apply inv_rl_step_complete; auto.
    + apply inv_rl_step_new; auto.
Qed.

Theorem grun_ind : forall (Q : state -> list event -> state -> Prop),
  (forall st, INV st -> Q st [] st) ->
  (forall st e st1 evs st', INV st -> guard st e = true -> step true st e = Some st1 ->
     Q st1 evs st' -> Q st (e :: evs) st') ->
  forall evs st st', INV st -> grun true st evs = Some st' -> Q st evs st'.
Proof.
  intros Q Q0 QS. induction evs as [|e evs IH]; intros st st' I H; simpl in H.
  - injection H as <-. auto.
  - destruct (guard st e) eqn:G; try discriminate. destruct (step true st e) as [st1|] eqn:S; try discriminate.
    eapply QS; eauto. eapply IH; eauto. eapply step_inv; eauto.
Qed.

Theorem grun_inv : forall evs st st',
  INV st -> grun true st evs = Some st' -> INV st'.
Proof. apply (grun_ind (fun _ _ st' => INV st')); auto. Qed.
