(* Facts about Model/GoSem.v used by the equivalence proofs Proofs/*GenEquiv.v (generated function = hand-written
   model): what [go_len], [go_index] and the slicing operations return, then the tactics that execute a generated
   function symbolically and the rule for its loops. *)
From SV Require Import Model.Common Model.GoSem.
From Coq Require Import Lia ZifyBool ZifyN ZifyNat.
Ltac Zify.zify_post_hook ::= Z.div_mod_to_equations.

(* [go_len] stays folded under [cbn] (cbn would turn Z.of_nat (S n) into Pos.of_succ_nat garbage) *)
Global Arguments go_len : simpl never.

Lemma go_len_cons : forall {A} (x : A) l, go_len (x :: l) = (go_len l + 1)%Z.
Proof. intros. unfold go_len. cbn [length]. lia. Qed.

Lemma go_len_nonneg : forall {A} (l : list A), (0 <= go_len l)%Z.
Proof. intros. unfold go_len. lia. Qed.

Lemma same_result_of_eq : forall {A} (o : outcome A) (r : gres A),
  to_outcome r = o -> (forall e, o <> Err e) -> same_result o r.
Proof.
  intros A o r <- Hne. destruct r; cbn in *; auto. apply (Hne 1%N). reflexivity.
Qed.

Lemma firstn_snoc_nth : forall {A} (l : list A) n x, nth_error l n = Some x -> firstn (S n) l = firstn n l ++ [x].
Proof.
  intros A l. induction l as [|y l IH]; intros [|n] x H; cbn in *; try discriminate.
  - injection H as ->. reflexivity.
  - f_equal. apply IH. assumption.
Qed.

Lemma nth_error_firstn_lt : forall {A} (l : list A) n k, (k < n)%nat -> nth_error (firstn n l) k = nth_error l k.
Proof.
  intros A l. induction l as [|y l IH]; intros [|n] [|k] H; cbn; try reflexivity; try lia.
  apply IH. lia.
Qed.

Lemma nth_lt : forall {A} (t : list A) i, (i < length t)%nat -> exists c, nth_error t i = Some c.
Proof. intros A t i H. destruct (nth_error t i) eqn:E; [eauto|]. apply nth_error_None in E. lia. Qed.

Lemma go_index_nth : forall {A} (s : list A) (i : Z) c,
  (0 <= i)%Z -> nth_error s (Z.to_nat i) = Some c -> go_index s i = GOk c.
Proof.
  intros A s i c Hi Hn. unfold go_index. destruct (Z.ltb_spec i 0); [lia|]. rewrite Hn. reflexivity.
Qed.

Lemma go_index_app_len : forall {A} (pre suf : list A) c, go_index (pre ++ c :: suf) (go_len pre) = GOk c.
Proof.
  intros. apply go_index_nth; [apply go_len_nonneg|]. unfold go_len. rewrite Nat2Z.id.
  rewrite nth_error_app2 by lia. rewrite Nat.sub_diag. reflexivity.
Qed.

Lemma go_index_oob : forall {A} (s : list A) (i : Z), (i < 0 \/ go_len s <= i)%Z -> go_index s i = GPanic PIndex.
Proof.
  intros A s i H. unfold go_index. destruct (Z.ltb_spec i 0); [reflexivity|].
  rewrite (proj2 (nth_error_None s (Z.to_nat i))) by (unfold go_len in H; lia). reflexivity.
Qed.

Lemma go_index_nat : forall {A} (t : list A) i c, nth_error t i = Some c -> go_index t (Z.of_nat i) = GOk c.
Proof. intros. apply go_index_nth; [lia|]. rewrite Nat2Z.id. assumption. Qed.

Lemma go_slice_nat : forall {A} (t : list A) a b, (a <= b <= length t)%nat ->
  go_slice t (Z.of_nat a) (Z.of_nat b) = GOk (firstn (b - a) (skipn a t)).
Proof.
  intros A t a b H. unfold go_slice, go_len.
  replace (_ && _ && _)%bool with true by lia.
  rewrite Nat2Z.id. replace (Z.to_nat (Z.of_nat b - Z.of_nat a)) with (b - a)%nat by lia. reflexivity.
Qed.

Lemma go_slice_to_app : forall {A} (pre suf : list A), go_slice_to (pre ++ suf) (go_len pre) = GOk pre.
Proof.
  intros. unfold go_slice_to, go_slice, go_len. rewrite app_length.
  replace (_ && _ && _)%bool with true by lia.
  cbn [Z.to_nat skipn]. rewrite Z.sub_0_r, Nat2Z.id. rewrite firstn_app, Nat.sub_diag, firstn_all. cbn [firstn].
  rewrite app_nil_r. reflexivity.
Qed.

Lemma go_slice_to_0 : forall {A} (l : list A), go_slice_to l 0 = GOk [].
Proof. intros. apply (go_slice_to_app (@nil A) l). Qed.

Lemma go_slice_to_cons : forall {A} (x : A) l a, (0 < a)%Z ->
  go_slice_to (x :: l) a = (r <~ go_slice_to l (a - 1) ;; GOk (x :: r)).
Proof.
  intros A x l a Ha. unfold go_slice_to, go_slice. rewrite go_len_cons.
  replace ((0 <=? 0)%Z && (0 <=? a)%Z && (a <=? go_len l + 1)%Z)%bool
    with ((0 <=? 0)%Z && (0 <=? a - 1)%Z && (a - 1 <=? go_len l)%Z)%bool by lia.
  destruct ((0 <=? 0)%Z && (0 <=? a - 1)%Z && (a - 1 <=? go_len l)%Z)%bool; [|reflexivity].
  cbn [gbind Z.to_nat skipn]. rewrite !Z.sub_0_r.
  replace (Z.to_nat a) with (S (Z.to_nat (a - 1))) by lia. reflexivity.
Qed.

Lemma go_slice_from_app : forall {A} (pre suf : list A), go_slice_from (pre ++ suf) (go_len pre) = GOk suf.
Proof.
  intros. unfold go_slice_from, go_slice, go_len. rewrite app_length.
  replace (_ && _ && _)%bool with true by lia.
  rewrite Nat2Z.id. rewrite skipn_app, Nat.sub_diag, skipn_all. cbn [skipn app].
  replace (Z.to_nat (Z.of_nat (length pre + length suf) - Z.of_nat (length pre))) with (length suf) by lia.
  rewrite firstn_all. reflexivity.
Qed.

Lemma go_slice_from_0 : forall {A} (l : list A), go_slice_from l 0 = GOk l.
Proof. intros. apply (go_slice_from_app (@nil A) l). Qed.

Lemma go_slice_from_cons : forall {A} (x : A) l a, (0 < a)%Z -> go_slice_from (x :: l) a = go_slice_from l (a - 1).
Proof.
  intros A x l a Ha. unfold go_slice_from, go_slice. rewrite go_len_cons.
  replace ((0 <=? a)%Z && (a <=? go_len l + 1)%Z && (go_len l + 1 <=? go_len l + 1)%Z)%bool
    with ((0 <=? a - 1)%Z && (a - 1 <=? go_len l)%Z && (go_len l <=? go_len l)%Z)%bool by lia.
  replace (go_len l + 1 - a)%Z with (go_len l - (a - 1))%Z by lia.
  replace (Z.to_nat a) with (S (Z.to_nat (a - 1))) by lia. reflexivity.
Qed.

Lemma go_slice_from_nat : forall {A} (t : list A) a, (a <= length t)%nat -> go_slice_from t (Z.of_nat a) = GOk (skipn a t).
Proof.
  intros A t a H. unfold go_slice_from. change (go_len t) with (Z.of_nat (length t)). rewrite go_slice_nat by lia.
  rewrite firstn_all2 by (rewrite skipn_length; lia). reflexivity.
Qed.

(* Symbolic execution of a generated function on a list with an explicit head:
   [gosym] normalises, splits on the first condition that became closed, and repeats; what is left are
   equations between results, closed by reflexivity or by lia from the recorded conditions. *)
Ltac fix_tonat :=
  repeat match goal with
  | |- context [Pos.to_nat ?p] =>
    let n := eval compute in (Pos.to_nat p) in change (Pos.to_nat p) with n
  end.
Ltac split_if :=
  match goal with
  | |- context [if ?c then _ else _] => destruct c eqn:?
  end.
(* [go_loop] is unrolled one iteration at a time, and only when no closed condition is left to split on
   (a strong normalisation of all iterations at once is exponential in the number of branches) *)
Global Arguments go_loop : simpl never.
Lemma go_loop_S : forall {S R : Type} fuel (cond : S -> gres bool) (body : S -> gres (ctl S R)) (post : S -> gres S) s,
  go_loop (Datatypes.S fuel) cond body post s =
  (c <~ cond s ;;
   if c then
     r <~ body s ;;
     match r with
     | CNext s1 => s2 <~ post s1 ;; go_loop fuel cond body post s2
     | CBrk s1 => GOk (inl s1)
     | CRet v => GOk (inr v)
     end
   else GOk (inl s)).
Proof. reflexivity. Qed.
Lemma go_loop_O : forall {S R : Type} (cond : S -> gres bool) (body : S -> gres (ctl S R)) (post : S -> gres S) s,
  go_loop O cond body post s = GOutOfFuel.
Proof. reflexivity. Qed.

Ltac prune := try solve [exfalso; unfold go_len in *; cbn [length] in *; lia].
Ltac gostep := first [ rewrite go_loop_S | rewrite go_loop_O ].
Ltac gonorm := cbn; fix_tonat; cbn.
Ltac gosym := repeat (gonorm; first [ split_if; prune | gostep ]); gonorm.
(* the same without entering loops: stops in front of the first [go_loop] *)
Ltac gosym0 := repeat (gonorm; split_if; prune); gonorm.
Ltac gosym_done :=
  try reflexivity; try exact I;
  try (unfold go_len, int_of_byte, byte_of_int, byte_sub, byte_add, byte_mul in *; cbn [length] in *;
       first [ f_equal; lia | exfalso; lia ]).

(* The total-correctness rule for loops: an invariant [Inv], a measure that decreases with every
   completed iteration, and a postcondition [Q] on the way the loop is left.  With more fuel than the
   measure the loop ends in [Q]: no panic, no running out of fuel. *)
Lemma go_loop_inv :
  forall {S R : Type} (cond : S -> gres bool) (body : S -> gres (ctl S R)) (post : S -> gres S)
         (Inv : S -> Prop) (measure : S -> nat) (Q : S + R -> Prop),
  (forall s, Inv s ->
     exists b, cond s = GOk b /\
       if b then
         exists r, body s = GOk r /\
           match r with
           | CNext s1 => exists s2, post s1 = GOk s2 /\ Inv s2 /\ (measure s2 < measure s)%nat
           | CBrk s1 => Q (inl s1)
           | CRet v => Q (inr v)
           end
       else Q (inl s)) ->
  forall fuel s0, Inv s0 -> (measure s0 < fuel)%nat ->
  exists r, go_loop fuel cond body post s0 = GOk r /\ Q r.
Proof.
  intros S R cond body post Inv measure Q Hstep fuel.
  induction fuel as [|fuel IH]; intros s0 Hi Hm; [lia|].
  rewrite go_loop_S. destruct (Hstep s0 Hi) as (b & -> & Hb). cbn [gbind]. destruct b.
  - destruct Hb as (r & -> & Hr). cbn [gbind]. destruct r as [s1|s1|v].
    + destruct Hr as (s2 & -> & Hi2 & Hm2). cbn [gbind]. apply IH; [assumption|lia].
    + eauto.
    + eauto.
  - eauto.
Qed.

(* the same with the result of the loop given as a function of the start state *)
Lemma go_loop_inv_eq :
  forall {S R : Type} (cond : S -> gres bool) (body : S -> gres (ctl S R)) (post : S -> gres S)
         (Inv : S -> Prop) (measure : S -> nat) (res : S + R),
  (forall s, Inv s ->
     exists b, cond s = GOk b /\
       if b then
         exists r, body s = GOk r /\
           match r with
           | CNext s1 => exists s2, post s1 = GOk s2 /\ Inv s2 /\ (measure s2 < measure s)%nat
           | CBrk s1 => inl s1 = res
           | CRet v => inr v = res
           end
       else inl s = res) ->
  forall fuel s0, Inv s0 -> (measure s0 < fuel)%nat -> go_loop fuel cond body post s0 = GOk res.
Proof.
  intros S R cond body post Inv measure res Hstep fuel s0 Hi Hm.
  assert (H : exists r, go_loop fuel cond body post s0 = GOk r /\ r = res).
  { apply (go_loop_inv cond body post Inv measure (fun r => r = res)); assumption. }
  destruct H as (r & -> & ->). reflexivity.
Qed.

(* closes a pointwise specification of a generated lambda, after the facts about its reads were rewritten:
   case analysis on every remaining condition, whatever the shape of the generated term *)
Ltac close_spec :=
  repeat (cbn [gbind]; try split_if); cbn [gbind];
  first [ reflexivity | f_equal; lia | f_equal; f_equal; lia | exfalso; lia ].
