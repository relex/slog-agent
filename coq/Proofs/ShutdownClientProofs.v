(* C18: the client machine of Model/Metrics.v after the stop signal - a variant that strictly decreases with every
   step, and progress: every maximal run after the stop reaches CStopped, within a number of steps that is explicit
   in the chunks held and the chunks left in the closed output channel. *)
From SV Require Import Model.Common Model.Metrics Model.Shutdown Proofs.CommonFacts Proofs.MetricsProofs.
From Coq Require Import Lia ZifyBool ZifyN ZifyNat Permutation.
Ltac Zify.zify_post_hook ::= Z.div_mod_to_equations.
Local Open Scope Z_scope.

Lemma dedup_adj_len : forall l, zlen (dedup_adj l) <= zlen l.
Proof.
  induction l as [|c l IH]; [apply Z.le_refl|].
  cbn [dedup_adj]. destruct l as [|x l']; [apply Z.le_refl|].
  destruct (ch_id c =? ch_id x); rewrite ?zlen_cons in *; lia.
Qed.

Lemma new_leftover_channel_len : forall l, zlen (new_leftover_channel l) <= zlen l.
Proof.
  intros l. unfold new_leftover_channel.
  pose proof (dedup_adj_len (sort_chunks l)).
  assert (zlen (sort_chunks l) = zlen l).
  { unfold zlen. rewrite (Permutation_length (sort_chunks_perm l)). reflexivity. }
  lia.
Qed.

Lemma variant_nonneg : forall s w, 0 <= w -> 0 <= variant s w.
Proof.
  intros s w Hw. unfold variant, inner, load, c_holdings, acker_work, phase_work.
  pose proof (zlen_nonneg _ (c_left s)). pose proof (zlen_nonneg _ (c_achan s)). pose proof (zlen_nonneg _ (c_pmap s)).
  assert (0 <= len_opt (c_last s)) by (destruct (c_last s); simpl; lia).
  assert (0 <= stage (c_phase s)) by (destruct (c_phase s) as [| | | | | |[|[|n]]| | |]; simpl; lia).
  destruct (c_phase s), (c_acker s); nia.
Qed.

Lemma budget_after_internal : forall w e, c_internal e = true -> budget_after w e = w.
Proof. intros w []; try reflexivity; discriminate. Qed.

(* a control step allowed after the stop moves to a strictly lower stage *)
Lemma ctl_stage : forall e p p' w, ctl e p = Some p' -> post_stop_ok w e = true ->
  stage p' + 1 <= stage p /\ phase_work p' = 0 /\ budget_after w e = w.
Proof. intros e p p' w H Hok. destruct e; try discriminate Hok; destruct p; try discriminate H; injection H as <-; cbn; lia. Qed.

(* every step the client can take after the stop strictly decreases the variant *)
Lemma variant_decreases : forall cfg s w e s',
  c_inv s -> 0 <= w -> post_stop_ok w e = true -> c_step cfg s e = Some s' ->
  variant s' (budget_after w e) < variant s w /\ 0 <= budget_after w e.
Proof.
  intros cfg s w e s' [_ _ _ _ _ _ _ _ _ J10 J11 J12 _ _] Hw Hok Hs. apply c_step_trans in Hs.
  unfold variant, inner, load, c_holdings, acker_work.
  pose proof (zlen_nonneg _ (c_left s)). pose proof (zlen_nonneg _ (c_achan s)). pose proof (zlen_nonneg _ (c_pmap s)).
  assert (0 <= len_opt (c_last s)) by (destruct (c_last s); cbn; lia).
  assert (0 <= phase_work (c_phase s)) by (destruct (c_phase s); cbn; lia).
  destruct Hs; cbn [set_hist set_chan set_acker set_phase set_cm post_stop_ok budget_after c_phase c_acker c_left c_last c_achan c_pmap] in *; try discriminate Hok;
    try (match goal with H : ctl _ _ = Some ?p' |- _ => destruct (ctl_stage _ _ _ w H Hok) as (Hst & Hpw & ->) end;
         cbn [c_phase c_acker c_left c_last c_achan c_pmap]; rewrite Hpw;
         pose proof (Z.mul_le_mono_nonneg_r (stage p' + 1) (stage (c_phase s))
                       (7 * (zlen (c_left s) + len_opt (c_last s) + zlen (c_achan s) + zlen (c_pmap s) + w) + 9));
         split; lia);
    try match goal with H : take_id _ _ = Some _ |- _ => apply take_id_spec in H; destruct H as (? & _ & _) end;
    try match goal with H : c_internal _ = true |- _ => rewrite (budget_after_internal _ _ H) end;
    try destruct n as [|[|n]]; try destruct r; use_eqs;
    try match goal with |- context [stage (c_phase s)] => destruct (c_phase s) as [| | | |r|r|[|[|n]]| | |]; try discriminate end;
    try specialize (J11 eq_refl); try (destruct (J12 eq_refl) as (? & ? & ?)); try specialize (J10 eq_refl eq_refl); use_eqs;
    unfold Metrics.collect;
    cbn [c_phase c_acker c_left c_last c_achan c_pmap stage phase_work len_opt opt_list next_phase budget_after];
    try match goal with |- context [new_leftover_channel ?l] =>
          pose proof (new_leftover_channel_len l); pose proof (zlen_nonneg _ (new_leftover_channel l)) end;
    rewrite ?zlen_app, ?zlen_cons, ?zlen_nil, ?zlen_opt_list in *; cbn [len_opt] in *;
    try match goal with |- context [len_opt (c_last s)] => destruct (c_last s); cbn [len_opt] in * end;
    try match goal with |- context [match c_acker s with _ => _ end] => destruct (c_acker s); try congruence end;
    (split; lia).
Qed.

Lemma run_stop_bounded : forall cfg evs s w s' w',
  c_inv s -> 0 <= w -> c_run_stop cfg s w evs = Some (s', w') ->
  Z.of_nat (length evs) + variant s' w' <= variant s w /\ 0 <= w' /\ c_inv s'.
Proof.
  intros cfg. induction evs as [|e evs IH]; intros s w s' w' Hi Hw Hr; simpl in Hr.
  - inversion Hr; subst. simpl. split; [lia|]. split; assumption.
  - destruct (post_stop_ok w e) eqn:Hok; [|discriminate].
    destruct (c_step cfg s e) as [s1|] eqn:Hs; [|discriminate].
    destruct (variant_decreases cfg s w e s1 Hi Hw Hok Hs) as [Hd Hw1].
    destruct (IH s1 (budget_after w e) s' w' (c_step_inv _ _ _ _ Hi Hs) Hw1 Hr) as (Hb & Hw' & Hi').
    split; [|split; assumption]. cbn [length]. lia.
Qed.

(* stop_terminates for the client machine: a run after the stop has at most [variant] steps *)
Lemma client_stop_steps_bounded_lemma : forall cfg evs s w s' w',
  c_inv s -> 0 <= w -> c_run_stop cfg s w evs = Some (s', w') ->
  Z.of_nat (length evs) <= variant s w.
Proof.
  intros cfg evs s w s' w' Hi Hw Hr.
  destruct (run_stop_bounded cfg evs s w s' w' Hi Hw Hr) as (Hb & Hw' & _).
  pose proof (variant_nonneg s' w' Hw'). lia.
Qed.

(* ... and it cannot get stuck before CStopped: in every state after the stop some step is enabled whose wake-up
   is the stop signal itself, a closed channel, or a connection operation returning (contract) *)
Lemma client_stop_progress_lemma : forall cfg s w,
  c_stop s = true -> c_phase s <> CStopped ->
  exists e s', post_stop_ok w e = true /\ c_step cfg s e = Some s'.
Proof.
  intros cfg s w Hst Hph.
  destruct s as [m ph ak left last achan pmap unacked stop taken completed failed utot cbc cbl dups bug].
  cbn [c_stop c_phase] in *. subst stop.
  destruct ph as [| | | |r|r|n| | |].
  - exists COpen. eexists. split; reflexivity.
  - exists COpenStop. eexists. split; reflexivity.
  - exists CRecoveryStop. eexists. split; reflexivity.
  - exists CInputClosed. eexists. split; reflexivity.
  - exists CSendFail. eexists. split; reflexivity.
  - exists CQueueStop. eexists. split; reflexivity.
  - destruct ak as [|cur|].
    + exists AckerEnd. eexists. split; reflexivity.
    + exists AckErr. eexists. split; reflexivity.
    + exists CCollectDone. eexists. split; reflexivity.
  - exists CRetryStop. eexists. split; reflexivity.
  - destruct left as [|c l].
    + exists CFinish. eexists. split; reflexivity.
    + exists CFinalPop. eexists. split; reflexivity.
  - contradiction.
Qed.

Lemma client_stop_steps_bounded_reachable_lemma :
  forall cfg evs0 s, c_run cfg c_init evs0 = Some s ->
  forall w evs s' w', 0 <= w -> c_run_stop cfg s w evs = Some (s', w') ->
  Z.of_nat (length evs) <= variant s w.
Proof.
  intros cfg evs0 s Hr w evs s' w' Hw Hs.
  exact (client_stop_steps_bounded_lemma cfg evs s w s' w' (c_run_inv cfg evs0 _ _ c_init_inv Hr) Hw Hs).
Qed.
