(* C06 - concurrent sinks: with one extractor scratch per sink, every interleaving of the sinks' steps routes every
   record to the pipeline of its OWN key tuple (invariant over arbitrary schedules); with a shared scratch it does not. *)
From SV Require Import Model.Common Model.Md5 Model.Routing Model.RoutingMem Model.RoutingConc
  Proofs.CommonFacts Proofs.MergedKeyProofs Proofs.RoutingProofs.
From Coq Require Import Lia.
Open Scope N_scope.

Lemma set_nth_length : forall (A : Type) (l : list A) i x, length (set_nth l i x) = length l.
Proof. induction l as [|y l IH]; intros [|i] x; cbn; auto. Qed.

Lemma nth_error_set_nth_eq : forall (A : Type) (l : list A) i x y, nth_error l i = Some y -> nth_error (set_nth l i x) i = Some x.
Proof. induction l as [|z l IH]; intros [|i] x y H; cbn in *; try discriminate; [reflexivity|eapply IH; exact H]. Qed.

Lemma nth_error_set_nth_ne : forall (A : Type) (l : list A) i j x, i <> j -> nth_error (set_nth l i x) j = nth_error l j.
Proof.
  induction l as [|z l IH]; intros [|i] [|j] x H; cbn; try reflexivity; try congruence.
  apply IH. congruence.
Qed.

Lemma nth_set_nth_eq : forall (A : Type) (l : list A) i x d, (i < length l)%nat -> nth i (set_nth l i x) d = x.
Proof. induction l as [|z l IH]; intros [|i] x d H; cbn in *; try lia; [reflexivity|apply IH; lia]. Qed.

Lemma nth_set_nth_ne : forall (A : Type) (l : list A) i j x d, i <> j -> nth j (set_nth l i x) d = nth j l d.
Proof.
  induction l as [|z l IH]; intros [|i] [|j] x d H; cbn; try reflexivity; try congruence.
  apply IH. congruence.
Qed.

(* storing the next value of t into a list that agrees with t so far *)
Lemma firstn_S_set_nth : forall (A : Type) (l t : list A) j d, (j < length l)%nat -> (j < length t)%nat ->
  firstn j l = firstn j t -> firstn (S j) (set_nth l j (nth j t d)) = firstn (S j) t.
Proof.
  induction l as [|z l IH]; intros [|y t] [|j] d Hl Ht Hpre; cbn [length] in *; try lia; [reflexivity|].
  cbn [firstn] in Hpre. injection Hpre as -> Hpre. cbn [set_nth nth firstn]. f_equal. apply IH; [lia|lia|exact Hpre].
Qed.

Lemma set_nth_same : forall (A : Type) (l : list A) i d, set_nth l i (nth i l d) = l.
Proof. induction l as [|z l IH]; intros [|i] d; cbn; try reflexivity. rewrite IH. reflexivity. Qed.

(* what a step of sink s does to its own process p, given the global state g and the scratch scr it works on:
   the new global state, scratch and process, and the log entries made *)
Inductive pstep (parts : list tpart) (n s : nat) (g : gstate) (scr : list bytes) (p : sproc)
  : gstate -> list bytes -> sproc -> list entry -> Prop :=
| ps_start : forall t r, sp_phase p = PIdle -> sp_todo p = t :: r ->
    pstep parts n s g scr p g scr {| sp_todo := r; sp_phase := PExtract t O; sp_local := sp_local p |} []
| ps_store : forall t j, sp_phase p = PExtract t j -> (j < n)%nat ->
    pstep parts n s g scr p g (set_nth scr j (nth j t []))
      {| sp_todo := sp_todo p; sp_phase := PExtract t (S j); sp_local := sp_local p |} []
| ps_extracted : forall t j, sp_phase p = PExtract t j -> (n <= j)%nat ->
    pstep parts n s g scr p g scr {| sp_todo := sp_todo p; sp_phase := PLookup t; sp_local := sp_local p |} []
| ps_hit : forall t i, sp_phase p = PLookup t -> lookup (merged_key scr) (sp_local p) = Some i ->
    pstep parts n s g scr p g scr {| sp_todo := sp_todo p; sp_phase := PIdle; sp_local := sp_local p |} [(s, t, i)]
| ps_miss : forall t, sp_phase p = PLookup t -> lookup (merged_key scr) (sp_local p) = None ->
    pstep parts n s g scr p g scr
      {| sp_todo := sp_todo p; sp_phase := PCreate t (merged_key scr); sp_local := sp_local p |} []
| ps_create : forall t mk g' i, sp_phase p = PCreate t mk -> global_get_or_create parts g scr mk = Ok (g', i) ->
    pstep parts n s g scr p g' scr
      {| sp_todo := sp_todo p; sp_phase := PIdle; sp_local := (mk, i) :: sp_local p |} [(s, t, i)].

(* a step of the system is a no-op or a step of an existing sink on its scratch slot; nothing else changes *)
Lemma cstep_cases : forall shared parts n st s st',
  cstep shared parts n st s = Ok st' ->
  st' = st \/
  exists p g' scr' p' new, nth_error (c_procs st) s = Some p /\
    pstep parts n s (c_g st) (nth (slot shared s) (c_scr st) []) p g' scr' p' new /\
    st' = {| c_g := g'; c_procs := set_nth (c_procs st) s p';
             c_scr := set_nth (c_scr st) (slot shared s) scr'; c_log := new ++ c_log st |}.
Proof.
  intros shared parts n st s st' H. unfold cstep in H.
  destruct (nth_error (c_procs st) s) as [p|] eqn:Ep; [|left; injection H as <-; reflexivity].
  destruct (sp_phase p) as [|t j|t|t mk] eqn:Eph;
    [destruct (sp_todo p) as [|t r] eqn:Et|destruct (Nat.ltb_spec j n)|destruct (lookup _ (sp_local p)) as [i|] eqn:El|
     unfold obind in H; destruct (global_get_or_create _ _ _ _) as [[g' i]| |] eqn:Eg; try discriminate];
    injection H as E; try (left; symmetry; exact E); right;
    (eexists p, _, _, _, _; split; [reflexivity|]; split; [econstructor; eassumption|]);
    (* every step but the store leaves the scratch as it is *)
    rewrite ?set_nth_same; symmetry; exact E.
Qed.

Lemma run_sched_preserves : forall (P : cstate -> Prop) shared parts n,
  (forall st s st', P st -> cstep shared parts n st s = Ok st' -> P st') ->
  forall sched st st', P st -> run_sched shared parts n st sched = Ok st' -> P st'.
Proof.
  intros P shared parts n Hstep. induction sched as [|s r IH]; intros st st' HP H; cbn [run_sched] in H.
  - inversion H; subst. exact HP.
  - destruct (cstep shared parts n st s) as [st1| |] eqn:E; try discriminate.
    eapply IH; [eapply Hstep; eassumption|exact H].
Qed.

(* what a sink knows: its scratch has n slots; the part of the record's key values already stored is the record's own;
   between Extract and the two reads of GetOrCreate the scratch holds exactly the record's own key values *)
Definition proc_ok (n : nat) (pipes : list pipeline) (p : sproc) (scr : list bytes) : Prop :=
  length scr = n /\ Forall (fun t => length t = n) (sp_todo p) /\ map_ok pipes (sp_local p) /\
  match sp_phase p with
  | PIdle => True
  | PExtract t j => length t = n /\ firstn j scr = firstn j t
  | PLookup t => scr = t
  | PCreate t mk => scr = t /\ mk = merged_key t
  end.

(* the invariant of the system with one scratch per sink; ci_origin: the pipelines are those of g0 followed by
   pipelines made for the key tuple of a logged record *)
Record cinv (parts : list tpart) (n : nat) (g0 : gstate) (st : cstate) : Prop := {
  ci_g : ginv parts (c_g st);
  ci_len : length (c_scr st) = length (c_procs st);
  ci_procs : forall s p, nth_error (c_procs st) s = Some p -> proc_ok n (g_pipes (c_g st)) p (nth s (c_scr st) []);
  ci_log : forall s t i, In (s, t, i) (c_log st) -> served_by parts (g_pipes (c_g st)) t i;
  ci_origin : grown (fun ks => exists s i, In (s, ks, i) (c_log st)) (g_pipes g0) (g_pipes (c_g st))
}.

Lemma proc_ok_grown : forall P n pipes pipes' p scr, grown P pipes pipes' -> proc_ok n pipes p scr -> proc_ok n pipes' p scr.
Proof.
  intros P n pipes pipes' p scr Hgr [H1 [H2 [H3 H4]]]. split; [exact H1|]. split; [exact H2|].
  split; [exact (map_ok_grown _ _ _ _ Hgr H3)|exact H4].
Qed.

Lemma served_log_ext : forall parts pipes ext (log : list entry),
  (forall s t i, In (s, t, i) log -> served_by parts pipes t i) ->
  forall s t i, In (s, t, i) log -> served_by parts (pipes ++ ext) t i.
Proof. intros parts pipes ext log H s t i Hin. apply served_by_ext. exact (H _ _ _ Hin). Qed.

(* a step of a sink on a scratch of its own keeps what the sink knows, and what it logs is served *)
Lemma pstep_inv : forall parts n s g scr p g' scr' p' new,
  pstep parts n s g scr p g' scr' p' new -> ginv parts g -> proc_ok n (g_pipes g) p scr ->
  ginv parts g' /\ proc_ok n (g_pipes g') p' scr' /\
  grown (fun ks => exists i, In (s, ks, i) new) (g_pipes g) (g_pipes g') /\
  forall s' t i, In (s', t, i) new -> served_by parts (g_pipes g') t i.
Proof.
  intros parts n s g scr p g' scr' p' new Hst Hg [Hscr [Htodo [Hloc Hph]]].
  (* the steps that touch neither the global state nor the log *)
  assert (Hquiet : forall scr0 p0, proc_ok n (g_pipes g) p0 scr0 ->
            ginv parts g /\ proc_ok n (g_pipes g) p0 scr0 /\
            grown (fun ks => exists i, In (s, ks, i) (@nil entry)) (g_pipes g) (g_pipes g) /\
            forall s' t i, In (s', t, i) (@nil entry) -> served_by parts (g_pipes g) t i).
  { intros scr0 p0 H0. split; [exact Hg|]. split; [exact H0|]. split; [apply grown_refl|intros s' t i []]. }
  destruct Hst as [t r Eph Et|t j Eph Hj|t j Eph Hj|t i Eph El|t Eph El|t mk g' i Eph Eg]; rewrite Eph in Hph.
  - rewrite Et in Htodo. apply Hquiet. repeat split; try assumption; [exact (Forall_inv_tail Htodo)|exact (Forall_inv Htodo)].
  - destruct Hph as [Ht Hpre]. apply Hquiet. repeat split; try assumption; [rewrite set_nth_length; exact Hscr|].
    apply firstn_S_set_nth; [lia|lia|exact Hpre].
  - destruct Hph as [Ht Hpre]. apply Hquiet. repeat split; try assumption. rewrite !firstn_all2 in Hpre by lia. exact Hpre.
  - split; [exact Hg|]. repeat split; try assumption; [apply grown_refl|].
    intros s' t' i' [Heq|[]]. inversion Heq; subst. exact (map_ok_lookup _ _ _ _ _ Hloc (gi_pipes _ _ Hg) El).
  - apply Hquiet. repeat split; try assumption. rewrite Hph. reflexivity.
  - destruct Hph as [-> ->]. destruct (global_goc_inv _ _ _ _ _ Hg Eg) as [Hgr [Hg' Hsv]].
    split; [exact Hg'|]. repeat split; try assumption.
    + apply (map_ok_cons parts); [exact Hsv|exact (map_ok_grown _ _ _ _ Hgr Hloc)].
    + eapply grown_weaken; [|exact Hgr]. intros ks <-. exists i. left. reflexivity.
    + intros s' t' i' [Heq|[]]. inversion Heq; subst. exact Hsv.
Qed.

Lemma cstep_inv : forall parts n g0 st s st',
  cinv parts n g0 st -> cstep false parts n st s = Ok st' -> cinv parts n g0 st'.
Proof.
  intros parts n g0 st s st' [Hg Hlen Hprocs Hlog Horg] H.
  destruct (cstep_cases _ _ _ _ _ _ H) as [->|[p [g' [scr' [p' [new [Ep [Hst ->]]]]]]]]; [constructor; assumption|].
  cbn [slot] in *. destruct (pstep_inv _ _ _ _ _ _ _ _ _ _ Hst Hg (Hprocs _ _ Ep)) as [Hg' [Hp' [Hgr Hnew]]].
  assert (Hs : (s < length (c_scr st))%nat) by (rewrite Hlen; eapply nth_error_lt; exact Ep).
  constructor; cbn [c_g c_procs c_scr c_log].
  - exact Hg'.
  - rewrite !set_nth_length. exact Hlen.
  - (* the scratch of the other sinks is untouched *)
    intros s' q Hq. destruct (Nat.eq_dec s s') as [<-|Hne].
    + rewrite (nth_error_set_nth_eq _ _ _ _ _ Ep) in Hq. inversion Hq; subst q. rewrite nth_set_nth_eq by exact Hs. exact Hp'.
    + rewrite nth_error_set_nth_ne in Hq by exact Hne. rewrite nth_set_nth_ne by exact Hne.
      exact (proc_ok_grown _ _ _ _ _ _ Hgr (Hprocs _ _ Hq)).
  - intros s' t i Hin. apply in_app_or in Hin. destruct Hin as [Hin|Hin]; [exact (Hnew _ _ _ Hin)|].
    exact (served_by_grown _ _ _ _ _ _ Hgr (Hlog _ _ _ Hin)).
  - eapply grown_trans; [| |exact Horg|exact Hgr].
    + intros ks [s' [i Hin]]. exists s', i. apply in_or_app. right. exact Hin.
    + intros ks [i Hin]. exists s, i. apply in_or_app. left. exact Hin.
Qed.

Lemma nth_repeat_lt : forall (A : Type) (x d : A) k i, (i < k)%nat -> nth i (repeat x k) d = x.
Proof. induction k as [|k IH]; intros [|i] H; cbn; try lia; [reflexivity|apply IH; lia]. Qed.

Lemma cinv_init : forall parts n g0 progs,
  ginv parts g0 -> Forall (Forall (fun t => length t = n)) progs -> cinv parts n g0 (c_init g0 n progs).
Proof.
  intros parts n g0 progs Hg Har. constructor; cbn [c_init c_g c_procs c_scr c_log]; try assumption.
  - rewrite repeat_length, map_length. reflexivity.
  - intros s p Hn. rewrite nth_error_map in Hn. destruct (nth_error progs s) as [pr|] eqn:E; [|discriminate].
    cbn in Hn. inversion Hn; subst p; clear Hn.
    rewrite nth_repeat_lt by (eapply nth_error_lt; exact E).
    split; [apply repeat_length|]. split; [|split; [apply map_ok_nil|exact I]].
    cbn [sp_todo]. rewrite Forall_forall in Har. apply Har. eapply nth_error_In. exact E.
  - intros s t i [].
  - apply grown_refl.
Qed.

Lemma conc_inv : forall parts n ids g0 progs sched st,
  orch_init parts n ids = Ok g0 ->
  Forall (Forall (fun t => length t = n)) progs ->
  run_sched false parts n (c_init g0 n progs) sched = Ok st ->
  cinv parts n g0 st.
Proof.
  intros parts n ids g0 progs sched st Hinit Har Hrun.
  eapply (run_sched_preserves (cinv parts n g0)); [apply cstep_inv|apply cinv_init; [exact (proj1 (orch_init_spec _ _ _ _ Hinit))|exact Har]|exact Hrun].
Qed.

(* every interleaving: each routed record is in the pipeline of its own key tuple *)
Lemma conc_routing_own_keys_lemma : forall parts n ids g0 progs sched st,
  orch_init parts n ids = Ok g0 ->
  Forall (Forall (fun t => length t = n)) progs ->
  run_sched false parts n (c_init g0 n progs) sched = Ok st ->
  forall s t i, In (s, t, i) (c_log st) -> served_by parts (g_pipes (c_g st)) t i.
Proof.
  intros parts n ids g0 progs sched st Hinit Har Hrun.
  exact (ci_log _ _ _ _ (conc_inv _ _ _ _ _ _ _ Hinit Har Hrun)).
Qed.

(* two records of the run, of any sinks, share a pipeline exactly when their key tuples are equal *)
Lemma conc_routing_injective_lemma : forall parts n ids g0 progs sched st,
  orch_init parts n ids = Ok g0 ->
  Forall (Forall (fun t => length t = n)) progs ->
  run_sched false parts n (c_init g0 n progs) sched = Ok st ->
  forall s t i s' t' i', In (s, t, i) (c_log st) -> In (s', t', i') (c_log st) -> (t = t' <-> i = i').
Proof.
  intros parts n ids g0 progs sched st Hinit Har Hrun s t i s' t' i' H1 H2.
  pose proof (conc_inv _ _ _ _ _ _ _ Hinit Har Hrun) as Hinv.
  exact (served_by_inj _ _ _ _ _ _ (gi_complete _ _ (ci_g _ _ _ _ Hinv)) (ci_log _ _ _ _ Hinv _ _ _ H1) (ci_log _ _ _ _ Hinv _ _ _ H2)).
Qed.

(* no pipeline for a key tuple that no record has *)
Lemma conc_no_phantom_lemma : forall parts n ids g0 progs sched st,
  orch_init parts n ids = Ok g0 ->
  Forall (Forall (fun t => length t = n)) progs ->
  run_sched false parts n (c_init g0 n progs) sched = Ok st ->
  forall p, In p (g_pipes (c_g st)) -> In p (g_pipes g0) \/ exists s i, In (s, p_keys p, i) (c_log st).
Proof.
  intros parts n ids g0 progs sched st Hinit Har Hrun p.
  exact (grown_In _ _ _ _ (ci_origin _ _ _ _ (conc_inv _ _ _ _ _ _ _ Hinit Har Hrun))).
Qed.

Definition cur_of (p : sproc) : list (list bytes) :=
  match sp_phase p with PIdle => [] | PExtract t _ => [t] | PLookup t => [t] | PCreate t _ => [t] end.

(* the key tuples logged for sink s, oldest first *)
Fixpoint logged (s : nat) (log : list entry) : list (list bytes) :=
  match log with
  | [] => []
  | (s', t, _) :: r => if Nat.eqb s' s then logged s r ++ [t] else logged s r
  end.

Lemma logged_app : forall s a b, logged s (a ++ b) = logged s b ++ logged s a.
Proof.
  induction a as [|[[s' t] i] a IH]; intros b; cbn [app logged]; [symmetry; apply app_nil_r|].
  rewrite IH. destruct (Nat.eqb s' s); [apply app_assoc_reverse|reflexivity].
Qed.

(* what sink s is working on and still has to do (nothing for a sink that does not exist) *)
Definition rest_of (st : cstate) (s : nat) : list (list bytes) :=
  match nth_error (c_procs st) s with Some p => cur_of p ++ sp_todo p | None => [] end.

Definition log_ok (progs : list (list (list bytes))) (st : cstate) : Prop :=
  forall s, logged s (c_log st) ++ rest_of st s = nth s progs [].

Lemma log_ok_init : forall g0 n progs, log_ok progs (c_init g0 n progs).
Proof.
  intros g0 n progs s. unfold rest_of. cbn [c_init c_procs c_log logged app]. rewrite nth_error_map.
  destruct (nth_error progs s) as [pr|] eqn:E; cbn.
  - symmetry. apply nth_error_nth. exact E.
  - symmetry. apply nth_overflow. apply nth_error_None. exact E.
Qed.

(* a step moves at most one record of its sink from "working on" to the log, and logs nothing for other sinks *)
Lemma pstep_log : forall parts n s g scr p g' scr' p' new,
  pstep parts n s g scr p g' scr' p' new ->
  logged s new ++ cur_of p' ++ sp_todo p' = cur_of p ++ sp_todo p /\ forall s', s <> s' -> logged s' new = [].
Proof.
  intros parts n s g scr p g' scr' p' new Hst.
  destruct Hst as [t r Eph Et|t j Eph Hj|t j Eph Hj|t i Eph El|t Eph El|t mk g' i Eph Eg]; unfold cur_of; rewrite Eph;
    cbn [sp_todo sp_phase logged app]; rewrite ?Nat.eqb_refl, ?Et; (split; [reflexivity|]); intros s' Hne;
    try reflexivity; apply Nat.eqb_neq in Hne; rewrite Hne; reflexivity.
Qed.

Lemma cstep_log_ok : forall shared parts n progs st s st',
  log_ok progs st -> cstep shared parts n st s = Ok st' -> log_ok progs st'.
Proof.
  intros shared parts n progs st s st' Hall H.
  destruct (cstep_cases _ _ _ _ _ _ H) as [->|[p [g' [scr' [p' [new [Ep [Hst ->]]]]]]]]; [exact Hall|].
  destruct (pstep_log _ _ _ _ _ _ _ _ _ _ Hst) as [Hown Hoth]. intros s'. specialize (Hall s').
  unfold rest_of in *. cbn [c_procs c_log]. rewrite logged_app, <- app_assoc. destruct (Nat.eq_dec s s') as [<-|Hne].
  - rewrite (nth_error_set_nth_eq _ _ _ _ _ Ep), Hown. rewrite Ep in Hall. exact Hall.
  - rewrite nth_error_set_nth_ne, Hoth by exact Hne. exact Hall.
Qed.

(* whatever the schedule and the ownership of the scratch: what is logged for a sink, what it is working on and what it
   still has to do make up its program - no record is routed twice, skipped or invented *)
Lemma conc_log_is_program_lemma : forall shared parts n g0 progs sched st,
  run_sched shared parts n (c_init g0 n progs) sched = Ok st ->
  forall s p, nth_error (c_procs st) s = Some p -> logged s (c_log st) ++ cur_of p ++ sp_todo p = nth s progs [].
Proof.
  intros shared parts n g0 progs sched st Hrun s p Hp.
  pose proof (run_sched_preserves _ _ _ _ (cstep_log_ok shared parts n progs) _ _ _ (log_ok_init g0 n progs) Hrun s) as H.
  unfold rest_of in H. rewrite Hp in H. exact H.
Qed.

(* at the end of a complete schedule every sink's log is its program *)
Lemma conc_complete_log_lemma : forall shared parts n g0 progs sched st,
  run_sched shared parts n (c_init g0 n progs) sched = Ok st -> all_done st = true ->
  forall s, logged s (c_log st) = nth s progs [].
Proof.
  intros shared parts n g0 progs sched st Hrun Hdone s.
  rewrite <- (run_sched_preserves _ _ _ _ (cstep_log_ok shared parts n progs) _ _ _ (log_ok_init g0 n progs) Hrun s). unfold rest_of.
  destruct (nth_error (c_procs st) s) as [p|] eqn:Ep; [|symmetry; apply app_nil_r].
  unfold all_done in Hdone. rewrite forallb_forall in Hdone. specialize (Hdone p (nth_error_In _ _ Ep)).
  unfold proc_done in Hdone. unfold cur_of. destruct (sp_phase p); try discriminate.
  destruct (sp_todo p); [symmetry; apply app_nil_r|discriminate].
Qed.

Lemma In_logged : forall s t log, In t (logged s log) <-> exists i, In (s, t, i) log.
Proof.
  intros s t log. induction log as [|[[s' t'] i'] log IH]; cbn [logged].
  - split; [intros []|intros [i []]].
  - destruct (Nat.eqb s' s) eqn:E.
    + apply Nat.eqb_eq in E. subst s'. rewrite in_app_iff, IH. split.
      * intros [[i Hi]|[<-|[]]]; [exists i; right; exact Hi|exists i'; left; reflexivity].
      * intros [i [Heq|Hi]]; [inversion Heq; subst; right; left; reflexivity|left; exists i; exact Hi].
    + rewrite IH. split.
      * intros [i Hi]. exists i. right. exact Hi.
      * intros [i [Heq|Hi]]; [inversion Heq; subst; rewrite Nat.eqb_refl in E; discriminate|exists i; exact Hi].
Qed.

Lemma served_by_same : forall parts pipes pipes' t i i' p p',
  served_by parts pipes t i -> served_by parts pipes' t i' ->
  nth_error pipes i = Some p -> nth_error pipes' i' = Some p' -> p = p'.
Proof.
  intros parts pipes pipes' t i i' p p' [q [Hq [H1 [H2 [H3 H4]]]]] [q' [Hq' [H1' [H2' [H3' H4']]]]] Hp Hp'.
  rewrite Hq in Hp. inversion Hp; subst q. rewrite Hq' in Hp'. inversion Hp'; subst q'.
  destruct p as [k d g l], p' as [k' d' g' l']. cbn in *. subst. rewrite H3 in H3'. inversion H3'; subst. reflexivity.
Qed.

(* two complete runs of the same programs under ANY two schedules: every sink routes the same records in the same
   order, the k-th record of a sink reaches a pipeline with the same keys / id / tag / labels in both runs, and the
   same pipelines exist (as a set) *)
Lemma conc_schedule_independent_lemma : forall parts n ids g0 progs sched1 sched2 st1 st2,
  orch_init parts n ids = Ok g0 ->
  Forall (Forall (fun t => length t = n)) progs ->
  run_sched false parts n (c_init g0 n progs) sched1 = Ok st1 -> all_done st1 = true ->
  run_sched false parts n (c_init g0 n progs) sched2 = Ok st2 -> all_done st2 = true ->
  (forall s, logged s (c_log st1) = logged s (c_log st2)) /\
  (forall s t i1 i2 p1 p2, In (s, t, i1) (c_log st1) -> In (s, t, i2) (c_log st2) ->
      nth_error (g_pipes (c_g st1)) i1 = Some p1 -> nth_error (g_pipes (c_g st2)) i2 = Some p2 -> p1 = p2) /\
  (forall p, In p (g_pipes (c_g st1)) <-> In p (g_pipes (c_g st2))).
Proof.
  intros parts n ids g0 progs sched1 sched2 st1 st2 Hinit Har Hr1 Hd1 Hr2 Hd2.
  pose proof (conc_inv _ _ _ _ _ _ _ Hinit Har Hr1) as I1. pose proof (conc_inv _ _ _ _ _ _ _ Hinit Har Hr2) as I2.
  assert (L : forall s, logged s (c_log st1) = logged s (c_log st2)).
  { intros s. rewrite (conc_complete_log_lemma _ _ _ _ _ _ _ Hr1 Hd1), (conc_complete_log_lemma _ _ _ _ _ _ _ Hr2 Hd2). reflexivity. }
  split; [exact L|]. split.
  - intros s t i1 i2 p1 p2 H1 H2 Hp1 Hp2.
    eapply served_by_same; [exact (ci_log _ _ _ _ I1 _ _ _ H1)|exact (ci_log _ _ _ _ I2 _ _ _ H2)|exact Hp1|exact Hp2].
  - (* a pipeline of one run is one of g0 or serves a logged record; the other run logged that record too, and
       the pipeline serving it there is the same *)
    assert (Hdir : forall sta stb, cinv parts n g0 sta -> cinv parts n g0 stb ->
                     (forall s, logged s (c_log sta) = logged s (c_log stb)) ->
                     forall p, In p (g_pipes (c_g sta)) -> In p (g_pipes (c_g stb))).
    { intros sta stb Ia Ib Hl p Hp. destruct (grown_In _ _ _ _ (ci_origin _ _ _ _ Ia) Hp) as [H0|[s [i Hin]]].
      - destruct (ci_origin _ _ _ _ Ib) as [ext [-> _]]. apply in_or_app. left. exact H0.
      - assert (Hb : exists i', In (s, p_keys p, i') (c_log stb)).
        { apply In_logged. rewrite <- Hl. apply In_logged. exists i. exact Hin. }
        destruct Hb as [i' Hin'].
        destruct (ci_log _ _ _ _ Ib _ _ _ Hin') as [q' [Hq' Hrest']].
        destruct (In_nth_error _ _ Hp) as [k Hk].
        pose proof (pipes_ok_served _ _ _ _ (gi_pipes _ _ (ci_g _ _ _ _ Ia)) Hk) as Sp.
        rewrite (served_by_same _ _ _ _ _ _ _ _ Sp (ex_intro _ q' (conj Hq' Hrest')) Hk Hq'). eapply nth_error_In. exact Hq'. }
    intros p. split; [apply (Hdir st1 st2 I1 I2 L)|apply (Hdir st2 st1 I2 I1)]. intros s. symmetry. apply L.
Qed.

Lemma run_sched_app : forall shared parts n a b st,
  run_sched shared parts n st (a ++ b) =
  match run_sched shared parts n st a with Ok st' => run_sched shared parts n st' b | Err e => Err e | Panic x => Panic x end.
Proof.
  induction a as [|s a IH]; intros b st; cbn [app run_sched]; [reflexivity|].
  destruct (cstep shared parts n st s); [apply IH|reflexivity|reflexivity].
Qed.

Lemma run_sched_noop : forall shared parts n st s k,
  match nth_error (c_procs st) s with None => True | Some p => proc_done p = true end ->
  run_sched shared parts n st (repeat s k) = Ok st.
Proof.
  intros shared parts n st s k H. induction k as [|k IH]; cbn [repeat run_sched]; [reflexivity|].
  assert (E : cstep shared parts n st s = Ok st).
  { unfold cstep. destruct (nth_error (c_procs st) s) as [p|]; [|reflexivity].
    unfold proc_done in H. destruct (sp_phase p); try discriminate. destruct (sp_todo p); [reflexivity|discriminate]. }
  rewrite E. exact IH.
Qed.

Lemma run_rep_is_sched : forall shared parts n k st s, run_rep shared parts n st s k = run_sched shared parts n st (repeat s k).
Proof.
  induction k as [|k IH]; intros st s; [reflexivity|]. cbn [run_rep].
  destruct (nth_error (c_procs st) s) as [p|] eqn:Ep.
  - destruct (proc_done p) eqn:Ed.
    + symmetry. apply run_sched_noop. rewrite Ep. exact Ed.
    + cbn [repeat run_sched]. destruct (cstep shared parts n st s); [apply IH|reflexivity|reflexivity].
  - symmetry. apply run_sched_noop. rewrite Ep. exact I.
Qed.

Lemma run_lcg_is_sched : forall shared parts n nprocs burst fuel x st,
  run_lcg shared parts n nprocs burst fuel x st = run_sched shared parts n st (lcg_sched nprocs burst fuel x).
Proof.
  induction fuel as [|f IH]; intros x st; cbn [run_lcg lcg_sched run_sched]; [reflexivity|].
  rewrite run_sched_app, run_rep_is_sched.
  destruct (run_sched shared parts n st (repeat _ burst)); [apply IH|reflexivity|reflexivity].
Qed.

Lemma run_drain_is_sched : forall shared parts n count s k st,
  run_drain shared parts n st s count k = run_sched shared parts n st (drain_sched s count k).
Proof.
  induction count as [|c IH]; intros s k st; cbn [run_drain drain_sched run_sched]; [reflexivity|].
  rewrite run_sched_app, run_rep_is_sched.
  destruct (run_sched shared parts n st (repeat s k)); [apply IH|reflexivity|reflexivity].
Qed.

(* the run of correspondence kind 8 is the run of one particular schedule *)
Lemma conc_exec_is_sched : forall shared parts n progs seed burst,
  exists sched, conc_exec shared parts n progs seed burst = run_sched shared parts n (c_init g_init n progs) sched.
Proof.
  intros shared parts n progs seed burst. unfold conc_exec.
  exists (lcg_sched (N.of_nat (length progs)) burst (S (Nat.div (total_records progs * (n + 4)) burst)) seed
          ++ drain_sched O (length progs) (longest progs * (n + 4))%nat).
  rewrite run_sched_app, run_lcg_is_sched.
  destruct (run_sched shared parts n (c_init g_init n progs) _); try reflexivity.
  apply run_drain_is_sched.
Qed.

(* the shared scratch (one FieldSetExtractor copied into every sink) is refuted *)

Definition w_info : bytes := [105;110;102;111].
Definition w_warn : bytes := [119;97;114;110].
Definition w_web : bytes := [119;101;98].
Definition w_db : bytes := [100;98].
Definition w_parts : list tpart := [TVar 0; TLit [45]; TVar 1].      (* $level-$app *)
Definition w_progs : list (list (list bytes)) := [[[w_info; w_web]]; [[w_warn; w_db]]].
(* sink 0 extracts (info, web); sink 1 starts and stores its level; sink 0 looks up and creates; sink 1 finishes *)
Definition w_sched : list nat := [0; 0; 0; 0; 1; 1; 0; 0; 1; 1; 1; 1]%nat.

Lemma shared_scratch_refuted_lemma :
  exists st, run_sched true w_parts 2 (c_init g_init 2 w_progs) w_sched = Ok st /\ all_done st = true /\
    (* the record (info, web) of sink 0 is in a pipeline made for (warn, web): id "warn,web", tag "warn-web" *)
    (exists p, In (O, [w_info; w_web], O) (c_log st) /\ nth_error (g_pipes (c_g st)) O = Some p /\
               p_keys p = [w_warn; w_web] /\ p_id p = w_warn ++ [44] ++ w_web /\ p_tag p = w_warn ++ [45] ++ w_web) /\
    (* and no record of the run has the key tuple (warn, web) *)
    (forall s t i, In (s, t, i) (c_log st) -> t <> [w_warn; w_web]) /\
    (* the same programs under the same schedule with one scratch per sink: fine *)
    (exists st', run_sched false w_parts 2 (c_init g_init 2 w_progs) w_sched = Ok st' /\ all_done st' = true /\
                 map p_keys (g_pipes (c_g st')) = [[w_info; w_web]; [w_warn; w_db]]).
Proof.
  eexists. split; [vm_compute; reflexivity|]. split; [vm_compute; reflexivity|]. split; [|split].
  - eexists. split; [vm_compute; right; left; reflexivity|]. split; [vm_compute; reflexivity|]. vm_compute. auto.
  - intros s t i H. vm_compute in H. destruct H as [H|[H|[]]]; inversion H; subst; discriminate.
  - eexists. split; [vm_compute; reflexivity|]. split; vm_compute; reflexivity.
Qed.

(* satisfiability of the hypotheses: two sinks, three records, interleaved field by field *)
Definition ex_progs : list (list (list bytes)) := [[[w_info; w_web]; [w_warn; w_db]]; [[w_warn; w_db]]].
Definition ex_sched : list nat := [0; 1; 0; 1; 0; 1; 0; 1; 0; 1; 0; 0; 0; 0; 0; 0; 0; 1; 1]%nat.

Lemma conc_example_lemma :
  orch_init w_parts 2 [] = Ok g_init /\ Forall (Forall (fun t => length t = 2%nat)) ex_progs /\
  exists st, run_sched false w_parts 2 (c_init g_init 2 ex_progs) ex_sched = Ok st /\ all_done st = true /\
             length (c_log st) = 3%nat /\ map p_id (g_pipes (c_g st)) = [w_info ++ [44] ++ w_web; w_warn ++ [44] ++ w_db].
Proof.
  split; [reflexivity|]. split; [repeat constructor|].
  eexists. split; [vm_compute; reflexivity|]. repeat split; vm_compute; reflexivity.
Qed.
