(* Witnesses for C05: the hypothesis of the order theorems is needed; the hypotheses are satisfiable. *)
From Coq Require Import List Arith Bool Lia PeanoNat NArith ZArith.
From SV Require Import Model.Common Model.System Model.SystemAccept Model.SystemOrderCase
  Proofs.SystemLists Proofs.SystemProofs Proofs.SystemAlo Proofs.SystemAcceptProofs
  Proofs.SystemOrderLists Proofs.SystemOrder Proofs.SystemOrderTok Proofs.SystemOrderThm.
Import ListNotations.
Open Scope nat_scope.

(* queue overflow after a successful spill: chunk 1 is counted dropped but its file stays; chunk 2 is delivered;
   after the restart chunk 1 is recovered and delivered: record 0 arrives at the upstream after record 1 *)
Definition ow_t0 : tok := mkTok 0 0 1 true 5%N.
Definition ow_t1 : tok := mkTok 0 1 1 true 6%N.
Definition ow_run : list event :=
  [EConnOpen 0; EIngest ow_t0; EIngest ow_t1;
   EFrame 0; ESinkSend 0; EKeyFlush 0 1; EWorkerTake 1; EWorkerStep 1; EChunkClose 1 1 ADropFullSaved;
   EFrame 0; ESinkSend 0; EKeyFlush 0 1; EWorkerTake 1; EWorkerStep 1; EChunkClose 1 2 AMem;
   EConnect 1; EFeederTake 1; EFeederPush 1; ESendNew 1; ESrvAck 1 2; EAckRead 1 2; ESessionEnd 1;
   EStopReq; EConnEnd 0; EInputsStopped; EWorkerStop 1 3 AMem; EDestroy 1; EFeederBreak 1; EClientStop 1; EClientDone 1;
   EFeederEnd 1; EStopped; ERestart;
   EConnect 1; EFeederTake 1; EFeederLoad 1 true; EFeederPush 1; ESendNew 1].

Definition ow_check : bool :=
  match steps init ow_run with
  | Some s => negb (order_safe ow_run) && negb (incrb (first_occ (deliveredb 0 1 s)))
  | None => false
  end.

Lemma ow_check_true : ow_check = true.
Proof. vm_compute. reflexivity. Qed.

Lemma overflow_witness : exists es s k p, steps init es = Some s /\ ~ incr (first_occ (delivered k p s)).
Proof.
  pose proof ow_check_true as H. unfold ow_check in H.
  destruct (steps init ow_run) as [s|] eqn:E; [|discriminate H].
  apply andb_true_iff in H. destruct H as [_ H]. apply negb_true_iff in H.
  exists ow_run, s, 0, 1. split; [exact E|]. intros X. rewrite <- deliveredb_eq in X. apply incrb_spec in X. congruence.
Qed.

(* non-vacuity: the example run of C01 (a chunk received twice - never ACKed, then recovered after a restart and
   ACKed -, a second chunk) is order-safe, and both theorems apply to it *)
Definition exo_check : bool :=
  match steps init ex_events with
  | Some s => order_safe ex_events && Nat.eqb (length (received s)) 3 && incrb (first_occ (deliveredb 0 1 s))
              && Nat.eqb (length (first_occ (deliveredb 0 1 s))) 2
  | None => false
  end.

Lemma exo_check_true : exo_check = true.
Proof. vm_compute. reflexivity. Qed.

Lemma order_example : exists es s, steps init es = Some s /\ order_safe es = true /\ length (received s) = 3 /\
  length (first_occ (delivered 0 1 s)) = 2.
Proof.
  pose proof exo_check_true as H. unfold exo_check in H.
  destruct (steps init ex_events) as [s|] eqn:E; [|discriminate H].
  rewrite !andb_true_iff in H. destruct H as [[[Os Nr] _] Nd].
  exists ex_events, s. split; [exact E|]. split; [exact Os|]. split; [apply Nat.eqb_eq; exact Nr|].
  rewrite <- deliveredb_eq. apply Nat.eqb_eq. exact Nd.
Qed.

(* an accepted trace is the projection of an order-safe run: the flag ord=1 printed by the acceptor is a theorem *)
Lemma accepted_order_lemma : forall tr s, accept tr = Some s -> order_check s = true.
Proof.
  intros tr s H. destruct (accept_sound_lemma tr s H) as [es [os [H1 [_ [H3 _]]]]].
  eapply order_check_lemma; eassumption.
Qed.
