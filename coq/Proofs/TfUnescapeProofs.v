(* C15: the chunked RunToBuffer loop of Model/TfUnescape.v computes the reference unescaper. *)
From SV Require Import Model.Common Model.TfUnescape Spec.TfUnescapeSpec.
From Coq Require Import Lia ZifyBool ZifyN ZifyNat.
Open Scope N_scope.

Lemma index_byte_some : forall s c n, index_byte s c = Some n ->
  (n < length s)%nat /\ Forall (fun b => b <> c) (firstn n s) /\ exists t, skipn n s = c :: t.
Proof.
  induction s as [|b t IH]; intros c n H; [discriminate|].
  cbn [index_byte] in H. destruct (b =? c) eqn:E.
  - inversion H; subst. cbn. split; [lia|]. split; [constructor|]. exists t. f_equal. lia.
  - destruct (index_byte t c) as [m|] eqn:Em; [|discriminate]. inversion H; subst.
    destruct (IH c m Em) as (Hl & Hf & u & Hu). cbn [length firstn skipn]. split; [lia|]. split.
    + constructor; [lia|assumption].
    + exists u. assumption.
Qed.

Lemma index_byte_none : forall s c, index_byte s c = None -> Forall (fun b => b <> c) s.
Proof.
  induction s as [|b t IH]; intros c H; [constructor|].
  cbn [index_byte] in H. destruct (b =? c) eqn:E; [discriminate|].
  destruct (index_byte t c) eqn:Em; [discriminate|]. constructor; [lia|apply IH; assumption].
Qed.

Lemma unesc_ref_no_esc : forall esc m a t, Forall (fun b => b <> esc) a ->
  unesc_ref esc m (a ++ t) = a ++ unesc_ref esc m t.
Proof.
  intros esc m a t H. induction H as [|b a Hb Ha IH]; [reflexivity|].
  cbn [app unesc_ref]. destruct (b =? esc) eqn:E; [lia|]. f_equal. exact IH.
Qed.

Lemma unesc_ref_no_esc_all : forall esc m a, Forall (fun b => b <> esc) a -> unesc_ref esc m a = a.
Proof.
  intros. rewrite <- (app_nil_r a) at 1. rewrite unesc_ref_no_esc by assumption. cbn. apply app_nil_r.
Qed.

Definition starts_with_esc (u : unescaper) (s : bytes) : Prop :=
  match s with [] => True | c :: _ => c = u_esc u end.

Lemma run_loop_spec : forall fuel u rest out,
  starts_with_esc u rest -> (length rest < fuel)%nat ->
  run_loop fuel u rest out = Some (out ++ unesc_ref (u_esc u) (u_map u) rest).
Proof.
  induction fuel as [|fuel IH]; intros u rest out Hs Hf; [lia|].
  cbn [run_loop]. destruct rest as [|e [|val rest']].
  - reflexivity.
  - cbn in Hs. subst e. cbn [unesc_ref]. rewrite N.eqb_refl. reflexivity.
  - cbn in Hs. subst e.
    set (n := match index_byte rest' (u_esc u) with Some n => n | None => length rest' end).
    assert (Hsplit : Forall (fun b => b <> u_esc u) (firstn n rest') /\ starts_with_esc u (skipn n rest')).
    { unfold n. destruct (index_byte rest' (u_esc u)) as [k|] eqn:E.
      - destruct (index_byte_some _ _ _ E) as (_ & Hf' & t & Ht). split; [assumption|]. rewrite Ht. reflexivity.
      - rewrite firstn_all, skipn_all. split; [apply index_byte_none; assumption|exact I]. }
    destruct Hsplit as [Hno Hst].
    rewrite IH; [|assumption|rewrite skipn_length; cbn [length] in Hf; lia].
    f_equal. cbn [unesc_ref]. rewrite N.eqb_refl.
    assert (Hr : unesc_ref (u_esc u) (u_map u) rest' =
                 firstn n rest' ++ unesc_ref (u_esc u) (u_map u) (skipn n rest')).
    { rewrite <- (firstn_skipn n rest') at 1. apply unesc_ref_no_esc. assumption. }
    rewrite Hr.
    destruct (u_map u val =? 0); rewrite <- !app_assoc; reflexivity.
Qed.

(* RunFromFirst on the position of the first escape byte computes the reference *)
Lemma run_from_first_spec : forall u src first,
  index_byte src (u_esc u) = Some first ->
  run_from_first u src first = Some (unesc_ref (u_esc u) (u_map u) src).
Proof.
  intros u src first H. destruct (index_byte_some _ _ _ H) as (Hl & Hno & t & Ht).
  unfold run_from_first. rewrite run_loop_spec.
  - f_equal. rewrite <- (firstn_skipn first src) at 3. symmetry. apply unesc_ref_no_esc. assumption.
  - rewrite Ht. reflexivity.
  - rewrite skipn_length. lia.
Qed.

(* Run never runs out of fuel and computes the reference *)
Lemma unescape_run_spec : forall u s, unescape_run u s = Some (unesc_ref (u_esc u) (u_map u) s).
Proof.
  intros u s. unfold unescape_run. destruct (index_byte s (u_esc u)) as [first|] eqn:E.
  - apply run_from_first_spec. assumption.
  - rewrite unesc_ref_no_esc_all by (apply index_byte_none; assumption). reflexivity.
Qed.

(* the output never exceeds the input: the destination buffer of len(src) is large enough *)
Lemma unesc_ref_length_aux : forall esc m n s, (length s <= n)%nat ->
  (length (unesc_ref esc m s) <= length s)%nat.
Proof.
  intros esc m. induction n as [|n IH]; intros s Hn.
  - destruct s; [cbn; lia|cbn in Hn; lia].
  - destruct s as [|c t]; [cbn; lia|]. cbn [unesc_ref].
    destruct (c =? esc).
    + destruct t as [|v t']; [cbn; lia|].
      assert (Hl : (length (unesc_ref esc m t') <= length t')%nat) by (apply IH; cbn in Hn; lia).
      destruct (m v =? 0); cbn [length] in *; lia.
    + assert (Hl : (length (unesc_ref esc m t) <= length t)%nat) by (apply IH; cbn in Hn; lia).
      cbn [length]. lia.
Qed.

Lemma unesc_ref_length : forall esc m s, (length (unesc_ref esc m s) <= length s)%nat.
Proof. intros. apply (unesc_ref_length_aux esc m (length s)). lia. Qed.

Lemma syslog_map : forall c,
  u_map syslog_unescaper c =
  if c =? 92 then 92 else if c =? 98 then 8 else if c =? 102 then 12 else if c =? 110 then 10
  else if c =? 114 then 13 else if c =? 116 then 9 else 0.
Proof. intros c. reflexivity. Qed.
