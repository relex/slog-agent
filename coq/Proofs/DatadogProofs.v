(* C02 - the Datadog connection's status-code decision (Model/Datadog.v) and its tie to the client LTS: SendChunk
   returns ROk exactly on a 2xx answer, for every integer status ([dd_send_ok_iff_2xx]), so a chunk is confirmed
   only on a 2xx answer ([dd_confirm_only_2xx_lemma]; on accepted traces [dd_accepted_case_lemma]).  The two
   variants of the decision, [dd_send_chunk_switch] and [dd_send_chunk_ge300], are refuted by the run [dd_bad_run],
   which confirms a chunk answered 307 resp. 101 ([dd_switch_variant_lemma], [dd_ge300_variant_lemma]). *)
From SV Require Import Model.Common Model.Client Model.ClientAccept Model.Datadog Spec.ClientSpec
     Proofs.ClientTheorems Proofs.ClientAcceptProofs Proofs.ClientCorollaries.
From Coq Require Import Lia ZifyBool.

Definition is_2xx (st : Z) : Prop := (200 <= st < 300)%Z.

(* the decision function, for EVERY integer status *)
Lemma dd_send_ok_iff_2xx : forall r : dd_resp,
  dd_send_chunk r = ROk <-> exists st, r = DDResp st /\ is_2xx st.
Proof.
  intros r. unfold is_2xx. destruct r as [|st]; cbn [dd_send_chunk].
  - split; [discriminate|]. intros [st [H _]]. discriminate H.
  - destruct (st >=? 300)%Z eqn:E3.
    + split; [discriminate|]. intros [st' [H Hr]]. inversion H; subst st'. lia.
    + destruct (st <? 200)%Z eqn:E2.
      * split; [discriminate|]. intros [st' [H Hr]]. inversion H; subst st'. lia.
      * split; [intros _; exists st; split; [reflexivity|lia]|reflexivity].
Qed.


(* the SendChunk calls that returned, in order *)
Fixpoint sendrets (tr : list event) : list (chunk * res) :=
  match tr with
  | [] => []
  | ESendRet _ c r :: t => (c, r) :: sendrets t
  | _ :: t => sendrets t
  end.

Lemma sendrets_app : forall a b, sendrets (a ++ b) = sendrets a ++ sendrets b.
Proof.
  induction a as [|e a IH]; intros b; [reflexivity|].
  destruct e; cbn [sendrets app]; rewrite ?IH; reflexivity.
Qed.

Lemma sendrets_in : forall tr k c r, In (ESendRet k c r) tr -> In (c, r) (sendrets tr).
Proof.
  induction tr as [|e tr IH]; intros k c r H; [destruct H|].
  destruct H as [H|H].
  - subst e. left. reflexivity.
  - destruct e; cbn [sendrets]; try (right); eapply IH; exact H.
Qed.

(* the run is the run of a client whose connection is the Datadog connection answering by [xs]: the i-th SendChunk
   that returned carried the chunk of the i-th exchange and returned what [send] makes of the i-th response *)
Definition dd_history (send : dd_resp -> res) (xs : list dd_exchange) (tr : list event) : Prop :=
  sendrets tr = map (fun x => (fst x, send (snd x))) xs.

(* confirm only after a 2xx answer to a POST carrying that very chunk - tied to the LTS theorem confirm-after-ack
   with ack := the HTTP response *)
Lemma dd_confirm_only_2xx_lemma :
  forall (P : params) (xs : list dd_exchange) (pre : list event) (c : chunk) (post : list event) (s : state),
  run P init (pre ++ EConsumed c :: post) = Some s ->
  dd_history dd_send_chunk xs (pre ++ EConsumed c :: post) ->
  exists st, In (c, DDResp st) (firstn (length (sendrets pre)) xs) /\ is_2xx st.
Proof.
  intros P xs pre c post s Hr Hh.
  destruct (confirm_after_ack_lemma P pre c post s Hr) as [k [Hs _]].
  apply sendrets_in in Hs.
  unfold dd_history in Hh. rewrite sendrets_app in Hh.
  pose proof (f_equal (firstn (length (sendrets pre))) Hh) as Hp.
  rewrite firstn_app, Nat.sub_diag, firstn_all, firstn_O, app_nil_r, firstn_map in Hp.
  rewrite Hp in Hs at 1. apply in_map_iff in Hs. destruct Hs as [[c' r] [He Hi]].
  cbn [fst snd] in He. inversion He as [[Hc Hok]]. subst c'.
  apply dd_send_ok_iff_2xx in Hok. destruct Hok as [st [Hr' H2]]. subst r.
  exists st. split; assumption.
Qed.

(* the seeded variants really differ *)

Definition dd_bad_run : list event :=
  [EOffer 1%N; EMainSpawn; EConnStart 1; EConnRet 1 true; EMainConn; EResendDone;
   ETake 1%N; ESendRet 1 1%N ROk; EEnqueue; EAckerTake 1%N; EAckRet 1 dd_read_ack; EConsumed 1%N].

Lemma dd_bad_run_runs : exists s, run (mkParams 2 false true) init dd_bad_run = Some s.
Proof. destruct (run (mkParams 2 false true) init dd_bad_run) as [s|] eqn:E; [eauto|vm_compute in E; discriminate E]. Qed.

Lemma dd_switch_variant_lemma :
  exists (xs : list dd_exchange) (tr : list event) (s : state) (c : chunk),
    run (mkParams 2 false true) init tr = Some s /\ dd_history dd_send_chunk_switch xs tr /\
    In (EConsumed c) tr /\ forall st, In (c, DDResp st) xs -> ~ is_2xx st.
Proof.
  destruct dd_bad_run_runs as [s E]. exists [(1%N, DDResp 307)], dd_bad_run, s, 1%N.
  split; [exact E|]. split; [reflexivity|]. split; [unfold dd_bad_run; cbn; intuition|].
  intros st [[= <-]|[]]. unfold is_2xx. lia.
Qed.

Lemma dd_ge300_variant_lemma :
  exists (xs : list dd_exchange) (tr : list event) (s : state) (c : chunk),
    run (mkParams 2 false true) init tr = Some s /\ dd_history dd_send_chunk_ge300 xs tr /\
    In (EConsumed c) tr /\ forall st, In (c, DDResp st) xs -> ~ is_2xx st.
Proof.
  destruct dd_bad_run_runs as [s E]. exists [(1%N, DDResp 101)], dd_bad_run, s, 1%N.
  split; [exact E|]. split; [reflexivity|]. split; [unfold dd_bad_run; cbn; intuition|].
  intros st [[= <-]|[]]. unfold is_2xx. lia.
Qed.


Lemma dd_apply_sendret : forall send os xs os' k c r,
  dd_apply send xs os = Some os' -> In (ESendRet k c r) os' ->
  exists x, In x xs /\ fst x = c /\ r = send (snd x).
Proof.
  induction os as [|e os IH]; intros xs os' k c r Ha Hi.
  - cbn in Ha. destruct xs; inversion Ha; subst os'. destruct Hi.
  - destruct e;
      try (cbn [dd_apply] in Ha; destruct (dd_apply send xs os) as [t|] eqn:Et; [|discriminate Ha];
           inversion Ha; subst os'; destruct Hi as [Hi|Hi]; [discriminate Hi|]; eapply IH; eassumption).
    cbn [dd_apply] in Ha. destruct xs as [|[c' r'] xs']; [discriminate Ha|].
    destruct (c0 =? c')%N eqn:Ec; [|discriminate Ha]. apply N.eqb_eq in Ec. subst c'.
    destruct (dd_apply send xs' os) as [t|] eqn:Et; [|discriminate Ha].
    inversion Ha; subst os'. destruct Hi as [Hi|Hi].
    + inversion Hi; subst. exists (c, r'). split; [left; reflexivity|]. split; reflexivity.
    + destruct (IH _ _ _ _ _ Et Hi) as [x [Hx Hrest]]. exists x. split; [right; exact Hx|exact Hrest].
Qed.

(* an accepted kind-6 case: the trace with the model's send results is a trace of the LTS, and every confirmation
   in it comes after a POST of that chunk answered 2xx *)
Lemma dd_accepted_case_lemma :
  forall (P : params) (xs : list dd_exchange) (os os' : list event) (out : bytes),
  dd_apply dd_send_chunk xs os = Some os' ->
  Forall (fun e => is_obs e = true) os' ->
  accept_out P false os' = str_accept ++ colon :: out ->
  forall o1 c o2, os' = o1 ++ EConsumed c :: o2 -> exists st, In (c, DDResp st) xs /\ is_2xx st.
Proof.
  intros P xs os os' out Ha Hobs Hacc o1 c o2 Heq.
  destruct (accepted_trace_lemma P os' out Hobs Hacc) as [Hsafe _].
  destruct (Hsafe o1 c o2 Heq) as [k [a [Hs _]]].
  assert (Hin : In (ESendRet k c ROk) os') by (rewrite Heq; apply in_or_app; left; exact Hs).
  destruct (dd_apply_sendret _ _ _ _ _ _ _ Ha Hin) as [[c' r] [Hx [Hc Hr]]].
  cbn [fst snd] in Hc, Hr. subst c'. symmetry in Hr. apply dd_send_ok_iff_2xx in Hr.
  destruct Hr as [st [Hr H2]]. subst r. exists st. split; assumption.
Qed.

(* non-vacuity: a refused chunk (307 with the fixed decision = error) is retransmitted on the next connection and
   confirmed after the 202 *)
Definition dd_good_run : list event :=
  [EOffer 1%N; EMainSpawn; EConnStart 1; EConnRet 1 true; EMainConn; EResendDone;
   ETake 1%N; ESendRet 1 1%N RErr].

Lemma dd_example_lemma :
  exists s, run (mkParams 2 false true) init dd_good_run = Some s /\
            dd_history dd_send_chunk [(1%N, DDResp 307)] dd_good_run /\
            dd_send_chunk (DDResp 202) = ROk /\ dd_send_chunk (DDResp 307) = RErr /\
            dd_send_chunk (DDResp 101) = RErr /\ dd_send_chunk DDNoResp = RErr.
Proof.
  destruct (run (mkParams 2 false true) init dd_good_run) as [s|] eqn:E; [|vm_compute in E; discriminate E].
  exists s. repeat split; reflexivity.
Qed.
