(* C07: proofs about the composition Model/Pipeline.v.  Every statement about a component is IMPORTED, as a property
   theorem of Props/C08.v C09.v C10.v C13.v C14.v (C08_never_full, C08_connection_single_line,
   C08_test_record_start_prefix for the framing; C09_accounting, C09_history_independent for the parser;
   C09_to_valid_utf8_valid, C09_utf8_valid_iff for the label rule; C10_decode_encode, C10_small_event_small_strings
   for the serializer; C13_transform_cases for parseTime; C14_transform for redactEmail) or as a lemma of the
   component's proof file (no_panic_lemma, if_spec_lemma, block_spec_lemma of TransformsProofs.v; local_goc_spec of
   RoutingProofs.v and local_goc_total of TagTemplateProofs.v for the orchestrator; serialize_fixed_total and
   encode_spec_nonempty of PipelineSerializerProofs.v; new_serializer_ok of SerializerProofs.v).
   What is proved here is the glue, stated with the outcome predicate [returns]: field locators, that the field
   array keeps its length through every transform, the state invariant of the orchestrator's pipeline table, the
   fold over records (total; malformed records are counted and change nothing else), and one connection on top of
   the framing layer. *)
From SV Require Import Model.Common.
From SV Require Model.Utf8 Model.Parser Model.ParseTime Model.Redact Model.Template Model.Extractor Model.Transforms
               Model.Routing Model.Serializer Model.PipelineSerializer Model.Packer Model.Framing.
From SV Require Import Model.Pipeline.
From SV Require Spec.Utf8Spec Spec.SyslogSpec Spec.SerializerSpec Spec.FramingSpec Spec.MsgpackSpec.
From SV Require Proofs.ParserProofs Proofs.TransformsProofs Proofs.RoutingProofs Proofs.TagTemplateProofs
               Proofs.SerializerProofs Proofs.PipelineSerializerProofs.
From SV Require Props.C08 Props.C09 Props.C10 Props.C13 Props.C14.
From Coq Require Import Lia.

Module Ps := SV.Model.Parser.
Module T := SV.Model.Transforms.
Module R := SV.Model.Routing.
Module S := SV.Model.Serializer.
Module K := SV.Model.Packer.
Module F := SV.Model.Framing.
Module TP := SV.Proofs.TransformsProofs.
Module RP := SV.Proofs.RoutingProofs.
Module SS := SV.Spec.SerializerSpec.

(* outcomes: [returns o P] = [o] is neither an error nor a panic, and its value satisfies [P] *)

Definition returns {A} (o : outcome A) (P : A -> Prop) : Prop := exists a, o = Ok a /\ P a.

Lemma returns_ok : forall A (a : A) (P : A -> Prop), P a -> returns (Ok a) P.
Proof. intros A a P H. exists a. split; [reflexivity|exact H]. Qed.

Lemma returns_bind : forall A B (o : outcome A) (f : A -> outcome B) (P : A -> Prop) (Q : B -> Prop),
  returns o P -> (forall a, P a -> returns (f a) Q) -> returns (pbind o f) Q.
Proof. intros A B o f P Q (a & -> & Ha) Hf. exact (Hf a Ha). Qed.

Lemma pbind_inv : forall A B (o : outcome A) (f : A -> outcome B) b,
  pbind o f = Ok b -> exists a, o = Ok a /\ f a = Ok b.
Proof. intros A B [a| |] f b H; [exists a; split; [reflexivity|exact H]|discriminate|discriminate]. Qed.

Lemma set_nth_length : forall (fs : list bytes) loc v, length (T.set_nth fs loc v) = length fs.
Proof. induction fs as [|x fs IH]; intros [|loc] v; cbn; try reflexivity. rewrite IH. reflexivity. Qed.

Lemma set_checked_ok : forall fs loc v n, length fs = n -> (loc < n)%nat ->
  returns (set_checked fs loc v) (fun fs' => length fs' = n).
Proof.
  intros fs loc v n <- H. unfold set_checked. apply Nat.ltb_lt in H. rewrite H.
  apply returns_ok, set_nth_length.
Qed.

Lemma get_checked_ok : forall fs loc, (loc < length fs)%nat -> returns (get_checked fs loc) (fun _ => True).
Proof.
  intros fs loc H. unfold get_checked. destruct (nth_error fs loc) eqn:E; [apply returns_ok; exact I|].
  apply nth_error_None in E. lia.
Qed.

Definition locs_ok (nf : nat) (l : field_locs) : Prop :=
  (l_facility l < nf /\ l_level l < nf /\ l_time l < nf /\ l_host l < nf /\ l_app l < nf /\ l_pid l < nf /\
   l_source l < nf /\ l_extradata l < nf /\ l_log l < nf)%nat.

Lemma place_ok : forall nf l r, locs_ok nf l -> returns (place nf l r) (fun fs => length fs = nf).
Proof.
  intros nf l r H. unfold locs_ok in H. unfold place.
  (* [cbn beta]: the postcondition of a stage arrives applied to its value *)
  eapply returns_bind; [apply set_checked_ok; [apply repeat_length|lia]|intros ? ?; cbn beta in *].
  do 7 (eapply returns_bind; [apply set_checked_ok; [eassumption|lia]|intros ? ?; cbn beta in *]).
  apply set_checked_ok; [assumption|lia].
Qed.

Lemma extract_keys_ok : forall locs fs, Forall (fun l => (l < length fs)%nat) locs ->
  returns (extract_keys locs fs) (fun ks => length ks = length locs).
Proof.
  intros locs fs H. induction H as [|l locs Hl _ IH]; [apply returns_ok; reflexivity|]. cbn [extract_keys].
  eapply returns_bind; [exact (get_checked_ok fs l Hl)|intros v _].
  eapply returns_bind; [exact IH|intros ks Lk]. apply returns_ok. cbn [length]. rewrite Lk. reflexivity.
Qed.

(* the field array keeps its length through every C15 transform *)

Section Nfields.
Variable O : T.oracles.

Notation nf r := (length (T.r_fields r)).

Definition nf_kept {X} (get : X -> T.rec) (r : T.rec) (o : outcome X) : Prop :=
  match o with Ok x => nf (get x) = nf r | _ => True end.
Notation rec_of := (fun x : _ * T.counters * T.rec * bool => snd (fst x)).

Lemma nf_set : forall r loc v, nf (T.set_field r loc v) = nf r.
Proof. intros. apply set_nth_length. Qed.

Lemma addfields_nf : forall pairs r, nf_kept id r (T.run_addfields pairs r).
Proof. intros pairs r. destruct (TP.addfields_no_panic pairs r) as (r2 & -> & Hn). exact Hn. Qed.

Lemma delfields_nf : forall locs r, nf (T.run_delfields locs r) = nf r.
Proof. induction locs as [|l locs IH]; intros r; [reflexivity|]. cbn [T.run_delfields]. rewrite IH. apply nf_set. Qed.

Lemma mapvalue_nf : forall loc m d r, nf (T.run_mapvalue loc m d r) = nf r.
Proof. intros. unfold T.run_mapvalue. destruct (Template.get_field (T.r_fields r) loc); [reflexivity|apply nf_set]. Qed.

Lemma extractsp_nf : forall ex src dst r, nf_kept id r (T.run_extractsp ex src dst r).
Proof.
  intros ex src dst r. unfold T.run_extractsp.
  destruct (Template.get_field (T.r_fields r) src); [reflexivity|].
  destruct (Extractor.extract ex (n :: b)) as [[e rem]| |]; [|exact I|exact I]. cbn [Extractor.obind].
  destruct (length rem =? length (n :: b))%nat; [reflexivity|]. unfold nf_kept, id. rewrite !nf_set. reflexivity.
Qed.

Lemma truncate_nf : forall loc maxlen suffix r, nf_kept id r (T.run_truncate loc maxlen suffix r).
Proof.
  intros loc maxlen suffix r. unfold T.run_truncate.
  destruct (Z.of_nat (length (Template.get_field (T.r_fields r) loc)) >? maxlen + Z.of_nat (length suffix))%Z;
    [|reflexivity].
  destruct (maxlen <? 0)%Z; [exact I|].
  destruct (TfUtf8.clean_utf8 _) as [tr| |]; [|exact I|exact I]. apply nf_set.
Qed.

Lemma unescape_nf : forall loc r, nf_kept id r (T.run_unescape loc r).
Proof.
  intros loc r. unfold T.run_unescape. destruct (T.r_unesc r); [reflexivity|]. cbn [T.r_fields].
  destruct (Template.get_field (T.r_fields r) loc) as [|c v]; [reflexivity|].
  destruct (TfUnescape.index_byte (c :: v) _); [|reflexivity].
  destruct (TfUnescape.run_from_first _ (c :: v) _); [|exact I]. unfold nf_kept, id. rewrite nf_set. reflexivity.
Qed.

Lemma replace_nf : forall loc pat repl r, nf (T.run_replace O loc pat repl r) = nf r.
Proof. intros. unfold T.run_replace. destruct (Template.get_field (T.r_fields r) loc); [reflexivity|apply nf_set]. Qed.

Lemma extractre_loop_nf : forall locs idx value r, nf_kept id r (T.run_extractre_loop locs idx value r).
Proof.
  induction locs as [|l locs IH]; intros idx value r; cbn [T.run_extractre_loop]; [reflexivity|].
  destruct l as [loc|]; [|apply IH].
  destruct idx as [|[a b] idx]; [exact I|].
  destruct ((a <? 0) || (b <? 0))%Z; [apply IH|].
  destruct (Template.go_slice value a b) as [v| |]; [|exact I|exact I]. cbn [Extractor.obind].
  specialize (IH idx value (T.set_field r loc v)). unfold nf_kept in *. rewrite nf_set in IH. exact IH.
Qed.

Lemma extractre_nf : forall loc pat locs r, nf_kept id r (T.run_extractre O loc pat locs r).
Proof.
  intros loc pat locs r. unfold T.run_extractre.
  destruct (T.o_re_find O pat _); [apply extractre_loop_nf|reflexivity].
Qed.

Lemma lift_nf : forall t cs o r, nf_kept id r o -> nf_kept rec_of r (T.lift t cs o).
Proof. intros t cs [r'| |] r H; exact H. Qed.

(* the control-flow nodes hand on what their sub-program returns *)
Lemma rewrap_nf : forall X Y (k : X -> Y) r (o : outcome (X * T.counters * T.rec * bool)),
  nf_kept rec_of r o ->
  nf_kept rec_of r match o with Ok (x, cs, r', b) => Ok (k x, cs, r', b) | Err e => Err e | Panic s => Panic s end.
Proof. intros X Y k r [[[[x cs] r'] b]| |] H; exact H. Qed.

Lemma run_tf_nf_all :
  (forall t cs r, nf_kept rec_of r (T.run_tf O t cs r)) /\
  (forall ts cs r, nf_kept rec_of r (T.run_tfs O ts cs r)) /\
  (forall ks cs r, nf_kept rec_of r (T.run_cases O ks cs r)).
Proof.
  apply TP.tf_mutind.
  - intros pairs cs r. apply lift_nf, addfields_nf.
  - intros locs cs r. apply delfields_nf.
  - intros loc m d cs r. apply mapvalue_nf.
  - intros m th IH cs r. rewrite TP.if_spec_lemma.
    destruct (T.matches O m (T.r_fields r)); [apply rewrap_nf, IH|reflexivity].
  - intros ks IH cs r. rewrite TP.run_tf_switch. apply rewrap_nf, IH.
  - intros bl IH cs r. rewrite TP.block_spec_lemma. apply rewrap_nf, IH.
  - intros m rate label matched dropped cs r. rewrite TP.run_tf_drop.
    destruct (T.matches O m (T.r_fields r)); [|reflexivity].
    destruct (T.run_drop_matched m rate label matched dropped cs (T.r_rawlen r)) as [[t2 cs2] b2]. reflexivity.
  - intros ex src dst cs r. apply lift_nf, extractsp_nf.
  - intros loc maxlen suffix cs r. apply lift_nf, truncate_nf.
  - intros loc cs r. apply lift_nf, unescape_nf.
  - intros loc pat repl cs r. apply replace_nf.
  - intros loc pat locs cs r. apply lift_nf, extractre_nf.
  - intros cs r. reflexivity.
  - intros t IHt ts IHts cs r. rewrite TP.run_tfs_cons. specialize (IHt cs r).
    destruct (T.run_tf O t cs r) as [[[[t2 cs2] r2] [|]]| |]; try exact IHt.
    specialize (IHts cs2 r2). destruct (T.run_tfs O ts cs2 r2) as [[[[ts3 cs3] r3] b3]| |]; try exact I.
    exact (eq_trans IHts IHt).
  - intros cs r. reflexivity.
  - intros m th IHth ks IHks cs r. rewrite TP.run_cases_cons.
    destruct (T.matches O m (T.r_fields r)); apply rewrap_nf; [apply IHth|apply IHks].
Qed.

End Nfields.

(* programs with parseTime / redactEmail nodes: well-formed programs never panic *)

Scheme xtf_ind' := Induction for xtf Sort Prop
  with xtfs_ind' := Induction for xtfs Sort Prop
  with xcases_ind' := Induction for xcases Sort Prop.
Combined Scheme xtf_mutind from xtf_ind', xtfs_ind', xcases_ind'.

Section XRun.
Variable O : T.oracles.
Variable local_off : Z.
Variable nfl : nat.           (* len(record.Fields) *)

(* a C15 leaf is well-formed in C15's sense (extractor shapes, maxLen >= 0, sane regexp oracle); the two new
   transforms need their key locator inside the field array *)
Fixpoint wf_xtf (t : xtf) : Prop :=
  match t with
  | XBase b => TP.wf_tf O b
  | XIf _ th => wf_xtfs th
  | XSwitch ks => wf_xcases ks
  | XBlock b => wf_xtfs b
  | XParseTime loc _ => (loc < nfl)%nat
  | XRedact loc _ => (loc < nfl)%nat
  end
with wf_xtfs (ts : xtfs) : Prop :=
  match ts with XNil => True | XCons t ts' => wf_xtf t /\ wf_xtfs ts' end
with wf_xcases (ks : xcases) : Prop :=
  match ks with XKNil => True | XKCons _ th ks' => wf_xtfs th /\ wf_xcases ks' end.

Notation pnf p := (length (T.r_fields (fst p))).

(* the last case of C13_transform_cases on its own: whatever bytes the time field holds, the transform is not a panic *)
Lemma parse_time_value_total : forall v : bytes,
  match ParseTime.transform_parse_time local_off v with ParseTime.TpPanic _ => False | _ => True end.
Proof.
  intros v. pose proof (C13.C13_transform_cases local_off v) as H.
  destruct (ParseTime.transform_parse_time local_off v); try exact I. exact H.
Qed.

Lemma parse_time_ok : forall loc label cs (p : prec), (loc < nfl)%nat -> pnf p = nfl ->
  returns (run_parse_time local_off loc label cs p) (fun r => pnf (snd r) = nfl).
Proof.
  intros loc label cs [r ts] Hl Hn. cbn [fst] in Hn. unfold run_parse_time.
  eapply returns_bind; [apply get_checked_ok; lia|intros v _].
  pose proof (parse_time_value_total v) as Hv.
  destruct (ParseTime.transform_parse_time local_off v); [| | |destruct Hv]; apply returns_ok; exact Hn.
Qed.

Lemma redact_ok : forall loc label cs (p : prec), (loc < nfl)%nat -> pnf p = nfl ->
  returns (run_redact loc label cs p) (fun r => pnf (snd r) = nfl).
Proof.
  intros loc label cs [r ts] Hl Hn. cbn [fst] in Hn. unfold run_redact.
  eapply returns_bind; [apply get_checked_ok; lia|intros v _].
  destruct (C14.C14_transform v) as (tr & -> & _). cbn [pbind].
  destruct (Redact.tr_counted tr); apply returns_ok; cbn [snd fst]; [rewrite nf_set|]; exact Hn.
Qed.

Lemma run_xtf_if : forall m th cs p, run_xtf O local_off (XIf m th) cs p =
  if T.matches O m (T.r_fields (fst p)) then
    '(th', cs', p', pass) <~ run_xtfs O local_off th cs p ;; Ok (XIf m th', cs', p', pass)
  else Ok (XIf m th, cs, p, true).
Proof. reflexivity. Qed.
Lemma run_xtf_switch : forall ks cs p, run_xtf O local_off (XSwitch ks) cs p =
  '(ks', cs', p', pass) <~ run_xcases O local_off ks cs p ;; Ok (XSwitch ks', cs', p', pass).
Proof. reflexivity. Qed.
Lemma run_xtf_block : forall b cs p, run_xtf O local_off (XBlock b) cs p =
  '(b', cs', p', pass) <~ run_xtfs O local_off b cs p ;; Ok (XBlock b', cs', p', pass).
Proof. reflexivity. Qed.
Lemma run_xtfs_cons : forall t ts cs p, run_xtfs O local_off (XCons t ts) cs p =
  '(t', cs', p', pass) <~ run_xtf O local_off t cs p ;;
  if pass then '(ts'', cs'', p'', pass') <~ run_xtfs O local_off ts cs' p' ;; Ok (XCons t' ts'', cs'', p'', pass')
  else Ok (XCons t' ts, cs', p', false).
Proof. reflexivity. Qed.
Lemma run_xcases_cons : forall m th ks cs p, run_xcases O local_off (XKCons m th ks) cs p =
  if T.matches O m (T.r_fields (fst p)) then
    '(th', cs', p', pass) <~ run_xtfs O local_off th cs p ;; Ok (XKCons m th' ks, cs', p', pass)
  else '(ks'', cs', p', pass) <~ run_xcases O local_off ks cs p ;; Ok (XKCons m th ks'', cs', p', pass).
Proof. reflexivity. Qed.

Definition kept {X} (wf : X -> Prop) (res : X * T.counters * prec * bool) : Prop :=
  let '(x, _, p, _) := res in wf x /\ pnf p = nfl.

Lemma run_x_ok :
  (forall t, wf_xtf t -> forall cs p, pnf p = nfl -> returns (run_xtf O local_off t cs p) (kept wf_xtf)) /\
  (forall ts, wf_xtfs ts -> forall cs p, pnf p = nfl -> returns (run_xtfs O local_off ts cs p) (kept wf_xtfs)) /\
  (forall ks, wf_xcases ks -> forall cs p, pnf p = nfl -> returns (run_xcases O local_off ks cs p) (kept wf_xcases)).
Proof.
  apply xtf_mutind.
  - (* a C15 transform: C15's no-panic theorem and the length lemma above *)
    intros b Hw cs [r ts] Hn. cbn [run_xtf fst snd].
    destruct (proj1 (TP.no_panic_lemma O) b Hw cs r) as (b' & cs' & r' & pass & E & Hw').
    pose proof (proj1 (run_tf_nf_all O) b cs r) as Hk. rewrite E in *.
    apply returns_ok. split; [exact Hw'|exact (eq_trans Hk Hn)].
  - intros m th IH Hw cs p Hn. rewrite run_xtf_if.
    destruct (T.matches O m (T.r_fields (fst p))); [|apply returns_ok; split; assumption].
    eapply returns_bind; [exact (IH Hw cs p Hn)|intros [[[th' cs'] p'] b] Hk]. apply returns_ok. exact Hk.
  - intros ks IH Hw cs p Hn. rewrite run_xtf_switch.
    eapply returns_bind; [exact (IH Hw cs p Hn)|intros [[[ks' cs'] p'] b] Hk]. apply returns_ok. exact Hk.
  - intros bl IH Hw cs p Hn. rewrite run_xtf_block.
    eapply returns_bind; [exact (IH Hw cs p Hn)|intros [[[b' cs'] p'] b] Hk]. apply returns_ok. exact Hk.
  - intros loc label Hw cs p Hn. cbn [run_xtf].
    eapply returns_bind; [exact (parse_time_ok loc label cs p Hw Hn)|intros [cs' p'] Hn'].
    apply returns_ok. split; assumption.
  - intros loc label Hw cs p Hn. cbn [run_xtf].
    eapply returns_bind; [exact (redact_ok loc label cs p Hw Hn)|intros [cs' p'] Hn'].
    apply returns_ok. split; assumption.
  - intros _ cs p Hn. apply returns_ok. split; [exact I|exact Hn].
  - intros t IHt ts IHts [Ht Hts] cs p Hn. rewrite run_xtfs_cons.
    eapply returns_bind; [exact (IHt Ht cs p Hn)|intros [[[t' cs'] p'] [|]] [Ht' Hn']].
    + eapply returns_bind; [exact (IHts Hts cs' p' Hn')|intros [[[ts' cs''] p''] b] [Hts' Hn'']].
      apply returns_ok. repeat split; assumption.
    + apply returns_ok. repeat split; assumption.
  - intros _ cs p Hn. apply returns_ok. split; [exact I|exact Hn].
  - intros m th IHth ks IHks [Hth Hks] cs p Hn. rewrite run_xcases_cons.
    destruct (T.matches O m (T.r_fields (fst p))).
    + eapply returns_bind; [exact (IHth Hth cs p Hn)|intros [[[th' cs'] p'] b] [Hth' Hn']].
      apply returns_ok. repeat split; assumption.
    + eapply returns_bind; [exact (IHks Hks cs p Hn)|intros [[[ks' cs'] p'] b] [Hks' Hn']].
      apply returns_ok. repeat split; assumption.
Qed.

Lemma run_xtfs_ok : forall ts, wf_xtfs ts -> forall cs p, pnf p = nfl ->
  returns (run_xtfs O local_off ts cs p) (kept wf_xtfs).
Proof. exact (proj1 (proj2 run_x_ok)). Qed.

End XRun.

(* the label rule: sanitised values are always accepted by the registry *)

Lemma label_ok_sanitised : forall v, label_ok (Utf8.to_valid_utf8 v) = true.
Proof. intros v. apply (proj2 (C09.C09_utf8_valid_iff _)). apply C09.C09_to_valid_utf8_valid. Qed.

Lemma labels_ok_fixed : forall vs, forallb label_ok (metric_label_values true vs) = true.
Proof.
  intros vs. unfold metric_label_values. apply forallb_forall. intros x Hx. apply in_map_iff in Hx.
  destruct Hx as (v & <- & _). apply label_ok_sanitised.
Qed.

Section Total.
Variable O : T.oracles.

(* an output the loader accepts: fluentdforward VerifyConfig; datadog needs nothing for the serializer *)
Definition out_ok (cfg : config) (o : out_cfg) : Prop :=
  match oc_kind o with
  | OFluentd sc => S.verify_config (c_schema cfg) sc = true
  | ODatadog _ => True
  end.

(* The loader-level side conditions (what run.ParseConfigFile / VerifyConfig establish, see C16):
   level mapping of 8 names; every locator (parser fields, orchestration keys, metric keys, keys of parseTime /
   redactEmail) inside the field array; the schema fits the field array; the tag template only names
   orchestration keys; both transform programs well-formed in C15's sense; every output's serialization section
   accepted by fluentdforward VerifyConfig; and the two repairs in place. *)
Record config_ok (cfg : config) : Prop := {
  ok_parser : ParserProofs.cfg_ok (c_parser cfg);
  ok_locs : locs_ok (c_nfields cfg) (c_locs cfg);
  ok_schema : (length (c_schema cfg) <= c_nfields cfg)%nat;
  ok_extract : wf_xtfs O (c_nfields cfg) (c_extract cfg);
  ok_transforms : wf_xtfs O (c_nfields cfg) (c_transforms cfg);
  ok_okeys : Forall (fun l => (l < c_nfields cfg)%nat) (c_okeys cfg);
  ok_mkeys : Forall (fun l => (l < c_nfields cfg)%nat) (c_mkeys cfg);
  ok_tag : Forall (TagTemplateProofs.part_wf (length (c_okeys cfg))) (c_tag cfg);
  ok_outputs : Forall (out_ok cfg) (c_outputs cfg);
  ok_fix_labels : c_fix_labels cfg = true;
  ok_fix_ser : c_fix_ser cfg = true
}.

Definition ser_ok (cfg : config) (o : out_cfg) (s : ser_inst) : Prop :=
  match oc_kind o, s with
  | OFluentd sc, SFluentd ser => S.new_serializer (c_schema cfg) sc (c_buflen cfg) = Ok ser
  | ODatadog _, SDatadog masks _ => length masks = length (c_schema cfg)
  | _, _ => False
  end.

Definition sers_ok (cfg : config) (sers : list ser_inst) : Prop := Forall2 (ser_ok cfg) (c_outputs cfg) sers.

Definition pinst_ok (cfg : config) (pi : pinst) : Prop :=
  wf_xtfs O (c_nfields cfg) (pi_tfs pi) /\ sers_ok cfg (pi_sers pi) /\
  length (pi_packs pi) = length (c_outputs cfg) /\ pinst_metrics_ok pi = true.

(* the shared part: C06's invariant of the orchestrator's maps + one constructed pipeline per routing entry *)
Definition ginv (cfg : config) (g : gstate) : Prop :=
  RP.map_ok (R.g_pipes (g_route g)) (R.g_map (g_route g)) /\
  RP.pipes_ok (c_tag cfg) (R.g_pipes (g_route g)) /\ RP.complete (g_route g) /\
  length (g_pipes g) = length (R.g_pipes (g_route g)) /\
  Forall (pinst_ok cfg) (g_pipes g).

(* the part of one connection *)
Definition cinv (cfg : config) (g : gstate) (c : cstate) : Prop :=
  RP.map_ok (R.g_pipes (g_route g)) (cs_local c) /\ wf_xtfs O (c_nfields cfg) (cs_extract c).

Lemma ginv_init : forall cfg, ginv cfg g_init.
Proof.
  intros cfg. unfold ginv, g_init. cbn [g_route g_pipes R.g_init R.g_pipes R.g_map].
  split; [intros mk j []|]. split; [intros [|j] q Hj; discriminate|].
  split; [intros [|j] q Hj; discriminate|]. split; [reflexivity|constructor].
Qed.

(* a NEW connection can be opened on any reachable agent state *)
Lemma cinv_new_conn : forall cfg g, config_ok cfg -> cinv cfg g (new_conn cfg).
Proof. intros cfg g H. split; [apply RP.map_ok_nil|exact (ok_extract cfg H)]. Qed.

Lemma new_serializers_ok : forall cfg tag outs, Forall (out_ok cfg) outs ->
  returns (new_serializers cfg tag outs) (Forall2 (ser_ok cfg) outs).
Proof.
  intros cfg tag outs H. induction H as [|o outs Ho _ (sers & E & F)]; [apply returns_ok; constructor|].
  cbn [new_serializers]. unfold out_ok in Ho. destruct (oc_kind o) as [sc|hidden] eqn:Ek.
  - destruct (SerializerProofs.new_serializer_ok (c_schema cfg) sc (c_buflen cfg) Ho) as [s Es]. rewrite Es, E.
    apply returns_ok. constructor; [|exact F]. unfold ser_ok. rewrite Ek. exact Es.
  - rewrite E. apply returns_ok. constructor; [|exact F]. unfold ser_ok. rewrite Ek. apply map_length.
Qed.

Lemma new_pinst_ok : forall cfg p, config_ok cfg -> returns (new_pinst cfg p) (pinst_ok cfg).
Proof.
  intros cfg p H. unfold new_pinst.
  eapply returns_bind; [exact (new_serializers_ok cfg (R.p_tag p) _ (ok_outputs cfg H))|intros sers F].
  apply returns_ok. unfold pinst_ok. cbn.
  split; [exact (ok_transforms cfg H)|]. split; [exact F|]. split; [apply map_length|].
  unfold pinst_metrics_ok. cbn. rewrite (ok_fix_labels cfg H). rewrite labels_ok_fixed. reflexivity.
Qed.

Lemma new_pinsts_ok : forall cfg ps, config_ok cfg ->
  returns (new_pinsts cfg ps) (fun pis => Forall (pinst_ok cfg) pis /\ length pis = length ps).
Proof.
  intros cfg ps H. induction ps as [|p ps IH]; [apply returns_ok; split; constructor|]. cbn [new_pinsts].
  eapply returns_bind; [exact (new_pinst_ok cfg p H)|intros pi Hpi].
  eapply returns_bind; [exact IH|intros pis [F L]].
  apply returns_ok. split; [constructor; assumption|cbn [length]; rewrite L; reflexivity].
Qed.

Lemma get_or_create_ok : forall cfg g c okeys,
  config_ok cfg -> ginv cfg g -> cinv cfg g c -> length okeys = length (c_okeys cfg) ->
  returns (get_or_create cfg g c okeys)
          (fun '(g1, c1, idx) => ginv cfg g1 /\ cinv cfg g1 c1 /\ (idx < length (g_pipes g1))%nat).
Proof.
  intros cfg g c okeys H (Gm & Gp & Gc & Gl & Gf) (Cm & Cx) Hk. unfold get_or_create.
  destruct (TagTemplateProofs.local_goc_total _ _ (g_route g) (cs_local c) okeys (ok_tag cfg H) Hk) as [[[rg lm] i] E].
  rewrite E.
  destruct (RP.local_goc_spec _ _ _ _ _ _ _ Gm Cm Gp Gc E) as ([ext Hext] & Gm' & Cm' & Gp' & Gc' & (p & Hnth & _)).
  eapply returns_bind; [exact (new_pinsts_ok cfg _ H)|intros news [Fn Ln]].
  assert (Hlen : length (g_pipes g ++ news) = length (R.g_pipes rg)).
  { rewrite app_length, Ln, skipn_length, Hext, app_length. lia. }
  apply returns_ok. split; [|split].
  - unfold ginv. cbn [g_route g_pipes]. split; [exact Gm'|]. split; [exact Gp'|]. split; [exact Gc'|].
    split; [exact Hlen|apply Forall_app; split; assumption].
  - split; assumption.
  - cbn [g_pipes]. rewrite Hlen. apply nth_error_Some. congruence.
Qed.

Lemma select_metric_ok : forall cfg pi mkeys, config_ok cfg -> pinst_ok cfg pi ->
  returns (select_metric_key_set cfg pi mkeys) (pinst_ok cfg).
Proof.
  intros cfg pi mkeys H (Hw & Hs & Hp & Hm). unfold select_metric_key_set.
  destruct (R.metric_select (pi_msets pi) mkeys) as [m' i].
  destruct (i <? length (R.m_sets (pi_msets pi)))%nat; [apply returns_ok; repeat split; assumption|].
  rewrite (ok_fix_labels cfg H). unfold with_label_values. rewrite labels_ok_fixed.
  destruct (xtfs_registers (c_transforms cfg)); apply returns_ok.
  all: unfold pinst_ok; cbn [pi_tfs pi_sers pi_packs]; split; [exact Hw|]; split; [exact Hs|]; split; [exact Hp|].
  all: unfold pinst_metrics_ok in *; cbn [pi_labels pi_mlabels]; apply andb_true_iff in Hm; destruct Hm as [Hm1 Hm2].
  all: rewrite Hm1, forallb_app, Hm2; cbn [forallb andb]; rewrite labels_ok_fixed; reflexivity.
Qed.

(* what the stream of an output must be: for fluentd the complete event of C10's specification *)
Definition stream_ok (cfg : config) (rec : S.record) (o : out_cfg) (stream : bytes) : Prop :=
  match oc_kind o with
  | OFluentd sc => stream = SS.encode_spec (c_schema cfg) sc rec
  | ODatadog _ => True
  end.

Lemma dd_fields_ok : forall names masks fields i,
  length masks = length names -> (i + length names <= length fields)%nat ->
  returns (dd_fields i names masks fields) (fun _ => True).
Proof.
  induction names as [|n names IH]; intros masks fields i Hm Hl; [apply returns_ok; exact I|].
  destruct masks as [|m masks]; [discriminate|]. cbn [dd_fields]. cbn [length] in *.
  specialize (IH masks fields (S i) ltac:(lia) ltac:(lia)). destruct m; [exact IH|].
  eapply returns_bind; [apply get_checked_ok; lia|intros v _].
  eapply returns_bind; [exact IH|intros r _]. apply returns_ok. exact I.
Qed.

Lemma serialize_with_ok : forall cfg (rec : S.record) o s,
  c_fix_ser cfg = true -> (length (c_schema cfg) <= length (S.r_fields rec))%nat ->
  out_ok cfg o -> ser_ok cfg o s ->
  returns (serialize_with cfg s rec) (stream_ok cfg rec o).
Proof.
  intros cfg rec o s Hfix Hl Vo So. unfold ser_ok in So. unfold out_ok in Vo. unfold stream_ok.
  destruct (oc_kind o) as [sc|hidden]; destruct s as [ser|masks tags]; try contradiction; cbn [serialize_with].
  - rewrite Hfix.
    rewrite (PipelineSerializerProofs.serialize_fixed_total (c_schema cfg) sc rec (c_buflen cfg) ser
               (SerializerProofs.verified_chain _ _ Vo) Hl So).
    apply returns_ok. reflexivity.
  - unfold dd_serialize.
    eapply returns_bind; [exact (dd_fields_ok (c_schema cfg) masks (S.r_fields rec) 0 So Hl)|intros m _].
    apply returns_ok. exact I.
Qed.

Lemma run_outputs_ok : forall cfg tag clk (rec : S.record) outs sers packs,
  c_fix_ser cfg = true ->
  (length (c_schema cfg) <= length (S.r_fields rec))%nat ->
  Forall (out_ok cfg) outs ->
  Forall2 (ser_ok cfg) outs sers ->
  length packs = length outs ->
  returns (run_outputs cfg tag clk outs sers packs rec)
          (fun '(packs', streams, _) => Forall2 (stream_ok cfg rec) outs streams /\ length packs' = length outs).
Proof.
  intros cfg tag clk rec outs sers packs Hfix Hl Hv Hs. revert packs.
  induction Hs as [|o s outs sers So _ IH]; intros packs Hp; [apply returns_ok; split; [constructor|reflexivity]|].
  inversion Hv as [|? ? Vo Vr]; subst. destruct packs as [|p packs]; [discriminate|]. cbn [run_outputs].
  eapply returns_bind; [exact (serialize_with_ok cfg rec o s Hfix Hl Vo So)|intros stream Hso].
  destruct (K.write_stream bytes stream_len (with_tag (oc_pack o) tag) clk p stream) as [p' ch].
  eapply returns_bind; [exact (IH Vr packs ltac:(cbn in Hp; lia))|intros [[packs' streams] chunks] [F L]].
  apply returns_ok. split; [constructor; assumption|cbn [length]; rewrite L; reflexivity].
Qed.

Lemma set_pinst_length : forall l i x, length (set_pinst l i x) = length l.
Proof. induction l as [|y l IH]; intros [|i] x; cbn; try reflexivity. rewrite IH. reflexivity. Qed.

Lemma set_pinst_Forall : forall (P : pinst -> Prop) l i x, Forall P l -> P x -> Forall P (set_pinst l i x).
Proof.
  induction l as [|y l IH]; intros [|i] x Hl Hx; cbn; try assumption; inversion Hl; subst; constructor; auto.
Qed.

(* what a passed record looks like: one stream per output, for a fluentd output the complete event *)
Definition streams_complete (cfg : config) (rec : S.record) (streams : list bytes) : Prop :=
  Forall2 (stream_ok cfg rec) (c_outputs cfg) streams.

Definition result_shape (cfg : config) (res : rec_result) : Prop :=
  match res with
  | RPassed _ streams _ => exists rec, streams_complete cfg rec streams
  | _ => True
  end.

Lemma worker_step_ok : forall cfg pi idx clk (p : prec),
  config_ok cfg -> pinst_ok cfg pi -> length (T.r_fields (fst p)) = c_nfields cfg ->
  returns (worker_step O cfg pi idx clk p) (fun '(pi', res) => pinst_ok cfg pi' /\ result_shape cfg res).
Proof.
  intros cfg pi idx clk p H Hpi Hn. unfold worker_step.
  eapply returns_bind; [apply extract_keys_ok; rewrite Hn; exact (ok_mkeys cfg H)|intros mkeys _].
  eapply returns_bind; [exact (select_metric_ok cfg pi mkeys H Hpi)|intros pi1 (Hw1 & Hs1 & Hp1 & Hm1)].
  eapply returns_bind; [exact (run_xtfs_ok O (c_local_off cfg) _ _ Hw1 (pi_custom pi1) p Hn)|].
  intros [[[tfs' cnt'] p2] [|]] [Hw2 Hn2].
  - eapply returns_bind.
    + apply (run_outputs_ok cfg (pi_tag pi1) clk (to_srecord p2) _ _ _ (ok_fix_ser cfg H)); [|exact (ok_outputs cfg H)|exact Hs1|exact Hp1].
      cbn [to_srecord S.r_fields]. rewrite Hn2. exact (ok_schema cfg H).
    + intros [[packs' streams] chunks] [Fo Lo]. apply returns_ok.
      split; [unfold pinst_ok; cbn; repeat split; assumption|exists (to_srecord p2); exact Fo].
  - apply returns_ok. split; [unfold pinst_ok; cbn; repeat split; assumption|exact I].
Qed.

(* everything behind the parser only carries the input counters along ... *)

Lemma with_input_same : forall c, with_input c (cs_input c) = c.
Proof. intros []. reflexivity. Qed.

Lemma get_or_create_input : forall cfg g c okeys cnt,
  get_or_create cfg g (with_input c cnt) okeys =
  '(g', c', i) <~ get_or_create cfg g c okeys ;; Ok (g', with_input c' cnt, i).
Proof.
  intros cfg g c okeys cnt. unfold get_or_create. cbn [with_input cs_local cs_input cs_extract cs_ecnt].
  destruct (R.local_get_or_create (c_tag cfg) (g_route g) (cs_local c) okeys) as [[[rg lm] i]| |]; try reflexivity.
  destruct (new_pinsts cfg (skipn (length (g_pipes g)) (R.g_pipes rg))); reflexivity.
Qed.

(* what the worker answers is never one of the input-side verdicts *)
Lemma worker_step_res : forall cfg pi idx clk p pi' res,
  worker_step O cfg pi idx clk p = Ok (pi', res) -> res <> RDropExtract /\ res <> RDropParse.
Proof.
  intros cfg pi idx clk p pi' res E. unfold worker_step in E.
  apply pbind_inv in E as (mk & _ & E). apply pbind_inv in E as (pi1 & _ & E).
  apply pbind_inv in E as ([[[t2 cn2] p2] [|]] & _ & E); [apply pbind_inv in E as ([[pk st] ch] & _ & E)|];
    inversion E; split; discriminate.
Qed.

(* ... except that a DROP in the extractions re-counts the record *)
Lemma process_parsed_input : forall cfg g c now clk r cnt,
  process_parsed O cfg g (with_input c cnt) now clk r =
  '(g', c', res) <~ process_parsed O cfg g c now clk r ;;
  Ok (g', with_input c' (match res with RDropExtract => pass_to_drop cnt (Ps.raw_length r) | _ => cnt end), res).
Proof.
  intros cfg g c now clk r cnt. unfold process_parsed. cbn [with_input cs_local cs_input cs_extract cs_ecnt].
  destruct (place (c_nfields cfg) (c_locs cfg) r) as [fields| |]; cbn [pbind]; try reflexivity.
  destruct (run_xtfs O (c_local_off cfg) (cs_extract c) (cs_ecnt c) _) as [[[[ex' ecnt'] p1] pass]| |];
    cbn [pbind]; try reflexivity.
  destruct pass; cbn [negb]; [|reflexivity].
  destruct (extract_keys (c_okeys cfg) (T.r_fields (fst p1))) as [okeys| |]; cbn [pbind]; try reflexivity.
  change {| cs_input := cnt; cs_extract := ex'; cs_ecnt := ecnt'; cs_local := cs_local c |}
    with (with_input {| cs_input := cs_input c; cs_extract := ex'; cs_ecnt := ecnt'; cs_local := cs_local c |} cnt).
  rewrite get_or_create_input.
  destruct (get_or_create cfg g _ okeys) as [[[g1 c2] idx]| |]; cbn [pbind]; try reflexivity.
  destruct (nth_error (g_pipes g1) idx) as [pi|]; [|reflexivity].
  destruct (worker_step O cfg pi idx clk p1) as [[pi' res]| |] eqn:Ew; cbn [pbind]; try reflexivity.
  destruct (worker_step_res _ _ _ _ _ _ _ Ew) as [Hne _]. destruct res; try reflexivity. contradiction.
Qed.

(* what process_parsed can answer, whatever the configuration: never RDropParse; a record dropped by an extraction
   has not reached the shared state; and the input counters of the answer *)
Lemma process_parsed_res : forall cfg g c now clk r g' c' res,
  process_parsed O cfg g c now clk r = Ok (g', c', res) ->
  res <> RDropParse /\ (res = RDropExtract -> g' = g) /\
  cs_input c' = match res with RDropExtract => pass_to_drop (cs_input c) (Ps.raw_length r) | _ => cs_input c end.
Proof.
  intros cfg g c now clk r g' c' res E. rewrite <- and_assoc. split.
  - unfold process_parsed in E.
    apply pbind_inv in E as (fields & _ & E). apply pbind_inv in E as ([[[ex' ecnt'] p1] [|]] & _ & E); cbn [negb] in E.
    2:{ inversion E; subst. split; [discriminate|reflexivity]. }
    apply pbind_inv in E as (okeys & _ & E). apply pbind_inv in E as ([[g1 c2] idx] & _ & E).
    destruct (nth_error (g_pipes g1) idx) as [pi|]; [|discriminate].
    apply pbind_inv in E as ([pi' res'] & Ew & E). inversion E; subst.
    destruct (worker_step_res _ _ _ _ _ _ _ Ew) as [Hx Hp]. split; [exact Hp|intros ->; destruct (Hx eq_refl)].
  - pose proof (process_parsed_input cfg g c now clk r (cs_input c)) as Hi.
    rewrite with_input_same, E in Hi. inversion Hi as [Hc]. rewrite Hc at 1. reflexivity.
Qed.

Lemma process_parsed_total : forall cfg g c now clk r,
  config_ok cfg -> ginv cfg g -> cinv cfg g c ->
  returns (process_parsed O cfg g c now clk r)
          (fun '(g', c', res) => ginv cfg g' /\ cinv cfg g' c' /\ result_shape cfg res).
Proof.
  intros cfg g c now clk r H Hg (Cm & Cx). unfold process_parsed.
  eapply returns_bind; [exact (place_ok _ _ r (ok_locs cfg H))|intros fields Lf].
  eapply returns_bind; [apply (run_xtfs_ok O (c_local_off cfg) _ _ Cx); exact Lf|].
  intros [[[ex' ecnt'] p1] [|]] [Hwx Hn1]; cbn [negb].
  2:{ apply returns_ok. split; [exact Hg|]. split; [split; assumption|exact I]. }
  eapply returns_bind; [apply extract_keys_ok; rewrite Hn1; exact (ok_okeys cfg H)|intros okeys Lo].
  eapply returns_bind; [apply (get_or_create_ok cfg g _ okeys H Hg); [split; assumption|exact Lo]|].
  intros [[g1 c2] idx] ((Gm & Gp & Gc & Gl & Gf) & (Cm2 & Cx2) & Hidx).
  destruct (nth_error (g_pipes g1) idx) as [pi|] eqn:En; [|apply nth_error_None in En; lia].
  assert (Hpi : pinst_ok cfg pi) by (eapply Forall_forall; [exact Gf|eapply nth_error_In; exact En]).
  eapply returns_bind; [exact (worker_step_ok cfg pi idx clk p1 H Hpi Hn1)|intros [pi' res] [Hpi' Hres]].
  apply returns_ok. split; [|split; [split; assumption|exact Hres]].
  unfold ginv. cbn [g_route g_pipes]. rewrite set_pinst_length.
  split; [exact Gm|]. split; [exact Gp|]. split; [exact Gc|]. split; [exact Gl|apply set_pinst_Forall; assumption].
Qed.

(* a record dropped by an extraction: re-counted from passed to dropped (CountRecordPassToDrop) *)
Definition counted_dropped_instead (c c' : Ps.counters) (len : nat) : Prop :=
  (Ps.passed_n c' = Ps.passed_n c /\ Ps.passed_bytes c' = Ps.passed_bytes c /\
   Ps.dropped_n c' = Ps.dropped_n c + 1 /\ Ps.dropped_bytes c' = Ps.dropped_bytes c + N.of_nat len)%N.

Theorem process_record_total : forall cfg g c now clk input,
  config_ok cfg -> ginv cfg g -> cinv cfg g c ->
  exists g' c' res,
    process_record O cfg g c now clk input = Ok (g', c', res) /\
    ginv cfg g' /\ cinv cfg g' c' /\ result_shape cfg res /\
    (* accounting of the input counters: a malformed record is counted dropped exactly once and changes nothing
       else; a record dropped by an extraction is counted dropped exactly once (not passed); every other record is
       counted passed exactly once *)
    match res with
    | RDropParse =>
        fst (Ps.parse (c_parser cfg) (cs_input c) input) = Ok None /\
        SyslogSpec.counted_dropped (cs_input c) (cs_input c') (length input) /\
        g' = g /\ cs_extract c' = cs_extract c /\ cs_ecnt c' = cs_ecnt c /\ cs_local c' = cs_local c
    | RDropExtract => counted_dropped_instead (cs_input c) (cs_input c') (length input) /\ g' = g
    | _ => SyslogSpec.counted_passed (cs_input c) (cs_input c') (length input)
    end.
Proof.
  intros cfg g c now clk input H Hg Hc. unfold process_record.
  destruct (C09.C09_accounting (c_parser cfg) (cs_input c) input (ok_parser cfg H)) as (pres & cnt' & Ep & Hacc).
  rewrite Ep. destruct pres as [r|].
  2:{ (* malformed *)
    do 3 eexists. split; [reflexivity|]. split; [exact Hg|]. split; [exact Hc|]. split; [exact I|].
    cbn [fst with_input cs_input cs_extract cs_ecnt cs_local]. repeat split; try reflexivity; apply Hacc. }
  destruct Hacc as (Hpass & Hraw & _).
  destruct (process_parsed_total cfg g (with_input c cnt') now clk r H Hg Hc) as ([[g' c'] res] & E & Hg' & Hc' & Hs).
  exists g', c', res. split; [exact E|]. split; [exact Hg'|]. split; [exact Hc'|]. split; [exact Hs|].
  destruct (process_parsed_res _ _ _ _ _ _ _ _ _ E) as (Hne & Hsame & ->). cbn [with_input cs_input].
  destruct res; try exact Hpass; [contradiction|].
  (* dropped by an extraction *)
  split; [|exact (Hsame eq_refl)].
  destruct Hpass as (p1 & p2 & p3 & p4). unfold counted_dropped_instead, pass_to_drop. rewrite Hraw.
  cbn [Ps.passed_n Ps.passed_bytes Ps.dropped_n Ps.dropped_bytes]. repeat split; lia.
Qed.

Theorem process_records_total : forall cfg inputs g c now clk,
  config_ok cfg -> ginv cfg g -> cinv cfg g c ->
  exists g' c' rs,
    process_records O cfg g c now clk inputs = Ok (g', c', rs) /\
    ginv cfg g' /\ cinv cfg g' c' /\ length rs = length inputs /\ Forall (result_shape cfg) rs.
Proof.
  intros cfg inputs. induction inputs as [|x inputs IH]; intros g c now clk H Hg Hc.
  - exists g, c, []. split; [reflexivity|]. split; [exact Hg|]. split; [exact Hc|]. split; [reflexivity|constructor].
  - cbn [process_records].
    destruct (process_record_total cfg g c now clk x H Hg Hc) as (g1 & c1 & res & E & Hg1 & Hc1 & Hs & _).
    rewrite E. cbn [pbind].
    destruct (IH g1 c1 now clk H Hg1 Hc1) as (g2 & c2 & rs & E2 & Hg2 & Hc2 & L & F).
    rewrite E2. cbn [pbind]. exists g2, c2, (res :: rs). split; [reflexivity|].
    split; [exact Hg2|]. split; [exact Hc2|]. split; [cbn; lia|constructor; assumption].
Qed.

End Total.

(* malformed records in a sequence of records (no framing here): each is counted dropped, and nothing else depends
   on it *)

(* the parser's verdict on a record does not depend on the counters (C09_history_independent) *)
Definition malformed (cfg : config) (x : bytes) : bool :=
  match fst (Ps.parse (c_parser cfg) Ps.counters_zero x) with
  | Ok None => true
  | _ => false
  end.

Definition good (cfg : config) (x : bytes) : bool := negb (malformed cfg x).

Definition is_drop_parse (r : rec_result) : bool := match r with RDropParse => true | _ => false end.

(* the counters of the run with the malformed records (A) and of the run without them (B): equal but for k dropped
   records of kb bytes *)
Definition cnt_rel (k kb : N) (A B : Ps.counters) : Prop :=
  (Ps.passed_n A = Ps.passed_n B /\ Ps.passed_bytes A = Ps.passed_bytes B /\
   Ps.overflow_n A = Ps.overflow_n B /\ Ps.overflow_bytes A = Ps.overflow_bytes B /\
   Ps.dropped_n A = Ps.dropped_n B + k /\ Ps.dropped_bytes A = Ps.dropped_bytes B + kb)%N.

Lemma cnt_rel_add : forall k kb A B d,
  cnt_rel k kb A B -> cnt_rel k kb (ParserProofs.counters_add A d) (ParserProofs.counters_add B d).
Proof. intros k kb A B d (h1 & h2 & h3 & h4 & h5 & h6). unfold cnt_rel. cbn. repeat split; lia. Qed.

Lemma cnt_rel_pass_to_drop : forall k kb A B n,
  cnt_rel k kb A B -> cnt_rel k kb (pass_to_drop A n) (pass_to_drop B n).
Proof. intros k kb A B n (h1 & h2 & h3 & h4 & h5 & h6). unfold cnt_rel. cbn. repeat split; lia. Qed.

Section Malformed.
Variable O : T.oracles.

(* a record the parser accepts, on two connection states that differ in the input counters only: everything behind
   the parser carries the counters along, so it is the same step, and related counters stay related *)
Lemma process_record_rel : forall cfg g c now clk x ga ca res cnt k kb, ParserProofs.cfg_ok (c_parser cfg) ->
  malformed cfg x = false ->
  process_record O cfg g c now clk x = Ok (ga, ca, res) -> cnt_rel k kb (cs_input c) cnt ->
  is_drop_parse res = false /\
  exists cnt', process_record O cfg g (with_input c cnt) now clk x = Ok (ga, with_input ca cnt', res) /\
               cnt_rel k kb (cs_input ca) cnt'.
Proof.
  intros cfg g c now clk x ga ca res cnt k kb H Hm E Hrel. unfold process_record in *. cbn [with_input cs_input].
  rewrite (C09.C09_history_independent _ cnt x H). rewrite (C09.C09_history_independent _ (cs_input c) x H) in E.
  unfold malformed in Hm. destruct (fst (Ps.parse (c_parser cfg) Ps.counters_zero x)) as [[r|]| |]; try discriminate.
  set (d := snd (Ps.parse (c_parser cfg) Ps.counters_zero x)) in *.
  change (with_input (with_input c cnt) (ParserProofs.counters_add cnt d))
    with (with_input (with_input c (ParserProofs.counters_add (cs_input c) d)) (ParserProofs.counters_add cnt d)).
  rewrite process_parsed_input, E. cbn [pbind].
  destruct (process_parsed_res O _ _ _ _ _ _ _ _ _ E) as (Hne & _ & ->). cbn [with_input cs_input].
  apply (cnt_rel_add _ _ _ _ d) in Hrel.
  split; [destruct res; try reflexivity; contradiction|]. eexists. split; [reflexivity|].
  destruct res; try exact Hrel. apply cnt_rel_pass_to_drop, Hrel.
Qed.

(* a record the parser rejects changes the input counters of its connection, by one dropped record, and nothing else *)
Lemma process_record_skip : forall cfg g c now clk x ga ca res cnt k kb, ParserProofs.cfg_ok (c_parser cfg) ->
  malformed cfg x = true ->
  process_record O cfg g c now clk x = Ok (ga, ca, res) -> cnt_rel k kb (cs_input c) cnt ->
  ga = g /\ res = RDropParse /\ with_input ca cnt = with_input c cnt /\
  cnt_rel (k + 1) (kb + N.of_nat (length x)) (cs_input ca) cnt.
Proof.
  intros cfg g c now clk x ga ca res cnt k kb H Hm E (h1 & h2 & h3 & h4 & h5 & h6).
  unfold process_record in E. unfold malformed in Hm.
  destruct (C09.C09_accounting (c_parser cfg) (cs_input c) x H) as (pres & cnt1 & Ep & Hacc).
  pose proof (f_equal fst (C09.C09_history_independent _ (cs_input c) x H)) as Hf.
  rewrite Ep in E, Hf. cbn [fst] in Hf. rewrite <- Hf in Hm. destruct pres as [r|]; [discriminate|].
  injection E as <- <- <-. repeat split.
  all: unfold SyslogSpec.counted_dropped, SyslogSpec.same_overflow in Hacc; cbn [with_input cs_input]; lia.
Qed.

(* the fold: dropping the malformed records from the sequence changes nothing but the input counters, and those
   exactly by the malformed records *)
Lemma process_records_filter : forall cfg inputs g c now clk g1 c1 rs cnt k kb,
  ParserProofs.cfg_ok (c_parser cfg) ->
  process_records O cfg g c now clk inputs = Ok (g1, c1, rs) ->
  cnt_rel k kb (cs_input c) cnt ->
  exists cnt',
    process_records O cfg g (with_input c cnt) now clk (filter (good cfg) inputs)
    = Ok (g1, with_input c1 cnt', filter (fun r => negb (is_drop_parse r)) rs) /\
    map is_drop_parse rs = map (malformed cfg) inputs /\
    cnt_rel (k + N.of_nat (length (filter (malformed cfg) inputs)))
            (kb + SyslogSpec.sum_lengths (filter (malformed cfg) inputs)) (cs_input c1) cnt'.
Proof.
  intros cfg inputs. induction inputs as [|x inputs IH]; intros g c now clk g1 c1 rs cnt k kb H E Hrel.
  - cbn in E. inversion E; subst. exists cnt. split; [reflexivity|]. split; [reflexivity|].
    cbn. rewrite !N.add_0_r. exact Hrel.
  - cbn [process_records] in E.
    apply pbind_inv in E as ([[ga ca] res] & E1 & E). apply pbind_inv in E as ([[gb cb] rs'] & E2 & E).
    injection E as <- <- <-. cbn [filter map]. change (good cfg x) with (negb (malformed cfg x)).
    destruct (malformed cfg x) eqn:Hm; cbn [negb].
    + (* malformed: skipped in the filtered run *)
      destruct (process_record_skip cfg g c now clk x ga ca res cnt k kb H Hm E1 Hrel) as (-> & -> & Ec & Hrel1).
      cbn [is_drop_parse negb].
      destruct (IH g ca now clk gb cb rs' cnt _ _ H E2 Hrel1) as (cnt' & Ef & Em & Hr). rewrite Ec in Ef.
      exists cnt'. split; [exact Ef|]. split; [f_equal; exact Em|].
      cbn [length SyslogSpec.sum_lengths fold_right]. fold (SyslogSpec.sum_lengths (filter (malformed cfg) inputs)).
      destruct Hr as (r1 & r2 & r3 & r4 & r5 & r6). unfold cnt_rel. repeat split; try assumption; lia.
    + (* well-formed: the same step in both runs *)
      destruct (process_record_rel cfg g c now clk x ga ca res cnt k kb H Hm E1 Hrel) as (Hnd & cnt1 & E1' & Hrel1).
      rewrite Hnd. cbn [negb process_records]. rewrite E1'. cbn [pbind].
      destruct (IH ga ca now clk gb cb rs' cnt1 k kb H E2 Hrel1) as (cnt' & Ef & Em & Hr).
      rewrite Ef. cbn [pbind]. exists cnt'. split; [reflexivity|]. split; [f_equal; exact Em|exact Hr].
Qed.

End Malformed.

(* one TCP connection: every stream, every fragmentation, every timing *)

Section Stream.
Variable O : T.oracles.

(* the framing layer alone (C08_never_full): never a panic, never a busy loop, and room for a record of maximal
   length is left after every operation *)
Lemma conn_reader_never_full : forall cfg evs, (1 <= record_limit cfg)%nat ->
  exists st' records,
    F.run_ops F.trs (F.conn_ops evs) (F.new_mlr (c_linebuf cfg) (record_limit cfg)) [] = Ok (st', records) /\
    (length (F.m_buf st') <= F.m_cap st')%nat /\
    (F.m_limit st' <= F.m_cap st' - length (F.m_buf st') \/ F.m_buf st' = [])%nat.
Proof.
  intros cfg evs Hl.
  destruct (C08.C08_never_full F.trs (c_linebuf cfg) (record_limit cfg) (F.conn_ops evs) Hl) as (st' & out & E & H1 & H2 & _).
  exists st', out. split; [exact E|]. split; [exact H1|exact H2].
Qed.

Lemma conn_records_total : forall cfg evs, (1 <= record_limit cfg)%nat ->
  exists records, conn_records cfg evs = Ok records.
Proof.
  intros cfg evs Hl. unfold conn_records.
  destruct (conn_reader_never_full cfg evs Hl) as (st' & records & -> & _). exists records. reflexivity.
Qed.

Theorem conn_run_total : forall cfg g now clk evs,
  config_ok O cfg -> ginv O cfg g -> (1 <= record_limit cfg)%nat ->
  exists g' c' rs, conn_run O cfg g now clk evs = Ok (g', c', rs) /\ ginv O cfg g' /\ cinv O cfg g' c' /\
                   Forall (result_shape cfg) rs.
Proof.
  intros cfg g now clk evs H Hg Hl. unfold conn_run.
  destruct (conn_records_total cfg evs Hl) as [records ->]. cbn [pbind].
  destruct (process_records_total O cfg records g (new_conn cfg) now clk H Hg (cinv_new_conn O cfg g H))
    as (g' & c' & rs & E' & Hg' & Hc' & _ & F').
  exists g', c', rs. split; [exact E'|]. split; [exact Hg'|]. split; [exact Hc'|exact F'].
Qed.

(* a text of complete single-line records reaches the parser line by line (C08_connection_single_line), in any
   fragmentation and timing *)
Lemma conn_records_lines : forall cfg b (ls : list bytes) evs,
  (1 <= record_limit cfg)%nat ->
  (2 * b + 1 + record_limit cfg <= Nat.max (c_linebuf cfg) (record_limit cfg * 3))%nat ->
  Forall (FramingSpec.valid_line F.trs b) ls -> FramingSpec.ops_text (F.conn_ops evs) = FramingSpec.unlines ls ->
  conn_records cfg evs = Ok ls.
Proof.
  intros cfg b ls evs Hl Hcap Hv Ht. unfold conn_records.
  destruct (C08.C08_connection_single_line F.trs (c_linebuf cfg) (record_limit cfg) b ls evs
              (proj1 C08.C08_test_record_start_prefix) Hl Hcap Hv Ht) as [st ->].
  reflexivity.
Qed.

(* [ls]: the lines of the stream, every one a complete single-line record START (shape "<ddd>1 ", at least 32
   bytes, at most b bytes - C08's side conditions), some of them malformed (rejected by the parser: PRI out of
   range, missing header fields, ...).  [evs1] delivers all of them, [evs2] only the well-formed ones - in ANY
   fragmentation and with ANY read timing each.  Then the agent ends in the same shared state, the results for
   the well-formed records are the same (pipeline, serialized bytes for every output, chunks), every malformed
   record - and nothing else - is answered RDropParse, and the input counters differ exactly by one dropped
   record, with its length, per malformed record. *)
Theorem neighbours_unchanged_lemma : forall cfg g now clk b (ls : list bytes) evs1 evs2,
  config_ok O cfg -> ginv O cfg g ->
  (1 <= record_limit cfg)%nat ->
  (2 * b + 1 + record_limit cfg <= Nat.max (c_linebuf cfg) (record_limit cfg * 3))%nat ->
  Forall (FramingSpec.valid_line F.trs b) ls ->
  FramingSpec.ops_text (F.conn_ops evs1) = FramingSpec.unlines ls ->
  FramingSpec.ops_text (F.conn_ops evs2) = FramingSpec.unlines (filter (good cfg) ls) ->
  exists g' c1 c2 rs1,
    conn_run O cfg g now clk evs1 = Ok (g', c1, rs1) /\
    conn_run O cfg g now clk evs2 = Ok (g', c2, filter (fun r => negb (is_drop_parse r)) rs1) /\
    map is_drop_parse rs1 = map (malformed cfg) ls /\
    cs_extract c2 = cs_extract c1 /\ cs_ecnt c2 = cs_ecnt c1 /\ cs_local c2 = cs_local c1 /\
    cnt_rel (N.of_nat (length (filter (malformed cfg) ls))) (SyslogSpec.sum_lengths (filter (malformed cfg) ls))
            (cs_input c1) (cs_input c2).
Proof.
  intros cfg g now clk b ls evs1 evs2 H Hg Hl Hcap Hv T1 T2.
  unfold conn_run. rewrite (conn_records_lines cfg b ls evs1 Hl Hcap Hv T1).
  rewrite (conn_records_lines cfg b _ evs2 Hl Hcap (incl_Forall (incl_filter _ _) Hv) T2). cbn [pbind].
  destruct (process_records_total O cfg ls g (new_conn cfg) now clk H Hg (cinv_new_conn O cfg g H))
    as (g' & c1 & rs1 & E1 & _).
  destruct (process_records_filter O cfg ls g (new_conn cfg) now clk g' c1 rs1 Ps.counters_zero 0%N 0%N (ok_parser O cfg H) E1)
    as (cnt' & E2 & Em & Hr).
  { repeat split; reflexivity. }
  change (with_input (new_conn cfg) Ps.counters_zero) with (new_conn cfg) in E2.
  exists g', c1, (with_input c1 cnt'), rs1.
  split; [exact E1|]. split; [exact E2|]. split; [exact Em|].
  split; [reflexivity|]. split; [reflexivity|]. split; [reflexivity|].
  rewrite !N.add_0_l in Hr. exact Hr.
Qed.

End Stream.

Section Corollaries.
Variable O : T.oracles.

(* any number of connections, one after the other, on one long-lived agent *)
Theorem agent_run_total : forall cfg conns g now clk,
  config_ok O cfg -> ginv O cfg g -> (1 <= record_limit cfg)%nat ->
  exists g' rss, agent_run O cfg g now clk conns = Ok (g', rss) /\ ginv O cfg g' /\ length rss = length conns.
Proof.
  intros cfg conns. induction conns as [|evs conns IH]; intros g now clk H Hg Hl.
  - exists g, []. split; [reflexivity|]. split; [exact Hg|reflexivity].
  - cbn [agent_run]. destruct (conn_run_total O cfg g now clk evs H Hg Hl) as (g1 & c1 & rs & E & Hg1 & _).
    rewrite E. cbn [pbind]. destruct (IH g1 now clk H Hg1 Hl) as (g2 & rss & E2 & Hg2 & L).
    rewrite E2. cbn [pbind]. exists g2, (rs :: rss). split; [reflexivity|]. split; [exact Hg2|cbn; lia].
Qed.

(* every label value the agent has handed to the metric registry is valid: Gather keeps working *)
Lemma ginv_metrics_ok : forall cfg g, ginv O cfg g -> metrics_ok g = true.
Proof.
  intros cfg g (_ & _ & _ & _ & Hf). unfold metrics_ok. apply forallb_forall. intros pi Hin.
  destruct (proj1 (Forall_forall _ _) Hf pi Hin) as (_ & _ & _ & Hm). exact Hm.
Qed.

End Corollaries.

(* every stream of a passed record is one self-contained MessagePack value that the independent decoder of C10
   reads back as exactly the record's event, with nothing left over: appended to a chunk it cannot disturb the
   events before or after it (C10_decode_encode, C10_small_event_small_strings) *)
Lemma passed_streams_decode : forall cfg res,
  result_shape cfg res ->
  (N.of_nat (length (c_schema cfg)) < 65535)%N ->
  match res with
  | RPassed _ streams _ =>
      exists rec, Forall2 (fun o stream =>
                     match oc_kind o with
                     | OFluentd sc =>
                       (N.of_nat (length (S.c_env sc)) < 65536)%N ->
                       (N.of_nat (length stream) < 4294967296)%N ->
                       stream <> [] /\
                       MsgpackSpec.decode_all stream = Some (SS.event_tree (c_schema cfg) sc rec, [])
                     | ODatadog _ => True
                     end)
                  (c_outputs cfg) streams
  | _ => True
  end.
Proof.
  intros cfg res Hs Hn. destruct res as [| | |idx streams chunks]; try exact I.
  destruct Hs as [rec Hs]. exists rec. unfold streams_complete in Hs.
  induction Hs as [|o stream outs streams Ho Hr IH]; constructor; [|exact IH].
  unfold stream_ok in Ho. destruct (oc_kind o) as [sc|hidden]; [|exact I].
  intros He Hlen. subst stream. split; [apply PipelineSerializerProofs.encode_spec_nonempty|].
  apply C10.C10_decode_encode; [apply C10.C10_small_event_small_strings; exact Hlen|exact Hn|exact He].
Qed.
