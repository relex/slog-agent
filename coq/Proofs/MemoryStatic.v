(* C12: a decidable sufficient condition for the hypothesis [mem_targets_own] that also covers the code
   BEFORE the repair (truncate in place): no truncate key is a field into which the parser or a transform may
   put a configuration string, a string constant, or an alias of another field. *)
From SV Require Import Model.Common Model.Memory Proofs.MemoryProofs.
From Coq Require Import Lia.
Open Scope nat_scope.

Definition mem_stx_shared_dsts (t : mem_stx) : list nat :=
  match t with
  | TAddLit dst _ => [dst]
  | TAddRef dst _ _ => [dst]
  | TMapValue key _ _ => [key]
  | _ => []
  end.

Definition mem_stx_trunc_keys (t : mem_stx) : list nat :=
  match t with TTruncate key _ _ => [key] | _ => [] end.

Definition mem_tx_stxs (t : mem_tx) : list mem_stx :=
  match t with TSimple s => [s] | TIf _ body => body | TDrop _ => [] end.

Definition mem_cfg_stxs (c : mem_config) : list mem_stx :=
  flat_map mem_tx_stxs (c_extract c) ++ flat_map mem_tx_stxs (c_transforms c).

(* facility (0) and level (1) are set by the parser to string constants / configuration strings *)
Definition mem_static_targets_own (c : mem_config) : bool :=
  let all := mem_cfg_stxs c in
  let shared := 0 :: 1 :: flat_map mem_stx_shared_dsts all in
  forallb (fun k => negb (mem_nat_in k shared)) (flat_map mem_stx_trunc_keys all).

Definition mem_private_str (s : mem_estr) : Prop :=
  match s with EEmpty => True | EStr p _ _ => mem_private p = true end.

Definition mem_priv_inv (K : list nat) (r : mem_lrec) : Prop := forall k, In k K -> mem_private_str (mem_get_field r k).

Lemma mem_get_set_field : forall r i j v, mem_get_field (mem_set_field r i v) j =
  if Nat.eqb i j then (if Nat.ltb i (length (lr_fields r)) then v else EEmpty) else mem_get_field r j.
Proof.
  intros r i j v. unfold mem_get_field, mem_set_field. cbn [lr_fields].
  destruct (Nat.eqb i j) eqn:E.
  - apply Nat.eqb_eq in E. subst j. destruct (Nat.ltb i (length (lr_fields r))) eqn:El.
    + apply Nat.ltb_lt in El. apply mem_list_set_nth_default_eq. exact El.
    + apply Nat.ltb_ge in El. apply nth_overflow. rewrite mem_list_set_length. exact El.
  - apply Nat.eqb_neq in E. apply mem_list_set_nth_default_neq. exact E.
Qed.

Lemma mem_priv_set_private : forall K r i v, mem_priv_inv K r -> mem_private_str v -> mem_priv_inv K (mem_set_field r i v).
Proof.
  intros K r i v H Hv k Hk. rewrite mem_get_set_field. destruct (Nat.eqb i k); [destruct (Nat.ltb _ _); [exact Hv|exact I]|apply H; exact Hk].
Qed.

Lemma mem_priv_set_outside : forall K r i v, mem_priv_inv K r -> ~ In i K -> mem_priv_inv K (mem_set_field r i v).
Proof.
  intros K r i v H Hi k Hk. rewrite mem_get_set_field. destruct (Nat.eqb i k) eqn:E; [apply Nat.eqb_eq in E; subst; contradiction|apply H; exact Hk].
Qed.

Lemma mem_priv_unesc : forall K r u, mem_priv_inv K r -> mem_priv_inv K (mem_with_unesc r u).
Proof. intros K r u H k Hk. apply (H k Hk). Qed.

Lemma mem_priv_parser_inv : forall K, ~ In 0 K -> ~ In 1 K -> mem_parser_inv (mem_priv_inv K).
Proof.
  intros K H0 H1. repeat split; intros.
  - apply mem_priv_set_outside; assumption.
  - apply mem_priv_set_outside; assumption.
  - apply mem_priv_set_private; [assumption|reflexivity].
  - apply mem_priv_unesc; assumption.
Qed.

Lemma mem_priv_delfields : forall K keys r, mem_priv_inv K r ->
  mem_priv_inv K (fold_left (fun acc k => mem_set_field acc k EEmpty) keys r).
Proof.
  induction keys as [|k ks IH]; intros r H; cbn; [exact H|]. apply IH. apply mem_priv_set_private; [exact H|exact I].
Qed.

(* the fields in K are never a destination of configuration strings or aliases, and only they are truncated *)
Definition mem_stx_ok (K : list nat) (t : mem_stx) : Prop :=
  (forall d, In d (mem_stx_shared_dsts t) -> ~ In d K) /\ (forall k, In k (mem_stx_trunc_keys t) -> In k K).

Lemma mem_run_stx_priv : forall K mode m r t, mem_stx_ok K t -> mem_priv_inv K r ->
  mem_post True True (fun mr => mem_priv_inv K (snd mr)) (mem_run_stx mode m r t).
Proof.
  intros K mode m r t [Hd Hk] Hp. destruct t; cbn [mem_run_stx]; cbn in Hd, Hk.
  - destruct (Nat.ltb _ _); [apply mem_priv_set_outside; [exact Hp|apply Hd; left; reflexivity]|exact Hp].
  - destruct (Nat.ltb _ _); [apply mem_priv_set_outside; [exact Hp|apply Hd; left; reflexivity]|exact Hp].
  - destruct (concat _); [exact Hp|]. apply mem_priv_set_private; [exact Hp|reflexivity].
  - destruct (Nat.eqb _ 0); [exact Hp|]. apply mem_priv_set_outside; [exact Hp|apply Hd; left; reflexivity].
  - pose proof (Hp key (Hk key (or_introl eq_refl))) as Hpk.
    destruct (mem_get_field r key) as [|p off len]; [exact Hp|].
    destruct (Nat.ltb _ len); [|exact Hp]. destruct mode.
    + apply mem_post_bind_any. intros [m1 tl]. apply mem_post_bind_any. intros [m2 nl].
      apply mem_priv_set_private; [exact Hp|exact Hpk].
    + apply mem_post_bind_any. intros [m2 tl]. apply mem_priv_set_private; [exact Hp|reflexivity].
  - destruct (lr_unesc r); [exact Hp|]. destruct (mem_index_byte 92 _); [|exact (mem_priv_unesc K r true Hp)].
    apply (mem_priv_set_private K (mem_with_unesc r true)); [apply mem_priv_unesc; exact Hp|reflexivity].
  - apply mem_priv_delfields. exact Hp.
Qed.

Lemma mem_stx_private_static : forall K mode r t, mem_stx_ok K t -> mem_priv_inv K r -> mem_stx_private mode r t = true.
Proof.
  intros K mode r t [_ Hk] Hp. destruct t; try reflexivity. destruct mode; [|reflexivity]. cbn.
  specialize (Hp key (Hk key (or_introl eq_refl))). destruct (mem_get_field r key); [reflexivity|exact Hp].
Qed.

Lemma mem_tx_all_flat : forall (A : mem_stx -> Prop) ts, (forall s, In s (flat_map mem_tx_stxs ts) -> A s) -> Forall (mem_tx_all A) ts.
Proof.
  intros A ts H. apply Forall_forall. intros t Ht.
  assert (Hs : forall s, In s (mem_tx_stxs t) -> A s) by (intros s Hs; apply H, in_flat_map; eauto).
  destruct t; cbn in *; auto. apply Forall_forall. exact Hs.
Qed.

(* soundness of the static condition: it implies the hypothesis of the isolation theorem, for both truncate modes *)
Lemma mem_static_targets_own_sound : forall c, mem_static_targets_own c = true -> mem_targets_own c.
Proof.
  intros c Hst. unfold mem_static_targets_own in Hst. rewrite forallb_forall in Hst.
  set (K := flat_map mem_stx_trunc_keys (mem_cfg_stxs c)) in *.
  assert (H0 : ~ In 0 K) by (intros Hin; specialize (Hst 0 Hin); cbn in Hst; discriminate).
  assert (H1 : ~ In 1 K) by (intros Hin; specialize (Hst 1 Hin); cbn in Hst; discriminate).
  assert (Hall : forall t, In t (mem_cfg_stxs c) -> mem_stx_ok K t).
  { intros t Hin. split.
    - intros d Hd Hk. specialize (Hst d Hk). apply negb_true_iff in Hst.
      assert (Hx : mem_nat_in d (0 :: 1 :: flat_map mem_stx_shared_dsts (mem_cfg_stxs c)) = true).
      { unfold mem_nat_in. apply existsb_exists. exists d. split; [|apply Nat.eqb_refl].
        right. right. apply in_flat_map. exists t. split; assumption. }
      congruence.
    - intros k Hk. unfold K. apply in_flat_map. exists t. split; assumption. }
  (* at every stage: clean configuration memory and private strings in the fields that are truncated *)
  intros input ts u.
  destruct (mem_spec_stages_all c input ts (fun m r => mem_cfg_clean c m /\ mem_priv_inv K r)) as [Hp Ht].
  - intros u0. eapply mem_post_weaken; [apply (mem_parse_post _ _ _ _ _ (mem_priv_parser_inv K H0 H1))|auto..].
    + intros k _. unfold mem_get_field. cbn. rewrite nth_repeat. exact I.
    + intros [[[m1 r1] st] ov] [[_ Hk] Hpr]. destruct (Hk eq_refl) as [E1 E2]. split; [split; cbn in *; congruence|exact Hpr].
  - intros txs m r Htxs [[Hc Hd] Hpr].
    eapply mem_post_weaken;
      [apply (mem_run_txs_post _ (mem_stx_ok K) (fun m' r' => mem_wrote true m m' /\ mem_priv_inv K r') True True)|auto..].
    + intros m1 r1 t Hok [Hw Hp1]. apply mem_post_conj; [|apply mem_run_stx_priv; assumption].
      eapply mem_post_weaken; [apply mem_run_stx_post|auto..]. intros mr [Hw1 _].
      rewrite (mem_stx_private_static K _ _ _ Hok Hp1) in Hw1. eapply mem_wrote_trans; eauto.
    + apply mem_tx_all_flat. intros s Hs. apply Hall, in_or_app. destruct Htxs as [-> | ->]; [left|right]; exact Hs.
    + split; [apply mem_wrote_refl|exact Hpr].
    + intros [[m2 r2] b] [[_ Hk] Hp2]. destruct (Hk eq_refl). split; [split; cbn in *; congruence|exact Hp2].
  - rewrite mem_stage_clean_eq.
    split; [eapply mem_stage_all_weaken; [|apply Hp]|eapply mem_stage_all_weaken; [|exact Ht]]; intros m r [H _]; exact H.
Qed.
