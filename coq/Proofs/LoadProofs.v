(* C15: programs built by the loader (Model/Transforms.v: verify + new_tf) start with every
   drop node in its invariant — so the sampling bound holds for every accepted configuration. *)
From SV Require Import Model.Common Model.TfUtf8 Model.TfUnescape Model.Template Model.Extractor
     Model.TinyRegex Model.Transforms Proofs.PatternProofs Proofs.TransformsProofs.
From Coq Require Import Lia ZifyBool ZifyN ZifyNat.
Ltac Zify.zify_post_hook ::= Z.div_mod_to_equations.
Open Scope N_scope.

(* induction over configurations (nested lists) *)
Section CfgInd.
Variable P : cfg -> Prop.
Hypothesis HAdd : forall fs, P (CAddFields fs).
Hypothesis HDel : forall ks, P (CDelFields ks).
Hypothesis HMap : forall k m d, P (CMapValue k m d).
Hypothesis HIf : forall m th, Forall P th -> P (CIf m th).
Hypothesis HSwitch : forall cs, Forall (fun mc => Forall P (snd mc)) cs -> P (CSwitch cs).
Hypothesis HBlock : forall b, Forall P b -> P (CBlock b).
Hypothesis HDrop : forall m pct label, P (CDrop m pct label).
Hypothesis HEx : forall h k p n d, P (CExtractSp h k p n d).
Hypothesis HTr : forall k n s, P (CTruncate k n s).
Hypothesis HUn : forall k, P (CUnescape k).
Hypothesis HRe : forall k p r, P (CReplace k p r).
Hypothesis HExRe : forall k p, P (CExtractRe k p).

Fixpoint cfg_ind2 (c : cfg) : P c :=
  let all := fix go (l : list cfg) : Forall P l :=
    match l with [] => Forall_nil P | x :: l' => Forall_cons x (cfg_ind2 x) (go l') end in
  match c with
  | CAddFields fs => HAdd fs
  | CDelFields ks => HDel ks
  | CMapValue k m d => HMap k m d
  | CIf m th => HIf m th (all th)
  | CSwitch cs =>
    HSwitch cs ((fix go (l : list (matcher_cfg * list cfg)) : Forall (fun mc => Forall P (snd mc)) l :=
                   match l with
                   | [] => Forall_nil _
                   | mc :: l' => Forall_cons mc (all (snd mc)) (go l')
                   end) cs)
  | CBlock b => HBlock b (all b)
  | CDrop m pct label => HDrop m pct label
  | CExtractSp h k p n d => HEx h k p n d
  | CTruncate k n s => HTr k n s
  | CUnescape k => HUn k
  | CReplace k p r => HRe k p r
  | CExtractRe k p => HExRe k p
  end.
End CfgInd.

Section Load.
Variable O : oracles.
Variable schema : list bytes.

(* the local list functions of verify / new_tf are verify_all / new_all *)
Lemma verify_list_eq : forall l,
  (fix vl (l : list cfg) : outcome unit :=
     match l with [] => Ok tt | x :: l' => _ <-- verify O schema x ;; vl l' end) l = verify_all O schema l.
Proof. induction l as [|x l IH]; [reflexivity|]. cbn [verify_all]. rewrite <- IH. reflexivity. Qed.

Lemma new_list_eq : forall l,
  (fix nl (l : list cfg) : outcome tfs :=
     match l with [] => Ok TNil | x :: l' => t <-- new_tf O schema x ;; ts <-- nl l' ;; Ok (TCons t ts) end) l
  = new_all O schema l.
Proof. induction l as [|x l IH]; [reflexivity|]. cbn [new_all]. rewrite <- IH. reflexivity. Qed.

Lemma vguard_ok : forall b k, vguard b k = Ok tt -> b = true /\ k = Ok tt.
Proof. intros [|] k H; [split; [reflexivity|exact H]|discriminate]. Qed.

(* what is assumed of Go's regexp: FindStringSubmatchIndex returns one pair per subexpression
   (SubexpNames), each either negative or a range inside the value *)
Definition oracle_sane : Prop :=
  forall pat v idx, o_re_find O pat v = Some idx ->
    length idx = length (o_re_names O pat) /\
    Forall (fun ab => (fst ab < 0 \/ snd ab < 0)%Z \/ (0 <= fst ab <= snd ab /\ snd ab <= Z.of_nat (length v))%Z) idx.

Lemma new_subexp_locs_length : forall names locs, new_subexp_locs schema names = Ok locs -> length locs = length names.
Proof.
  induction names as [|n names IH]; intros locs H; cbn [new_subexp_locs] in H.
  - inversion H; reflexivity.
  - destruct n as [|c n'].
    + destruct (new_subexp_locs schema names) as [ls| |]; try discriminate. inversion H; subst. cbn. f_equal. apply IH. reflexivity.
    + destruct (must_loc schema (c :: n')); try discriminate. cbn [obind] in H.
      destruct (new_subexp_locs schema names) as [ls| |]; try discriminate. inversion H; subst. cbn. f_equal. apply IH. reflexivity.
Qed.

(* what the loader guarantees of the program it builds from a verified configuration: every drop node starts
   within its invariant, and (the regexp contract given) the program is well formed *)
Definition good (c : cfg) : Prop :=
  forall t, verify O schema c = Ok tt -> new_tf O schema c = Ok t -> dinv_tf t /\ (oracle_sane -> wf_tf O t).

Lemma good_all : forall l, Forall good l -> forall ts,
  verify_all O schema l = Ok tt -> new_all O schema l = Ok ts -> dinv_tfs ts /\ (oracle_sane -> wf_tfs O ts).
Proof.
  induction 1 as [|x l Hx Hl IH]; intros ts Hv Hn.
  - inversion Hn; subst. easy.
  - cbn [verify_all new_all] in Hv, Hn.
    destruct (verify O schema x) as [[]| |] eqn:Ev; try discriminate. cbn [obind] in Hv.
    destruct (new_tf O schema x) as [t| |] eqn:En; try discriminate. cbn [obind] in Hn.
    destruct (new_all O schema l) as [ts'| |] eqn:El; try discriminate. cbn [obind] in Hn.
    inversion Hn; subst. destruct (Hx t Ev En) as [Hd Hw]. destruct (IH ts' Hv eq_refl) as [Hds Hws].
    split; [split; assumption|intros Hs; split; [exact (Hw Hs)|exact (Hws Hs)]].
Qed.

Lemma all_good : forall c, good c.
Proof.
  apply cfg_ind2; unfold good.
  - intros fs t _ H. cbn [new_tf] in H. destruct (new_addfields schema (sort_pairs fs)); inversion H; easy.
  - intros ks t _ H. cbn [new_tf] in H. destruct (new_locs schema ks); inversion H; easy.
  - intros k m d t _ H. cbn [new_tf] in H. destruct (must_loc schema k); inversion H; easy.
  - intros m th IH t Hv Hn. cbn [verify new_tf] in Hv, Hn. rewrite verify_list_eq in Hv. rewrite new_list_eq in Hn.
    apply vguard_ok in Hv as [_ Hv]. apply vguard_ok in Hv as [_ Hv].
    apply vguard_ok in Hv as [_ Hv].
    destruct (new_matcher O schema m); try discriminate. cbn [obind] in Hn.
    destruct (new_all O schema th) as [ts| |] eqn:E; try discriminate. inversion Hn; subst.
    cbn. eapply good_all; eassumption.
  - intros cs IH t Hv Hn. cbn [verify new_tf] in Hv, Hn.
    apply vguard_ok in Hv as [_ Hv].
    match type of Hn with (obind ?X _) = _ => destruct X as [ks| |] eqn:Ek; try discriminate end.
    inversion Hn; subst. cbn. clear Hn.
    revert ks Hv Ek. induction IH as [|[m th] cs Hth Hcs IHcs]; intros ks Hv Ek.
    + inversion Ek; subst. easy.
    + rewrite verify_list_eq in Hv. rewrite new_list_eq in Ek.
      match type of Hv with (obind ?X _) = _ => destruct X as [[]| |] eqn:Ev; try discriminate end.
      cbn [obind] in Hv.
      apply vguard_ok in Ev as [_ Ev]. apply vguard_ok in Ev as [_ Ev].
      apply vguard_ok in Ev as [_ Ev].
      destruct (new_matcher O schema m); try discriminate. cbn [obind] in Ek.
      destruct (new_all O schema th) as [ts| |] eqn:E; try discriminate. cbn [obind] in Ek.
      match type of Ek with (obind ?X _) = _ => destruct X as [ks'| |] eqn:Ek'; try discriminate end.
      inversion Ek; subst. destruct (good_all th Hth ts Ev E) as [Hd Hw]. destruct (IHcs ks' Hv eq_refl) as [Hds Hws].
      split; [split; assumption|intros Hs; split; [exact (Hw Hs)|exact (Hws Hs)]].
  - intros b IH t Hv Hn. cbn [verify new_tf] in Hv, Hn. rewrite verify_list_eq in Hv. rewrite new_list_eq in Hn.
    apply vguard_ok in Hv as [_ Hv].
    destruct (new_all O schema b) as [ts| |] eqn:E; try discriminate. inversion Hn; subst.
    cbn. eapply good_all; eassumption.
  - intros m pct label t Hv Hn. cbn [verify new_tf] in Hv, Hn.
    apply vguard_ok in Hv as [_ Hv]. apply vguard_ok in Hv as [_ Hv].
    apply vguard_ok in Hv as [Hp _].
    destruct (new_matcher O schema m); try discriminate. inversion Hn; subst.
    split; [apply drop_fresh_lemma; lia|easy].
  - intros h k p n d t Hv H. cbn [verify new_tf] in Hv, H.
    apply vguard_ok in Hv as [_ Hv]. apply vguard_ok in Hv as [_ Hv].
    destruct (new_string_extractor_simple h p (zval n)) as [ex| |] eqn:Eex; try discriminate.
    apply vguard_ok in Hv as [Hpos _].
    destruct (must_loc schema k); try discriminate. cbn [obind] in H.
    destruct (must_loc schema d); inversion H; subst. cbn.
    destruct (new_string_extractor_simple_wf _ _ _ _ Eex) as [Hmax Hb]. split; [exact I|intros _; split; [rewrite Hmax; lia|exact Hb]].
  - intros k n s t Hv H. cbn [verify new_tf] in Hv, H.
    apply vguard_ok in Hv as [_ Hv]. apply vguard_ok in Hv as [Hpos _].
    destruct (must_loc schema k); inversion H; subst. cbn. split; [exact I|lia].
  - intros k t _ H. cbn [new_tf] in H. destruct (must_loc schema k); inversion H; easy.
  - intros k p r t _ H. cbn [new_tf] in H. destruct (must_loc schema k); try discriminate. cbn [obind] in H.
    destruct (o_re_compiles O p); inversion H; easy.
  - intros k p t _ H. cbn [new_tf] in H. destruct (o_re_compiles O p); try discriminate.
    destruct (new_subexp_locs schema (o_re_names O p)) as [locs| |] eqn:El; try discriminate. cbn [obind] in H.
    destruct (must_loc schema k); inversion H; subst. cbn. split; [exact I|].
    intros Hsane v idx Hf. destruct (Hsane _ _ _ Hf) as [Hlen Hall]. split; [|exact Hall].
    rewrite Hlen. symmetry. apply new_subexp_locs_length. assumption.
Qed.

Lemma load_good : forall l ts, load O schema l = LOk ts -> dinv_tfs ts /\ (oracle_sane -> wf_tfs O ts).
Proof.
  intros l ts H. unfold load in H. destruct (negb (forallb (unmarshals O) l)); [discriminate|].
  destruct (verify_all O schema l) as [[]| |] eqn:Ev; try discriminate.
  destruct (new_all O schema l) as [ts'| |] eqn:En; try discriminate. inversion H; subst.
  eapply good_all; try eassumption. apply Forall_forall. intros c _. apply all_good.
Qed.

(* every configuration the loader accepts starts within the sampling invariant and stays within it
   for every stream of records *)
Lemma load_drop_invariant : forall l ts cs rs, load O schema l = LOk ts ->
  Forall dinv_tfs (run_states O ts cs rs).
Proof. intros l ts cs rs H. apply dinv_stream. apply (load_good l ts H). Qed.

(* every configuration the loader accepts runs every stream of records without a panic *)
Lemma load_no_panic : oracle_sane -> forall l ts cs rs, load O schema l = LOk ts ->
  Forall (fun x => x <> RPanic) (fst (run_records O ts cs rs)) /\
  length (fst (run_records O ts cs rs)) = length rs.
Proof. intros Hsane l ts cs rs H. apply run_records_no_panic. apply (proj2 (load_good l ts H) Hsane). Qed.

End Load.
