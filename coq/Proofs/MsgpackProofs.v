(* Facts about the buffer writers (Model/Msgpack.v) and about the decoder (Spec/MsgpackSpec.v).

   The central notion is [writes w d] ([writes_to] for a writer that goes on): on the buffer [pre ++ old ++ tail],
   at position [length pre] and with [length old = length d], the writer [w] returns [pre ++ d ++ tail] and the
   position behind [d]; nothing else changes.  First the primitives [put] and [copy_at] in this form, written out;
   then [writes] with its rules of composition and every header writer as an instance (the specifications in
   UnescapeProofs.v and SerializerProofs.v are stated with it); then the primitives by lengths alone, at any
   position.  Decoder facts: every header form used by the encoder is read back, for every length of its class. *)
From SV Require Import Model.Common Model.Msgpack Model.Unescape Model.Serializer
     Spec.MsgpackSpec Spec.SerializerSpec Proofs.CommonFacts.
From Coq Require Import Lia ZifyBool ZifyN ZifyNat.
Ltac Zify.zify_post_hook ::= Z.div_mod_to_equations.
Open Scope N_scope.

Lemma obind_assoc : forall {A B C} (r : outcome A) (f : A -> outcome B) (g : B -> outcome C),
  obind (obind r f) g = obind r (fun a => obind (f a) g).
Proof. intros A B C [a| |] f g; reflexivity. Qed.

Lemma split_len : forall {A} (l : list A) (a b : nat),
  length l = (a + b)%nat -> exists l1 l2, l = l1 ++ l2 /\ length l1 = a /\ length l2 = b.
Proof.
  intros A l a b H. exists (firstn a l), (skipn a l).
  rewrite firstn_skipn. split; [reflexivity|]. split.
  - rewrite firstn_length. lia.
  - rewrite skipn_length. lia.
Qed.

Lemma split_le : forall {A} (l : list A) (a : nat),
  (a <= length l)%nat -> exists l1 l2, l = l1 ++ l2 /\ length l1 = a.
Proof.
  intros A l a H. exists (firstn a l), (skipn a l).
  rewrite firstn_skipn. split; [reflexivity|]. rewrite firstn_length. lia.
Qed.

Lemma set_nth_at : forall pre x tail v,
  set_nth (pre ++ x :: tail) (length pre) v = Some (pre ++ v :: tail).
Proof.
  induction pre as [|p pre IH]; intros x tail v; cbn [set_nth app length].
  - reflexivity.
  - rewrite IH. reflexivity.
Qed.

Lemma put0 : forall pre x t v, put (pre ++ x :: t) (length pre) v = Ok (pre ++ v :: t).
Proof. intros. unfold put. rewrite set_nth_at. reflexivity. Qed.

Lemma put_mid : forall pre mid x tail v n,
  n = (length pre + length mid)%nat ->
  put (pre ++ mid ++ x :: tail) n v = Ok (pre ++ mid ++ v :: tail).
Proof. intros pre mid x tail v n ->. rewrite !app_assoc, <- app_length. apply put0. Qed.

Lemma put1 : forall pre a x t v, put (pre ++ a :: x :: t) (length pre + 1) v = Ok (pre ++ a :: v :: t).
Proof. intros. apply (put_mid pre [a]). reflexivity. Qed.
Lemma put2 : forall pre a b x t v, put (pre ++ a :: b :: x :: t) (length pre + 2) v = Ok (pre ++ a :: b :: v :: t).
Proof. intros. apply (put_mid pre [a; b]). reflexivity. Qed.
Lemma put3 : forall pre a b c x t v,
  put (pre ++ a :: b :: c :: x :: t) (length pre + 3) v = Ok (pre ++ a :: b :: c :: v :: t).
Proof. intros. apply (put_mid pre [a; b; c]). reflexivity. Qed.
Lemma put4 : forall pre a b c d x t v,
  put (pre ++ a :: b :: c :: d :: x :: t) (length pre + 4) v = Ok (pre ++ a :: b :: c :: d :: v :: t).
Proof. intros. apply (put_mid pre [a; b; c; d]). reflexivity. Qed.

Lemma blit_exact : forall old src tail,
  length old = length src -> blit (old ++ tail) src = (src ++ tail, length src).
Proof.
  induction old as [|o old IH]; intros [|s src] tail H; cbn [length] in H; try discriminate.
  - destruct tail; reflexivity.
  - cbn [blit app length]. rewrite IH by lia. reflexivity.
Qed.

Lemma copy_at_opt_at : forall pre old src tail,
  length old = length src ->
  copy_at_opt (pre ++ old ++ tail) (length pre) src = Some (pre ++ src ++ tail, length src).
Proof.
  induction pre as [|p pre IH]; intros old src tail H; cbn [copy_at_opt app length].
  - rewrite blit_exact by assumption. reflexivity.
  - rewrite IH by assumption. reflexivity.
Qed.

Lemma copy_at_at : forall pre old src tail n,
  n = length pre -> length old = length src ->
  copy_at (pre ++ old ++ tail) n src = Ok (pre ++ src ++ tail, length src).
Proof. intros pre old src tail n -> H. unfold copy_at. rewrite copy_at_opt_at by assumption. reflexivity. Qed.

Lemma copy_at_0 : forall old src tail,
  length old = length src -> copy_at (old ++ tail) 0 src = Ok (src ++ tail, length src).
Proof. intros old src tail H. apply (copy_at_at [] old src tail O); [reflexivity|assumption]. Qed.

Lemma lor_low4 : forall base n, (base = 128 \/ base = 144 \/ base = 160) -> n < 16 -> N.lor base n = base + n.
Proof.
  (* the low four bits of the code are free: no carry, so or is plus *)
  intros base n Hb Hn.
  assert (Z : N.land base n = 0).
  { rewrite <- (N.mod_small n 16 Hn). change 16 with (2 ^ 4). rewrite <- N.land_ones, (N.land_comm n), N.land_assoc.
    destruct Hb as [-> | [-> | ->]]; reflexivity. }
  rewrite <- N.lxor_lor, <- N.add_nocarry_lxor by exact Z. reflexivity.
Qed.

Lemma to_byte_small : forall n, N.of_nat n < 256 -> to_byte n = N.of_nat n.
Proof. intros n H. unfold to_byte. apply N.mod_small. assumption. Qed.

(* [w] replaces the [length d] bytes at its position by [d] and goes on as [res] does from the position behind them *)
Definition writes_to {X} (w : bytes -> nat -> outcome X) (d : bytes) (res : bytes -> nat -> outcome X) : Prop :=
  forall pre old tail, length old = length d ->
    w (pre ++ old ++ tail) (length pre) = res (pre ++ d ++ tail) (length pre + length d)%nat.

(* ... and returns that position *)
Definition writes (w : bytes -> nat -> outcome (bytes * nat)) (d : bytes) : Prop :=
  writes_to w d (fun b p => Ok (b, p)).

Lemma writes_nil : forall {X} (res : bytes -> nat -> outcome X), writes_to res [] res.
Proof. intros X res pre old tail H. apply length_zero_iff_nil in H. subst old. cbn [app length]. rewrite Nat.add_0_r. reflexivity. Qed.

Lemma writes_ok : writes (fun b p => Ok (b, p)) [].
Proof. exact (writes_nil _). Qed.

Lemma writes_seq : forall {X} w1 (w2 : bytes -> nat -> outcome X) d1 d2 res,
  writes w1 d1 -> writes_to w2 d2 res -> writes_to (fun b p => '(b, p) <-- w1 b p ;; w2 b p) (d1 ++ d2) res.
Proof.
  intros X w1 w2 d1 d2 res H1 H2 pre old tail Hold. rewrite app_length in Hold.
  destruct (split_len old _ _ Hold) as (o1 & o2 & -> & Ho1 & Ho2).
  rewrite <- app_assoc, (H1 pre o1 (o2 ++ tail) Ho1). cbn [obind].
  rewrite <- app_length, (app_assoc pre d1), (H2 (pre ++ d1) o2 tail Ho2).
  rewrite <- !app_assoc, !app_length, Nat.add_assoc. reflexivity.
Qed.

Lemma put_then_writes : forall {X} v (w : bytes -> nat -> outcome X) d res,
  writes_to w d res -> writes_to (fun b p => b' <-- put b p v ;; w b' (p + 1)%nat) (v :: d) res.
Proof.
  intros X v w d res H pre [|x old] tail Hold; [discriminate|]. injection Hold as Hold.
  cbn [app]. rewrite put0. cbn [obind].
  pose proof (H (pre ++ [v]) old tail Hold) as E. rewrite app_length, <- !app_assoc in E. cbn [app length] in E.
  rewrite E. cbn [app length]. rewrite <- Nat.add_assoc. reflexivity.
Qed.

Lemma copy_writes : forall s, writes (fun b p => '(b, n) <-- copy_at b p s ;; Ok (b, (p + n)%nat)) s.
Proof. intros s pre old tail H. rewrite (copy_at_at pre old s tail _ eq_refl H). reflexivity. Qed.

Lemma copy_then_writes : forall {X} s (w : bytes -> nat -> outcome X) d res,
  writes_to w d res -> writes_to (fun b p => '(b, n) <-- copy_at b p s ;; w b (p + n)%nat) (s ++ d) res.
Proof.
  intros X s w d res H pre old tail Hold. pose proof (writes_seq _ _ _ _ _ (copy_writes s) H pre old tail Hold) as E.
  cbn beta in E. destruct (copy_at (pre ++ old ++ tail) (length pre) s) as [[b n]| |]; exact E.
Qed.

(* two stores and the position behind them: Write2, EncodeExtHeader8, an escape sequence the unescaper keeps *)
Lemma put2_writes : forall v1 v2,
  writes (fun b p => b1 <-- put b p v1 ;; b2 <-- put b1 (p + 1) v2 ;; Ok (b2, (p + 2)%nat)) [v1; v2].
Proof.
  intros v1 v2 pre [|x [|y [|? ?]]] tail H; try discriminate. cbn [app].
  rewrite put0. cbn [obind]. rewrite put1. reflexivity.
Qed.

Lemma write2_writes : forall n, writes (fun b p => write2 b p n) (be16 n).
Proof. intros. apply put2_writes. Qed.

Lemma write4_writes : forall n, writes (fun b p => write4 b p n) (be32 n).
Proof.
  intros n pre [|a [|b [|c [|d [|? ?]]]]] tail H; try discriminate. unfold write4. cbn [app].
  rewrite put0. cbn [obind]. rewrite put1. cbn [obind]. rewrite put2. cbn [obind]. rewrite put3. reflexivity.
Qed.

(* fixarray, fixmap, fixstr: the length in the low four bits of the code *)
Lemma fix_header_writes : forall base len,
  (base = 128 \/ base = 144 \/ base = 160) -> N.of_nat len < 16 ->
  writes (fun b p => b' <-- put b p (N.lor base (to_byte len)) ;; Ok (b', (p + 1)%nat)) [base + N.of_nat len].
Proof.
  intros base len Hb H. rewrite to_byte_small, lor_low4 by (assumption || lia).
  exact (put_then_writes _ _ _ _ writes_ok).
Qed.

Lemma string_len4_writes : forall len,
  N.of_nat len < 16 -> writes (fun b p => encode_string_len4 b p len) [160 + N.of_nat len].
Proof. intros len H. apply (fix_header_writes 160); auto. Qed.

Lemma map_len4_writes : forall len,
  N.of_nat len < 16 -> writes (fun b p => encode_map_len4 b p len) [128 + N.of_nat len].
Proof. intros len H. apply (fix_header_writes 128); auto. Qed.

Lemma array_len4_writes : forall len,
  N.of_nat len < 16 -> writes (fun b p => encode_array_len4 b p len) [144 + N.of_nat len].
Proof. intros len H. apply (fix_header_writes 144); auto. Qed.

(* str16, str32, map16: the code, then the length big-endian *)
Lemma string_len16_writes : forall len,
  writes (fun b p => encode_string_len16 b p len) (218 :: be16 (N.of_nat len mod 65536)).
Proof. intros. exact (put_then_writes _ _ _ _ (write2_writes _)). Qed.

Lemma string_len32_writes : forall len,
  writes (fun b p => encode_string_len32 b p len) (219 :: be32 (N.of_nat len mod 4294967296)).
Proof. intros. exact (put_then_writes _ _ _ _ (write4_writes _)). Qed.

Lemma map_len16_writes : forall len,
  writes (fun b p => encode_map_len16 b p len) (222 :: be16 (N.of_nat len mod 65536)).
Proof. intros. exact (put_then_writes _ _ _ _ (write2_writes _)). Qed.

Lemma str_header_length : forall len,
  length (str_header len) = if N.of_nat len <? 16 then 1%nat else if N.of_nat len <? 65536 then 3%nat else 5%nat.
Proof. intros len. unfold str_header. destruct (N.of_nat len <? 16); [reflexivity|]. destruct (N.of_nat len <? 65536); reflexivity. Qed.

Lemma rw_header_length : forall m a, length (rw_header m a) = if N.of_nat m <? 65536 then 3%nat else 5%nat.
Proof. intros. unfold rw_header. destruct (N.of_nat m <? 65536); reflexivity. Qed.

Lemma map_header_length : forall c n, length (map_header c n) = if N.of_nat c <? 16 then 1%nat else 3%nat.
Proof. intros. unfold map_header. destruct (N.of_nat c <? 16); reflexivity. Qed.

(* pos := EncodeStringLenX(buffer, start, len(str)); pos += copy(buffer[pos:], str) *)
Lemma encode_string_with_writes : forall hdr s h,
  writes (fun b p => hdr b p (length s)) h -> writes (fun b p => encode_string_with hdr b p s) (h ++ s).
Proof. intros hdr s h H. exact (writes_seq _ _ _ _ _ H (copy_writes s)). Qed.

Lemma encode_string_auto_writes : forall s, writes (fun b p => encode_string_auto b p s) (enc_str s).
Proof.
  intros s. unfold encode_string_auto, enc_str, str_header.
  destruct (N.of_nat (length s) <? 16) eqn:E16; [|destruct (N.of_nat (length s) <? 65536) eqn:E64];
    apply encode_string_with_writes.
  - apply string_len4_writes. lia.
  - rewrite <- (N.mod_small (N.of_nat (length s)) 65536) by lia. apply string_len16_writes.
  - apply string_len32_writes.
Qed.

(* map headers: the class is chosen by [cls], whatever is written (the slot is reserved before the count is known) *)
Lemma map_header_writes : forall cls n,
  (n <= cls)%nat ->
  writes (fun b p => if N.of_nat cls <? 16 then encode_map_len4 b p n else encode_map_len16 b p n) (map_header cls n).
Proof.
  intros cls n Hn. unfold map_header. destruct (N.of_nat cls <? 16) eqn:E.
  - rewrite N.mod_small by lia. apply map_len4_writes. lia.
  - apply map_len16_writes.
Qed.

(* a reserved slot of [length h] bytes: [body] runs behind it, then the slot is filled with what [body] returned *)
Lemma reserve_then_writes : forall {X Y} (body : bytes -> nat -> outcome (bytes * nat * X))
    (hdr : bytes -> nat -> X -> outcome (bytes * nat)) (w : bytes -> nat -> outcome Y) k h d x d2 res,
  length h = k ->
  writes_to body d (fun b q => Ok (b, q, x)) -> writes (fun b p => hdr b p x) h -> writes_to w d2 res ->
  writes_to (fun b p => '(b, q, x) <-- body b (p + k)%nat ;; '(b, _) <-- hdr b p x ;; w b q) (h ++ d ++ d2) res.
Proof.
  intros X Y body hdr w k h d x d2 res <- Hb Hh Hw pre old tail Hold. rewrite !app_length in Hold.
  destruct (split_len old _ _ Hold) as (oh & o' & -> & Hoh & Ho').
  destruct (split_len o' _ _ Ho') as (od & o2 & -> & Hod & Ho2).
  rewrite <- Hoh, <- app_length, <- !app_assoc, (app_assoc pre oh).
  rewrite (Hb (pre ++ oh) od (o2 ++ tail) Hod). cbn [obind].
  rewrite <- app_assoc, (Hh pre oh (d ++ o2 ++ tail) Hoh). cbn [obind].
  replace (pre ++ h ++ d ++ o2 ++ tail) with ((pre ++ h ++ d) ++ o2 ++ tail) by (rewrite <- !app_assoc; reflexivity).
  replace (length (pre ++ oh) + length d)%nat with (length (pre ++ h ++ d)) by (rewrite !app_length; lia).
  rewrite (Hw (pre ++ h ++ d) o2 tail Ho2). rewrite <- !app_assoc, !app_length, !Nat.add_assoc. reflexivity.
Qed.

(* the event time: fixext8 of type 0, seconds and nanoseconds *)
Lemma event_time_writes : forall unix nsec,
  writes (fun b p => encode_event_time b p unix nsec)
         ([215; 0] ++ be32 (Z.to_N (unix mod 4294967296)) ++ be32 (Z.to_N (nsec mod 4294967296))).
Proof.
  intros. exact (writes_seq _ _ _ _ _ (put2_writes 215 0) (writes_seq _ _ _ _ _ (write4_writes _) (write4_writes _))).
Qed.

(* a store or a copy at any position: the length of the buffer stays, a store needs room, a copy truncates *)
Lemma set_nth_len : forall buf i v,
  match set_nth buf i v with
  | Some b => length b = length buf /\ (i < length buf)%nat
  | None => (length buf <= i)%nat
  end.
Proof.
  induction buf as [|h t IH]; intros [|i] v; cbn [set_nth length]; try lia.
  specialize (IH i v). destruct (set_nth t i v); cbn [length]; lia.
Qed.

Lemma put_len : forall buf i v,
  match put buf i v with
  | Ok b => length b = length buf /\ (i < length buf)%nat
  | Panic _ => (length buf <= i)%nat
  | Err _ => False
  end.
Proof. intros. unfold put. pose proof (set_nth_len buf i v) as H. destruct (set_nth buf i v); exact H. Qed.

Lemma put_length : forall buf i v b, put buf i v = Ok b -> length b = length buf.
Proof. intros buf i v b H. pose proof (put_len buf i v) as P. rewrite H in P. apply P. Qed.

Lemma blit_len : forall buf src,
  length (fst (blit buf src)) = length buf /\ snd (blit buf src) = Nat.min (length src) (length buf).
Proof.
  induction buf as [|h t IH]; intros [|s src]; cbn [blit fst snd length]; try lia.
  specialize (IH src). destruct (blit t src) as [t' n]. cbn [fst snd length] in *. lia.
Qed.

Lemma copy_at_opt_len : forall off buf src,
  match copy_at_opt buf off src with
  | Some (b, n) => length b = length buf /\ (off <= length buf)%nat /\ n = Nat.min (length src) (length buf - off)
  | None => (length buf < off)%nat
  end.
Proof.
  induction off as [|off IH]; intros buf src; cbn [copy_at_opt].
  - pose proof (blit_len buf src) as B. destruct (blit buf src) as [b n]. cbn [fst snd] in B. lia.
  - destruct buf as [|h t]; cbn [length]; [lia|].
    specialize (IH t src). destruct (copy_at_opt t off src) as [[t' n]|]; cbn [length]; lia.
Qed.

(* n := copy(buf[off:], src): the slice expression panics behind the end, the copy truncates *)
Lemma copy_at_len : forall buf off src,
  match copy_at buf off src with
  | Ok (b, n) => length b = length buf /\ (off <= length buf)%nat /\ n = Nat.min (length src) (length buf - off)
  | Panic _ => (length buf < off)%nat
  | Err _ => False
  end.
Proof.
  intros. unfold copy_at. pose proof (copy_at_opt_len off buf src) as H.
  destruct (copy_at_opt buf off src) as [[b n]|]; exact H.
Qed.

Lemma copy_at_length : forall buf off src b n,
  copy_at buf off src = Ok (b, n) -> length b = length buf /\ (n <= length src)%nat /\ (off + n <= length buf)%nat.
Proof. intros buf off src b n H. pose proof (copy_at_len buf off src) as C. rewrite H in C. lia. Qed.

Lemma take_app : forall s rest, take (s ++ rest) (N.of_nat (length s)) = Some (s, rest).
Proof.
  induction s as [|x s IH]; intros rest.
  - cbn [length app]. destruct rest; reflexivity.
  - cbn [length app take]. replace (N.of_nat (S (length s)) =? 0) with false by lia.
    replace (N.pred (N.of_nat (S (length s)))) with (N.of_nat (length s)) by lia.
    rewrite IH. reflexivity.
Qed.

Lemma read_body_app : forall mk s rest, read_body mk (N.of_nat (length s)) (s ++ rest) = Some (mk s, rest).
Proof. intros. unfold read_body. rewrite take_app. reflexivity. Qed.

Lemma decode_fixstr_byte : forall f b r, 160 <= b < 192 -> decode (S f) (b :: r) = read_body VStr (b - 160) r.
Proof.
  intros f b r H. cbn [decode].
  replace (b <? 128) with false by lia. replace (b <? 144) with false by lia.
  replace (b <? 160) with false by lia. replace (b <? 192) with true by lia. reflexivity.
Qed.

Lemma decode_fixmap_byte : forall f b r, 128 <= b < 144 ->
  decode (S f) (b :: r) = wrap_map (dec_pairs (decode f) (N.to_nat (b - 128)) r).
Proof.
  intros f b r H. cbn [decode].
  replace (b <? 128) with false by lia. replace (b <? 144) with true by lia. reflexivity.
Qed.

Lemma decode_fixarray_byte : forall f b r, 144 <= b < 160 ->
  decode (S f) (b :: r) = wrap_arr (dec_seq (decode f) (N.to_nat (b - 144)) r).
Proof.
  intros f b r H. cbn [decode].
  replace (b <? 128) with false by lia. replace (b <? 144) with false by lia.
  replace (b <? 160) with true by lia. reflexivity.
Qed.

Lemma decode_fixext8 : forall f ty r, decode (S f) (215 :: ty :: r) = read_body (VExt ty) 8 r.
Proof. reflexivity. Qed.

Lemma be_val_be16 : forall n, n < 65536 -> be_val (be16 n) 0 = n.
Proof. intros n H. unfold be16. cbn [be_val]. lia. Qed.

Lemma be_val_be32 : forall n, n < 4294967296 -> be_val (be32 n) 0 = n.
Proof. intros n H. unfold be32. cbn [be_val]. lia. Qed.

Lemma be16_mod : forall n, be16 (n mod 65536) = be16 n.
Proof. intros n. unfold be16. f_equal; [|f_equal]; lia. Qed.

Lemma read_uint2 : forall n r, n < 65536 -> read_uint 2 (be16 n ++ r) = Some (n, r).
Proof.
  intros n r H. unfold read_uint. change 2 with (N.of_nat (length (be16 n))).
  rewrite take_app, be_val_be16 by exact H. reflexivity.
Qed.

Lemma read_uint4 : forall n r, n < 4294967296 -> read_uint 4 (be32 n ++ r) = Some (n, r).
Proof.
  intros n r H. unfold read_uint. change 4 with (N.of_nat (length (be32 n))).
  rewrite take_app, be_val_be32 by exact H. reflexivity.
Qed.

Lemma decode_str16 : forall f s rest,
  N.of_nat (length s) < 65536 ->
  decode (S f) (218 :: be16 (N.of_nat (length s)) ++ s ++ rest) = Some (VStr s, rest).
Proof.
  intros f s rest H. change (decode (S f) (218 :: ?x)) with (read_sized VStr 2 x).
  unfold read_sized. rewrite read_uint2 by lia. apply read_body_app.
Qed.

Lemma decode_str32 : forall f s rest,
  N.of_nat (length s) < 4294967296 ->
  decode (S f) (219 :: be32 (N.of_nat (length s)) ++ s ++ rest) = Some (VStr s, rest).
Proof.
  intros f s rest H. change (decode (S f) (219 :: ?x)) with (read_sized VStr 4 x).
  unfold read_sized. rewrite read_uint4 by lia. apply read_body_app.
Qed.

Lemma decode_enc_str : forall f s rest,
  N.of_nat (length s) < 4294967296 -> decode (S f) (enc_str s ++ rest) = Some (VStr s, rest).
Proof.
  intros f s rest H. unfold enc_str, str_header. rewrite <- app_assoc.
  destruct (N.of_nat (length s) <? 16) eqn:E16; [|destruct (N.of_nat (length s) <? 65536) eqn:E64].
  - cbn [app]. rewrite decode_fixstr_byte by lia.
    replace (160 + N.of_nat (length s) - 160) with (N.of_nat (length s)) by lia. apply read_body_app.
  - apply decode_str16. lia.
  - rewrite N.mod_small by lia. apply decode_str32. lia.
Qed.

(* a rewritten string: the header class comes from the reserved maximum, the length is the actual one *)
Lemma decode_rw_str : forall f maxlen s rest,
  (length s <= maxlen)%nat -> N.of_nat (length s) < 4294967296 ->
  decode (S f) ((rw_header maxlen (length s) ++ s) ++ rest) = Some (VStr s, rest).
Proof.
  intros f maxlen s rest Hm H. unfold rw_header. rewrite <- app_assoc.
  destruct (N.of_nat maxlen <? 65536) eqn:E; rewrite N.mod_small by lia; [apply decode_str16; lia | apply decode_str32; lia].
Qed.

Lemma decode_map : forall f cls n body rest kvs,
  (n <= cls)%nat -> N.of_nat cls < 65536 ->
  dec_pairs (decode f) n (body ++ rest) = Some (kvs, rest) ->
  decode (S f) ((map_header cls n ++ body) ++ rest) = Some (VMap kvs, rest).
Proof.
  intros f cls n body rest kvs Hn Hc D. unfold map_header.
  destruct (N.of_nat cls <? 16) eqn:E.
  - cbn [app]. rewrite N.mod_small by lia. rewrite decode_fixmap_byte by lia.
    replace (N.to_nat (128 + N.of_nat n - 128)) with n by lia. rewrite D. reflexivity.
  - cbn [app].
    change (decode (S f) (222 :: ?x))
      with (match read_uint 2 x with Some (k, r) => wrap_map (dec_pairs (decode f) (N.to_nat k) r) | None => None end).
    rewrite <- !app_assoc, N.mod_small, read_uint2, Nat2N.id, D by lia. reflexivity.
Qed.

Lemma dec_pairs_strs : forall f (kvs : list (bytes * bytes)) enc rest,
  Forall (fun kv => N.of_nat (length (fst kv)) < 4294967296) kvs ->
  Forall2 (fun kv e => forall r, decode (S f) (e ++ r) = Some (VStr (snd kv), r)) kvs enc ->
  dec_pairs (decode (S f)) (length kvs)
            (flat_map (fun p => enc_str (fst (fst p)) ++ snd p) (combine kvs enc) ++ rest)
  = Some (map str_pair kvs, rest).
Proof.
  intros f kvs enc rest Hk H2. revert Hk. induction H2 as [|kv e kvs enc He H2 IH]; intros Hk.
  - reflexivity.
  - inversion Hk as [|? ? Hk1 Hk2]; subst.
    cbn [length combine flat_map dec_pairs fst snd map]. rewrite <- !app_assoc.
    rewrite decode_enc_str by assumption. rewrite He. rewrite IH by assumption. reflexivity.
Qed.
