(* C17 - list facts used by the reload proofs: [upd], [first_some]/[next_slot], counting, flat_map. *)
From SV Require Import Model.Common Model.Reload Proofs.ListFacts.
From Coq Require Import Arith Lia Permutation.
Local Open Scope nat_scope.

Lemma upd_length : forall A (l : list A) i x, length (upd l i x) = length l.
Proof. induction l as [|y l IH]; intros [|i] x; simpl; auto. Qed.

Lemma upd_out : forall A (l : list A) i x, length l <= i -> upd l i x = l.
Proof. induction l as [|y l IH]; intros [|i] x H; simpl in *; auto; try lia. f_equal. apply IH. lia. Qed.

Lemma nth_error_upd : forall A (l : list A) i j x,
  nth_error (upd l i x) j = if (i =? j) && (i <? length l) then Some x else nth_error l j.
Proof.
  induction l as [|y l IH]; intros i j x.
  - simpl. rewrite andb_false_r. reflexivity.
  - destruct i, j; simpl; auto. apply IH.
Qed.

Lemma nth_error_upd_eq : forall A (l : list A) i x, i < length l -> nth_error (upd l i x) i = Some x.
Proof. intros A l i x H. apply Nat.ltb_lt in H. rewrite nth_error_upd, Nat.eqb_refl, H. reflexivity. Qed.

Lemma nth_error_upd_neq : forall A (l : list A) i j x, i <> j -> nth_error (upd l i x) j = nth_error l j.
Proof. intros A l i j x H. apply Nat.eqb_neq in H. rewrite nth_error_upd, H. reflexivity. Qed.

Lemma nth_error_upd_in : forall A (l : list A) i j x y,
  nth_error l i = Some y -> nth_error (upd l i x) j = if i =? j then Some x else nth_error l j.
Proof.
  intros A l i j x y H. apply nth_error_lt, Nat.ltb_lt in H. rewrite nth_error_upd, H, andb_true_r. reflexivity.
Qed.

Lemma nth_upd : forall A (l : list A) i j x d, i < length l -> nth j (upd l i x) d = if i =? j then x else nth j l d.
Proof. induction l as [|y l IH]; intros [|i] [|j] x d H; simpl in *; auto; try lia. apply IH. lia. Qed.

Lemma nth_error_repeat_inv : forall A (x : A) n i y, nth_error (repeat x n) i = Some y -> y = x.
Proof. intros A x n i y H. exact (repeat_spec _ _ _ (nth_error_In _ _ H)). Qed.

Definition slot_of (tb : list (option nat)) (n : nat) : option nat :=
  match nth_error tb n with Some (Some s) => Some s | _ => None end.

Lemma first_some_spec : forall l base j,
  first_some l base = Some j ->
  base <= j /\ (exists s, slot_of l (j - base) = Some s) /\ (forall k s, slot_of l k = Some s -> j - base <= k).
Proof.
  induction l as [|[s|] l IH]; intros base j H; simpl in H; try discriminate.
  - inversion H; subst. rewrite Nat.sub_diag. split; [lia|]. split; [exists s; reflexivity|]. intros k s' _. lia.
  - apply IH in H. destruct H as (H1 & (s & H2) & H3). split; [lia|]. split.
    + exists s. replace (j - base) with (S (j - S base)) by lia. exact H2.
    + intros [|k] s' Hk; [discriminate|]. apply H3 in Hk. lia.
Qed.

Lemma first_some_none : forall l base, first_some l base = None -> forall k, slot_of l k = None.
Proof.
  induction l as [|[s|] l IH]; intros base H k; simpl in H; try discriminate.
  - unfold slot_of. destruct k; reflexivity.
  - destruct k; unfold slot_of; simpl; auto. apply (IH _ H k).
Qed.

Lemma slot_of_skipn : forall tb i k, i <= k -> slot_of (skipn i tb) (k - i) = slot_of tb k.
Proof.
  intros tb i k H. replace k with (i + (k - i)) at 2 by lia. generalize (k - i). clear H. revert i.
  unfold slot_of. induction tb as [|y tb IH]; intros [|i] n; simpl; auto. destruct n; reflexivity.
Qed.

(* reload()'s scans of the table of a state, in terms of the model's [slot]: [slot st] is [slot_of (st_table st)] *)
Lemma next_slot_some : forall st i j,
  next_slot (st_table st) i = Some j ->
  i <= j /\ (exists s, slot st j = Some s) /\ (forall k s, slot st k = Some s -> i <= k -> j <= k).
Proof.
  unfold next_slot. intros st i j H. change (slot st) with (slot_of (st_table st)).
  apply first_some_spec in H. destruct H as (H1 & (s & H2) & H3). rewrite slot_of_skipn in H2 by auto.
  split; auto. split; [eauto|].
  intros k s' Hs Hk. specialize (H3 (k - i) s'). rewrite slot_of_skipn in H3 by auto. apply H3 in Hs. lia.
Qed.

Lemma next_slot_none : forall st i, next_slot (st_table st) i = None -> forall k s, slot st k = Some s -> k < i.
Proof.
  unfold next_slot. intros st i H k s. change (slot st) with (slot_of (st_table st)). intros Hs.
  destruct (Nat.lt_ge_cases k i) as [|Hk]; auto. pose proof (first_some_none _ _ H (k - i)) as H1.
  rewrite slot_of_skipn in H1 by auto. congruence.
Qed.

Lemma slot_some_lt : forall st n s, slot st n = Some s -> n < length (st_table st).
Proof.
  unfold slot. intros st n s H. destruct (nth_error (st_table st) n) eqn:E; try discriminate.
  eapply nth_error_lt; eauto.
Qed.

Definition count {A} (f : A -> bool) (l : list A) : nat := length (filter f l).

Lemma count_upd : forall A (f : A -> bool) l t c c',
  nth_error l t = Some c -> count f (upd l t c') + Nat.b2n (f c) = count f l + Nat.b2n (f c').
Proof.
  unfold count. induction l as [|y l IH]; intros [|t] c c' H; simpl in *; try discriminate.
  - inversion H; subst. destruct (f c), (f c'); simpl; lia.
  - specialize (IH _ _ c' H). destruct (f y); simpl; lia.
Qed.

Lemma count_pos : forall A (f : A -> bool) l t c, nth_error l t = Some c -> f c = true -> 1 <= count f l.
Proof.
  unfold count. induction l as [|y l IH]; intros [|t] c H Hf; simpl in *; try discriminate.
  - inversion H; subst. rewrite Hf. simpl. lia.
  - specialize (IH _ _ H Hf). destruct (f y); simpl; lia.
Qed.

Lemma flat_map_upd_perm : forall A B (f : A -> list B) l t c c',
  nth_error l t = Some c ->
  Permutation (flat_map f (upd l t c') ++ f c) (flat_map f l ++ f c').
Proof.
  induction l as [|y l IH]; intros [|t] c c' H; simpl in *; try discriminate.
  - inversion H; subst. rewrite <- !app_assoc.
    etransitivity; [apply Permutation_app_comm|]. rewrite <- app_assoc. apply Permutation_app_swap_app.
  - rewrite <- !app_assoc. apply Permutation_app_head. eapply IH; eauto.
Qed.

Lemma flat_map_upd_same : forall A B (f : A -> list B) l t c c',
  nth_error l t = Some c -> f c' = f c -> flat_map f (upd l t c') = flat_map f l.
Proof.
  induction l as [|y l IH]; intros [|t] c c' H E; simpl in *; try discriminate.
  - inversion H; subst. rewrite E. reflexivity.
  - f_equal. eapply IH; eauto.
Qed.

Lemma flat_map_nil : forall A B (f : A -> list B) l, (forall x, In x l -> f x = []) -> flat_map f l = [].
Proof.
  induction l as [|x l IH]; intros H; simpl; auto. rewrite (H x) by (left; auto). apply IH. intros; apply H; right; auto.
Qed.

Lemma forallb_nth : forall A (f : A -> bool) l t c, forallb f l = true -> nth_error l t = Some c -> f c = true.
Proof.
  intros A f l t c H Hn. rewrite forallb_forall in H. apply H. eapply nth_error_In; eauto.
Qed.

Arguments count : simpl never.

Lemma skipn_upd : forall A (l : list A) j x i, j < i -> skipn i (upd l j x) = skipn i l.
Proof.
  induction l as [|y l IH]; intros [|j] x [|i] H; simpl; auto; try lia. apply IH. lia.
Qed.

Lemma next_slot_upd : forall tb j x i, j < i -> next_slot (upd tb j x) i = next_slot tb i.
Proof. intros. unfold next_slot. rewrite skipn_upd; auto. Qed.
