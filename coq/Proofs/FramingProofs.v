(* Proofs for C08 (Model/Framing.v against Spec/FramingSpec.v), in this order.

   Facts about lists: [nonl], [unlines] / [join] / [split_lines], [ends_NL], then what the searches and
   slices of the reader return.
   The specification side (Section Machine): an abstract machine [feed] whose state is (complete lines
   of the open segment, partial line), fed byte by byte, so that feeding a ++ b is feeding a and then b
   by construction ([feed_app]).  It is the line-based framer ([segments_feed], [frame_feed],
   [flush_feed]), and as long as no segment still to come ([future_segs]) exceeds m bytes its state takes
   at most 2m+1 bytes ([buffer_bound]).
   The reader (Section Reader): its state is a function [conc] of the machine's state, and each operation
   of the model (offsets, slices, the block-wise loop with fuel, relocation) is the machine's operation
   followed by checkOverflow ([pb_loop_spec], [process_buffer_abs], [flush_abs], [flush_all_abs]).
   For every input no operation panics or spins ([run_ops_inv]); for bounded segments checkOverflow stays
   silent and a script delivers what [spec_ops] says ([run_ops_spec_gen]).
   The property lemmas over scripts are corollaries of these two: [total_lemma] of the first, [script_lemma]
   and everything down to [frag_independent_ticks_lemma] of the second.
   TestRecordStart accepts exactly [start_shape] ([trs_shape_lemma]); the examples and counterexamples, by
   evaluation, begin at [flush_splits_lemma]; NetConnWrapper's deadline renewal is [ncw_quiet_lemma]. *)
From SV Require Import Model.Common Model.Framing Spec.FramingSpec.
From Coq Require Import Lia ZifyBool ZifyN ZifyNat.
Open Scope nat_scope.

Lemma nonl_nil : nonl [].
Proof. intros []. Qed.

Lemma nonl_cons : forall c l, nonl (c :: l) <-> c <> NL /\ nonl l.
Proof. unfold nonl. cbn [In]. intuition congruence. Qed.

Lemma nonl_app : forall a b, nonl (a ++ b) <-> nonl a /\ nonl b.
Proof. unfold nonl. intros a b. rewrite in_app_iff. tauto. Qed.

Lemma eqb_NL_false : forall c, c <> NL -> N.eqb c NL = false.
Proof. intros c H. apply N.eqb_neq. assumption. Qed.

Lemma first_nl : forall s, nonl s \/ exists l r, s = l ++ NL :: r /\ nonl l.
Proof.
  induction s as [|c s IH]; [left; exact nonl_nil|].
  destruct (N.eq_dec c NL) as [->|Hc].
  - right. exists [], s. split; [reflexivity|exact nonl_nil].
  - destruct IH as [H | (l & r & -> & H)].
    + left. apply nonl_cons. split; assumption.
    + right. exists (c :: l), r. split; [reflexivity|]. apply nonl_cons. split; assumption.
Qed.

Lemma unlines_app : forall a b, unlines (a ++ b) = unlines a ++ unlines b.
Proof. intros. unfold unlines. apply flat_map_app. Qed.

Lemma unlines_cons : forall l ls, unlines (l :: ls) = l ++ NL :: unlines ls.
Proof. intros. unfold unlines. cbn [flat_map]. rewrite <- app_assoc. reflexivity. Qed.

Lemma unlines_one : forall l, unlines [l] = l ++ [NL].
Proof. intros. rewrite unlines_cons. reflexivity. Qed.

Lemma join_cons2 : forall (x y : bytes) l, join NL (x :: y :: l) = x ++ NL :: join NL (y :: l).
Proof. reflexivity. Qed.

Lemma unlines_join : forall dl, dl <> [] -> unlines dl = join NL dl ++ [NL].
Proof.
  induction dl as [|l dl IH]; intros H; [congruence|].
  destruct dl as [|l2 dl].
  - rewrite unlines_one. reflexivity.
  - rewrite unlines_cons, IH, join_cons2, <- app_assoc by discriminate. reflexivity.
Qed.

Lemma unlines_open : forall dl p, dl <> [] -> unlines dl ++ p = join NL dl ++ NL :: p.
Proof. intros dl p H. rewrite (unlines_join dl H), <- app_assoc. reflexivity. Qed.

Lemma unlines_open_length : forall dl, dl <> [] -> length (unlines dl) = S (length (join NL dl)).
Proof. intros dl H. rewrite (unlines_join dl H), app_length. cbn [length]. lia. Qed.

Lemma join_snoc : forall dl p, join NL (dl ++ [p]) = unlines dl ++ p.
Proof.
  induction dl as [|l dl IH]; intros p; [reflexivity|].
  rewrite unlines_cons. cbn [app]. destruct dl as [|l2 dl].
  - rewrite <- app_assoc. reflexivity.
  - change (join NL (l :: (l2 :: dl) ++ [p])) with (l ++ NL :: join NL ((l2 :: dl) ++ [p])).
    rewrite IH, <- app_assoc. reflexivity.
Qed.

Lemma unlines_nil_iff : forall dl, unlines dl = [] <-> dl = [].
Proof.
  intros dl. split; [|intros ->; reflexivity].
  destruct dl as [|l dl]; [reflexivity|]. rewrite unlines_cons. intros H.
  destruct l; discriminate.
Qed.

Lemma join_app_le : forall dl x : list bytes, x <> [] -> length (join NL x) <= length (join NL (dl ++ x)).
Proof.
  intros dl x Hx. destruct x as [|x0 x _] using rev_ind; [congruence|].
  rewrite app_assoc, !join_snoc, unlines_app, !app_length. lia.
Qed.

Lemma split_lines_nonl : forall t, nonl t -> split_lines t = ([], t).
Proof.
  induction t as [|c t IH]; intros H; [reflexivity|].
  apply nonl_cons in H. destruct H as [Hc Ht]. cbn [split_lines]. rewrite (IH Ht), (eqb_NL_false _ Hc). reflexivity.
Qed.

Lemma split_lines_line : forall l s, nonl l ->
  split_lines (l ++ NL :: s) = (l :: fst (split_lines s), snd (split_lines s)).
Proof.
  induction l as [|c l IH]; intros s H.
  - cbn [app split_lines]. destruct (split_lines s). rewrite N.eqb_refl. reflexivity.
  - apply nonl_cons in H. destruct H as [Hc Hl]. cbn [app split_lines]. rewrite (IH s Hl), (eqb_NL_false _ Hc).
    reflexivity.
Qed.

Lemma split_lines_unlines_app : forall la y, Forall nonl la ->
  split_lines (unlines la ++ y) = (la ++ fst (split_lines y), snd (split_lines y)).
Proof.
  induction la as [|l la IH]; intros y H.
  - cbn [unlines flat_map app]. destruct (split_lines y); reflexivity.
  - inversion H; subst. rewrite unlines_cons, <- app_assoc. cbn [app].
    rewrite split_lines_line, IH by assumption. reflexivity.
Qed.

Lemma split_lines_unlines : forall ls, Forall nonl ls -> split_lines (unlines ls) = (ls, []).
Proof.
  intros ls H. rewrite <- (app_nil_r (unlines ls)), split_lines_unlines_app by assumption.
  cbn [split_lines fst snd]. rewrite app_nil_r. reflexivity.
Qed.

Lemma split_lines_decomp : forall s ls t, split_lines s = (ls, t) ->
  s = unlines ls ++ t /\ Forall nonl ls /\ nonl t.
Proof.
  induction s as [|c s IH]; intros ls t E.
  - cbn in E. injection E as <- <-. repeat split; [constructor|exact nonl_nil].
  - cbn [split_lines] in E. destruct (split_lines s) as [ls0 t0]. destruct (IH ls0 t0 eq_refl) as (Hs & Hl & Ht).
    destruct (N.eqb c NL) eqn:Ec.
    + apply N.eqb_eq in Ec. subst c. injection E as <- <-. rewrite unlines_cons. cbn [app].
      split; [f_equal; assumption|]. split; [constructor; [exact nonl_nil|assumption]|assumption].
    + apply N.eqb_neq in Ec. destruct ls0 as [|l ls'].
      * injection E as <- <-. cbn [unlines flat_map app] in *. split; [f_equal; assumption|].
        split; [constructor|]. apply nonl_cons. split; assumption.
      * injection E as <- <-. rewrite unlines_cons in *. cbn [app]. split; [f_equal; assumption|].
        inversion Hl; subst. split; [|assumption]. constructor; [|assumption]. apply nonl_cons. split; assumption.
Qed.

(* empty, or ending in a newline: where a flush may cut *)
Definition ends_NL (x : bytes) : Prop := x = [] \/ exists x', x = x' ++ [NL].

Lemma ends_NL_app : forall a b, ends_NL a -> ends_NL b -> ends_NL (a ++ b).
Proof.
  intros a b Ha [->|[b' ->]]; [rewrite app_nil_r; assumption|].
  right. exists (a ++ b'). rewrite app_assoc. reflexivity.
Qed.

Lemma ends_NL_unlines : forall ls, ends_NL (unlines ls).
Proof.
  induction ls as [|l ls IH] using rev_ind; [left; reflexivity|].
  right. exists (unlines ls ++ l). rewrite unlines_app, unlines_one, app_assoc. reflexivity.
Qed.

Lemma ends_NL_suffix : forall pre x', ends_NL (pre ++ x') -> ends_NL x'.
Proof.
  intros pre x' [H|[y H]].
  - apply app_eq_nil in H. destruct H as [_ ->]. left. reflexivity.
  - destruct x' as [|c x' _] using rev_ind; [left; reflexivity|].
    rewrite app_assoc in H. apply app_inj_tail in H. destruct H as [_ ->]. right. exists x'. reflexivity.
Qed.

Lemma ends_NL_prefix_split : forall pre ca x l,
  pre ++ ca = x ++ l -> ends_NL pre -> nonl l -> exists x', x = pre ++ x' /\ ca = x' ++ l.
Proof.
  intros pre ca x l H He Hl. apply app_eq_app in H. destruct H as [m [[Hpre Hl']|[Hx Hca]]].
  - (* pre = x ++ m and l = m ++ ca: m is empty, or its last byte is a newline inside l *)
    destruct m as [|c m _] using rev_ind.
    + rewrite app_nil_r in Hpre. subst x. exists []. rewrite app_nil_r. split; [reflexivity|symmetry; exact Hl'].
    + exfalso. destruct He as [->|[p' Hp]].
      { apply (f_equal (@length N)) in Hpre. rewrite !app_length in Hpre. cbn in Hpre. lia. }
      rewrite Hpre, app_assoc in Hp. apply app_inj_tail in Hp. destruct Hp as [_ ->].
      apply Hl. rewrite Hl'. apply in_or_app. left. apply in_or_app. right. left. reflexivity.
  - exists m. split; assumption.
Qed.

(* what the searches and slices of the reader return on a buffer of known shape *)
Lemma index_byte_nonl : forall s, nonl s -> index_byte NL s = None.
Proof.
  induction s as [|c s IH]; intros H; [reflexivity|].
  apply nonl_cons in H. destruct H as [Hc Hs]. cbn [index_byte].
  rewrite (eqb_NL_false _ Hc), (IH Hs). reflexivity.
Qed.

Lemma index_byte_line : forall l r, nonl l -> index_byte NL (l ++ NL :: r) = Some (length l).
Proof.
  induction l as [|c l IH]; intros r H.
  - reflexivity.
  - apply nonl_cons in H. destruct H as [Hc Hl]. cbn [app index_byte length].
    rewrite (eqb_NL_false _ Hc), (IH r Hl). reflexivity.
Qed.

Lemma last_index_byte_nonl : forall s, nonl s -> last_index_byte NL s = None.
Proof.
  induction s as [|c s IH]; intros H; [reflexivity|].
  apply nonl_cons in H. destruct H as [Hc Hs]. cbn [last_index_byte].
  rewrite (IH Hs), (eqb_NL_false _ Hc). reflexivity.
Qed.

Lemma last_index_byte_app : forall x p, nonl p -> last_index_byte NL (x ++ NL :: p) = Some (length x).
Proof.
  induction x as [|c x IH]; intros p H; cbn [app last_index_byte length].
  - rewrite (last_index_byte_nonl _ H), N.eqb_refl. reflexivity.
  - rewrite (IH p H). reflexivity.
Qed.

Lemma oslice_mid : forall site buf (a b c : bytes) i j,
  buf = a ++ b ++ c -> i = length a -> j = length a + length b -> oslice site buf i j = Ok b.
Proof.
  intros site buf a b c i j -> -> ->. unfold oslice, slice.
  assert (H : (length a <=? length a + length b) && (length a + length b <=? length (a ++ b ++ c)) = true)
    by (rewrite !app_length; lia).
  rewrite H, skipn_app, skipn_all, Nat.sub_diag, Nat.add_comm, Nat.add_sub. cbn [skipn app].
  rewrite firstn_app, firstn_all, Nat.sub_diag. cbn [firstn]. rewrite app_nil_r. reflexivity.
Qed.

Lemma oslice_tail : forall site buf (a b : bytes) i j,
  buf = a ++ b -> i = length a -> j = length buf -> oslice site buf i j = Ok b.
Proof.
  intros site buf a b i j -> -> ->.
  apply (oslice_mid site _ a b []); rewrite ?app_nil_r, ?app_length; reflexivity.
Qed.

Lemma oslice_head : forall site buf (a b : bytes) j,
  buf = a ++ b -> j = length a -> oslice site buf 0 j = Ok a.
Proof. intros site buf a b j -> ->. apply (oslice_mid site _ [] a b); reflexivity. Qed.

Lemma last_snoc : forall (x : bytes) c, nth_error (x ++ [c]) (length (x ++ [c]) - 1) = Some c.
Proof.
  intros x c. rewrite app_length, Nat.add_sub, nth_error_app2, Nat.sub_diag by lia. reflexivity.
Qed.

Section Machine.
Variable test : bytes -> bool.

(* a complete line [p] arrives while [dl] are the lines of the open segment *)
Definition close (dl : list bytes) (p : bytes) : list bytes * list bytes :=
  match dl with
  | [] => ([], [p])
  | _ :: _ => if is_start test p then ([join NL dl], [p]) else ([], dl ++ [p])
  end.

(* the machine: from the state (dl, p), the segments closed while [s] is fed and the state reached *)
Fixpoint feed (dl : list bytes) (p : bytes) (s : bytes) : list bytes * list bytes * bytes :=
  match s with
  | [] => ([], dl, p)
  | c :: s' =>
    if N.eqb c NL then
      let '(o, dl1) := close dl p in
      let '(o2, dl2, p2) := feed dl1 [] s' in (o ++ o2, dl2, p2)
    else feed dl (p ++ [c]) s'
  end.

Lemma close_open : forall dl p, dl <> [] ->
  close dl p = if is_start test p then ([join NL dl], [p]) else ([], dl ++ [p]).
Proof. intros [|d dl] p H; [congruence|reflexivity]. Qed.

Lemma feed_app : forall a b dl p,
  feed dl p (a ++ b) =
  let '(o1, dl1, p1) := feed dl p a in
  let '(o2, dl2, p2) := feed dl1 p1 b in (o1 ++ o2, dl2, p2).
Proof.
  induction a as [|c a IH]; intros b dl p.
  - cbn [app feed]. destruct (feed dl p b) as [[o2 dl2] p2]. reflexivity.
  - cbn [app feed]. destruct (N.eqb c NL).
    + destruct (close dl p) as [o dl1]. rewrite IH.
      destruct (feed dl1 [] a) as [[o1 dl1'] p1].
      destruct (feed dl1' p1 b) as [[o2 dl2] p2]. rewrite app_assoc. reflexivity.
    + apply IH.
Qed.

Lemma feed_nonl : forall t dl p, nonl t -> feed dl p t = ([], dl, p ++ t).
Proof.
  induction t as [|c t IH]; intros dl p H.
  - rewrite app_nil_r. reflexivity.
  - apply nonl_cons in H. destruct H as [Hc Ht]. cbn [feed].
    rewrite (eqb_NL_false _ Hc), (IH _ _ Ht), <- app_assoc. reflexivity.
Qed.

Lemma feed_NL : forall s dl p,
  feed dl p (NL :: s) =
  let '(o, dl1) := close dl p in
  let '(o2, dl2, p2) := feed dl1 [] s in (o ++ o2, dl2, p2).
Proof. intros. cbn [feed]. rewrite N.eqb_refl. reflexivity. Qed.

Lemma feed_line : forall l s dl p, nonl l ->
  feed dl p (l ++ NL :: s) =
  let '(o, dl1) := close dl (p ++ l) in
  let '(o2, dl2, p2) := feed dl1 [] s in (o ++ o2, dl2, p2).
Proof.
  intros l s dl p H. rewrite feed_app, (feed_nonl _ _ _ H), feed_NL.
  destruct (close dl (p ++ l)) as [o dl1]. destruct (feed dl1 [] s) as [[o2 dl2] p2]. reflexivity.
Qed.

Lemma feed_ends_NL : forall x dl o dl' p', ends_NL x -> feed dl [] x = (o, dl', p') -> p' = [].
Proof.
  intros x dl o dl' p' [->|[x' ->]] E; [injection E as _ _ <-; reflexivity|].
  rewrite feed_app in E. destruct (feed dl [] x') as [[o1 dl1] p1]. rewrite feed_NL in E.
  destruct (close dl1 p1) as [o2 dl2]. injection E as _ _ <-. reflexivity.
Qed.

Lemma feed_partial_nonl : forall s dl p o dl' p', nonl p -> feed dl p s = (o, dl', p') -> nonl p'.
Proof.
  induction s as [|c s IH]; intros dl p o dl' p' Hp E; cbn [feed] in E.
  - injection E as _ _ <-. assumption.
  - destruct (N.eqb c NL) eqn:Ec.
    + destruct (close dl p) as [o1 dl1].
      destruct (feed dl1 [] s) as [[o2 dl2] p2] eqn:E2. injection E as _ _ <-.
      exact (IH _ _ _ _ _ nonl_nil E2).
    + apply N.eqb_neq in Ec. refine (IH _ _ _ _ _ _ E).
      apply nonl_app. split; [assumption|]. apply nonl_cons. split; [assumption|exact nonl_nil].
Qed.

Fixpoint feed_lines (dl : list bytes) (ls : list bytes) : list bytes * list bytes :=
  match ls with
  | [] => ([], dl)
  | l :: ls' =>
    let '(o, dl1) := close dl l in
    let '(o2, dl2) := feed_lines dl1 ls' in (o ++ o2, dl2)
  end.

Lemma feed_unlines : forall ls t dl, Forall nonl ls -> nonl t ->
  feed dl [] (unlines ls ++ t) = let '(o, dl') := feed_lines dl ls in (o, dl', t).
Proof.
  induction ls as [|l ls IH]; intros t dl Hl Ht.
  - cbn [unlines flat_map app feed_lines]. rewrite (feed_nonl _ _ _ Ht). reflexivity.
  - inversion Hl as [|? ? Hl1 Hl2]; subst. rewrite unlines_cons, <- app_assoc. cbn [app].
    rewrite (feed_line l _ dl [] Hl1). cbn [app feed_lines].
    destruct (close dl l) as [o dl1]. rewrite (IH t dl1 Hl2 Ht).
    destruct (feed_lines dl1 ls) as [o2 dl2]. reflexivity.
Qed.

(* FlushAll: the record is the buffer without one trailing newline *)
Definition last_segment (dl : list bytes) (p : bytes) : bytes :=
  match p with
  | [] => join NL dl
  | _ :: _ => join NL (dl ++ [p])
  end.

(* the segment still open in a machine state *)
Definition seg_state (dl : list bytes) (p : bytes) : list bytes :=
  match dl, p with
  | [], [] => []
  | _, _ => [last_segment dl p]
  end.

Lemma last_segment_open : forall dl p, dl <> [] ->
  last_segment dl p = join NL dl ++ match p with [] => [] | _ :: _ => NL :: p end.
Proof.
  intros dl [|c p] H; cbn [last_segment]; [rewrite app_nil_r|rewrite join_snoc, unlines_open by assumption]; reflexivity.
Qed.

Lemma seg_state_open : forall dl p, dl <> [] -> seg_state dl p = [last_segment dl p].
Proof. intros [|d dl] p H; [congruence|]. destruct p; reflexivity. Qed.

Lemma seg_state_partial : forall dl p, p <> [] -> seg_state dl p = [unlines dl ++ p].
Proof.
  intros dl [|c p] H; [congruence|]. unfold seg_state, last_segment. rewrite join_snoc. destruct dl; reflexivity.
Qed.

Lemma seg_state_cases : forall dl p,
  dl = [] /\ seg_state dl p = [] \/ seg_state dl p = [last_segment dl p].
Proof. intros [|d dl] [|c p]; auto. Qed.

Lemma group_feed_lines : forall ls cur tail o dl, cur <> [] -> feed_lines cur ls = (o, dl) ->
  dl <> [] /\ group test cur ls tail = o ++ [last_segment dl tail].
Proof.
  induction ls as [|l ls IH]; intros cur tail o dl Hc E; cbn [feed_lines group] in *.
  - injection E as <- <-. split; [assumption|]. destruct tail; reflexivity.
  - rewrite (close_open cur l Hc) in E. destruct (is_start test l).
    + destruct (feed_lines [l] ls) as [o2 dl2] eqn:E2. injection E as <- <-.
      destruct (IH [l] tail o2 dl2) as [Hn ->]; [discriminate|exact E2|]. split; [assumption|reflexivity].
    + destruct (feed_lines (cur ++ [l]) ls) as [o2 dl2] eqn:E2. injection E as <- <-.
      apply IH; [destruct cur; discriminate|exact E2].
Qed.

Lemma segments_feed : forall x o dl p, feed [] [] x = (o, dl, p) ->
  segments test x = o ++ seg_state dl p /\ (dl = [] -> o = []).
Proof.
  intros x o dl p E. unfold segments.
  destruct (split_lines x) as [ls t] eqn:Es. destruct (split_lines_decomp x ls t Es) as (Hx & Hl & Ht).
  rewrite Hx, (feed_unlines ls t [] Hl Ht) in E. destruct ls as [|l ls]; cbn [feed_lines close] in E.
  - injection E as <- <- <-. split; [destruct t|]; reflexivity.
  - destruct (feed_lines [l] ls) as [o2 dl2] eqn:E2. injection E as <- <- <-.
    destruct (group_feed_lines ls [l] t o2 dl2) as [Hn ->]; [discriminate|exact E2|].
    rewrite (seg_state_open _ _ Hn). split; [reflexivity|congruence].
Qed.

Lemma close_last_snoc : forall o x, close_last test (o ++ [x]) = o ++ (if test x then [x] else []).
Proof.
  induction o as [|y o IH]; intros x; [reflexivity|].
  cbn [app]. destruct (o ++ [x]) as [|z r] eqn:E; [destruct o; discriminate|].
  change (close_last test (y :: z :: r)) with (y :: close_last test (z :: r)). rewrite <- E, IH. reflexivity.
Qed.

Lemma close_last_split : forall segs,
  exists d, (d = [] \/ exists x, d = [x] /\ test x = false) /\ close_last test segs ++ d = segs.
Proof.
  intros segs. destruct segs as [|x o _] using rev_ind; [exists []; auto|].
  rewrite close_last_snoc. destruct (test x) eqn:Ex; [exists []|exists [x]]; rewrite app_nil_r; eauto.
Qed.

Lemma frame_feed : forall x o dl p, feed [] [] x = (o, dl, p) ->
  frame test x = o ++ close_last test (seg_state dl p).
Proof.
  intros x o dl p E. unfold frame. destruct (segments_feed x o dl p E) as [-> Ho].
  destruct (seg_state_cases dl p) as [[Hd ->]| ->]; [rewrite (Ho Hd); reflexivity|apply close_last_snoc].
Qed.

Lemma closed_segments_feed : forall x o dl p, feed [] [] x = (o, dl, p) -> closed_segments test x = o.
Proof.
  intros x o dl p E. unfold closed_segments. destruct (segments_feed x o dl p E) as [-> Ho].
  destruct (seg_state_cases dl p) as [[Hd ->]| ->]; [rewrite (Ho Hd); reflexivity|apply removelast_last].
Qed.

Lemma flush_feed : forall carry o dl p ls t,
  feed [] [] carry = (o, dl, p) -> split_lines carry = (ls, t) ->
  t = p /\ frame test (unlines ls) = o ++ close_last test (seg_state dl []).
Proof.
  intros carry o dl p ls t E Es. destruct (split_lines_decomp carry ls t Es) as (Hx & Hl & Ht).
  rewrite Hx, (feed_unlines ls t [] Hl Ht) in E.
  destruct (feed_lines [] ls) as [o' dl'] eqn:El. injection E as <- <- <-. split; [reflexivity|].
  apply frame_feed. rewrite <- (app_nil_r (unlines ls)), (feed_unlines ls [] [] Hl nonl_nil), El. reflexivity.
Qed.

(* Flush skips an empty record before testing it *)
Lemma flush_out : forall dl, test [] = false ->
  (if is_start test (join NL dl) then [join NL dl] else []) = close_last test (seg_state dl []).
Proof.
  intros [|d dl] H; [reflexivity|]. cbn [seg_state last_segment close_last].
  destruct (join NL (d :: dl)); cbn [is_start]; rewrite ?H; reflexivity.
Qed.

(* the segments still to come when [y] follows: those closed while [y] is fed, then the one left open *)
Definition future_segs (dl : list bytes) (p : bytes) (y : bytes) : list bytes :=
  let '(o, dl', p') := feed dl p y in o ++ seg_state dl' p'.

Lemma segments_future : forall x y o dl p, feed [] [] x = (o, dl, p) ->
  segments test (x ++ y) = o ++ future_segs dl p y.
Proof.
  intros x y o dl p E. unfold future_segs. destruct (feed dl p y) as [[o2 dl2] p2] eqn:E2.
  rewrite app_assoc. apply segments_feed. rewrite feed_app, E, E2. reflexivity.
Qed.

Lemma future_segs_cons_other : forall c y dl p, c <> NL -> future_segs dl p (c :: y) = future_segs dl (p ++ [c]) y.
Proof. intros. unfold future_segs. cbn [feed]. rewrite eqb_NL_false by assumption. reflexivity. Qed.

Lemma future_segs_cons_NL : forall y dl p,
  future_segs dl p (NL :: y) = fst (close dl p) ++ future_segs (snd (close dl p)) [] y.
Proof.
  intros. unfold future_segs. rewrite feed_NL. destruct (close dl p) as [o dl1]. cbn [fst snd].
  destruct (feed dl1 [] y) as [[o2 dl2] p2]. rewrite app_assoc. reflexivity.
Qed.

(* what follows sees of the open segment only that it is open: its lines so far head the
   first segment to come, and nothing else depends on them *)
Lemma open_segment_prefix : forall y p, exists more rest, forall dl, dl <> [] ->
  future_segs dl p y = (join NL dl ++ more) :: rest.
Proof.
  induction y as [|c y IH]; intros p.
  - eexists _, []. intros dl Hd. unfold future_segs. cbn [feed app].
    rewrite (seg_state_open _ _ Hd), (last_segment_open _ _ Hd). reflexivity.
  - destruct (N.eq_dec c NL) as [->|Hc].
    + destruct (is_start test p) eqn:Es.
      * exists [], (future_segs [p] [] y). intros dl Hd.
        rewrite future_segs_cons_NL, (close_open _ _ Hd), Es, app_nil_r. reflexivity.
      * destruct (IH []) as (more & rest & H). exists (NL :: p ++ more), rest. intros dl Hd.
        rewrite future_segs_cons_NL, (close_open _ _ Hd), Es. cbn [fst snd app].
        rewrite H, join_snoc, (unlines_open _ _ Hd), <- app_assoc by (destruct dl; discriminate). reflexivity.
    + destruct (IH (p ++ [c])) as (more & rest & H). exists more, rest. intros dl Hd.
      rewrite future_segs_cons_other by assumption. apply H, Hd.
Qed.

Notation small m := (Forall (fun r : bytes => length r <= m)).

Lemma open_segment_le : forall y dl p m, dl <> [] ->
  small m (future_segs dl p y) -> length (join NL dl) <= m.
Proof.
  intros y dl p m Hd HF. destruct (open_segment_prefix y p) as (more & rest & H).
  rewrite (H dl Hd) in HF. apply Forall_inv in HF. rewrite app_length in HF. lia.
Qed.

Lemma partial_line_le : forall y dl p m, small m (future_segs dl p y) -> length p <= m.
Proof.
  induction y as [|c y IH]; intros dl p m HF.
  - destruct p as [|c p]; [apply Nat.le_0_l|]. unfold future_segs in HF. cbn [feed app] in HF.
    rewrite seg_state_partial in HF by discriminate. apply Forall_inv in HF. rewrite app_length in HF. lia.
  - destruct (N.eq_dec c NL) as [->|Hc].
    + (* the line [p] is the last line of the segment that is open next *)
      assert (Hs : exists dl', snd (close dl p) = dl' ++ [p]).
      { unfold close. destruct dl; [exists []; reflexivity|]. destruct (is_start test p); [exists []|eexists]; reflexivity. }
      destruct Hs as [dl' Hs]. rewrite future_segs_cons_NL, Hs in HF. apply Forall_app in HF.
      apply proj2, open_segment_le in HF; [|destruct dl'; discriminate].
      pose proof (join_app_le dl' [p] ltac:(discriminate)) as Hle. cbn [join] in Hle. lia.
    + rewrite future_segs_cons_other in HF by assumption. apply IH in HF. rewrite app_length in HF. lia.
Qed.

Lemma buffer_bound : forall y dl p m,
  Forall (fun r => length r <= m) (future_segs dl p y) -> length (unlines dl ++ p) <= 2 * m + 1.
Proof.
  intros y dl p m HF. pose proof (partial_line_le y dl p m HF) as Hp.
  destruct dl as [|d dl0]; [cbn [unlines flat_map app]; lia|].
  apply open_segment_le in HF; [|discriminate]. rewrite unlines_open, app_length by discriminate. cbn [length]. lia.
Qed.

Lemma prefix_state_bound : forall x y b o dl p,
  seg_bound test b (x ++ y) -> feed [] [] x = (o, dl, p) -> length (unlines dl ++ p) <= 2 * b + 1.
Proof.
  intros x y b o dl p HB E. apply (buffer_bound y). unfold seg_bound in HB.
  rewrite (segments_future x y o dl p E) in HB. apply Forall_app in HB. apply HB.
Qed.

(* flushes only shorten: text behind a cut is framed as if the stream began there *)
Lemma shorten_open : forall v dl x p m, x <> [] ->
  small m (future_segs (dl ++ x) p v) -> small m (future_segs x p v).
Proof.
  intros v dl x p m Hx H. destruct (open_segment_prefix v p) as (more & rest & E).
  rewrite (E x Hx). rewrite E in H by (destruct dl; [assumption|discriminate]).
  apply Forall_cons_iff in H. destruct H as [Hl Hr]. constructor; [|assumption].
  pose proof (join_app_le dl x Hx). rewrite app_length in *. lia.
Qed.

Lemma shorten_fresh : forall v dl p m, small m (future_segs dl p v) -> small m (future_segs [] p v).
Proof.
  induction v as [|c v IH]; intros dl p m H; (destruct dl as [|d dl0]; [assumption|]).
  - unfold future_segs in *. cbn [feed app] in *. destruct p as [|c p]; [constructor|].
    rewrite seg_state_open, last_segment_open in H by discriminate. apply Forall_inv in H.
    repeat constructor. cbn [last_segment app join]. rewrite app_length in H. cbn [length] in *. lia.
  - destruct (N.eq_dec c NL) as [->|Hc].
    + rewrite future_segs_cons_NL in *. rewrite close_open in H by discriminate. cbn [close fst snd app].
      destruct (is_start test p); cbn [fst snd app] in H.
      * apply Forall_cons_iff in H. apply H.
      * apply (shorten_open v (d :: dl0) [p] []); [discriminate|assumption].
    + rewrite future_segs_cons_other in * by assumption. apply (IH (d :: dl0)). assumption.
Qed.

Lemma seg_bound_drop_prefix : forall b pre v, ends_NL pre -> seg_bound test b (pre ++ v) -> seg_bound test b v.
Proof.
  intros b pre v He H. unfold seg_bound in *.
  destruct (feed [] [] pre) as [[o dl] p] eqn:E. pose proof (feed_ends_NL _ _ _ _ _ He E). subst p.
  rewrite (segments_future pre v o dl [] E) in H. apply Forall_app in H.
  pose proof (segments_future [] v [] [] [] eq_refl) as Hv. cbn [app] in Hv. rewrite Hv.
  apply (shorten_fresh v dl), H.
Qed.

Lemma bounded_ops_future : forall ops b carry, bounded_ops test b carry ops -> prefix_bounded test b carry.
Proof.
  induction ops as [|[f| |] ops IH]; intros b carry H; cbn [bounded_ops] in H; try tauto.
  destruct (IH _ _ H) as [z Hz]. exists (f ++ z). rewrite app_assoc. assumption.
Qed.

(* the loop of processBuffer over a buffer [pre ++ unlines dl ++ rest] with recordStart behind
   [pre] and searchStart in front of [rest]; [pre] is what earlier records have left behind
   (the first line of a buffer is never tested, so nothing can be in front of an empty [dl]) *)
Lemma pb_loop_spec : forall fuel pre dl rest out o dl' p',
  (dl = [] -> pre = []) -> length rest < fuel ->
  feed dl [] rest = (o, dl', p') ->
  exists pre',
    pre ++ unlines dl ++ rest = pre' ++ unlines dl' ++ p' /\
    (dl' = [] -> pre' = []) /\
    pb_loop test fuel (pre ++ unlines dl ++ rest) (length pre) (length pre + length (unlines dl)) out
      = Ok (length pre', length pre' + length (unlines dl'), out ++ o).
Proof.
  induction fuel as [|fuel IH]; intros pre dl rest out o dl' p' Hpre Hfuel E; [lia|].
  cbn [pb_loop].
  rewrite (oslice_tail 1 _ (pre ++ unlines dl) rest) by (rewrite <- ?app_assoc, ?app_length; reflexivity).
  cbn [bindo]. destruct (first_nl rest) as [Hn | (l & r & -> & Hl)].
  - rewrite (index_byte_nonl _ Hn). rewrite (feed_nonl _ _ _ Hn) in E. injection E as <- <- <-.
    exists pre. rewrite app_nil_r. repeat split. assumption.
  - rewrite (index_byte_line _ _ Hl). rewrite (feed_line l r dl [] Hl) in E. cbn [app] in E.
    rewrite app_length in Hfuel. cbn [length] in Hfuel.
    (* a line that joins the open segment: the loop goes on behind it *)
    assert (Hskip : close dl l = ([], dl ++ [l]) ->
      exists pre', pre ++ unlines dl ++ l ++ NL :: r = pre' ++ unlines dl' ++ p' /\ (dl' = [] -> pre' = []) /\
        pb_loop test fuel (pre ++ unlines dl ++ l ++ NL :: r) (length pre)
          (length l + (length pre + length (unlines dl)) + 1) out
        = Ok (length pre', length pre' + length (unlines dl'), out ++ o)).
    { intros Hc. rewrite Hc in E. destruct (feed (dl ++ [l]) [] r) as [[o2 dl2] p2] eqn:E2. injection E as <- <- <-.
      destruct (IH pre (dl ++ [l]) r out o2 dl2 p2) as (pre' & Heq & Hn' & Hrun);
        [intros H; destruct dl; discriminate | lia | exact E2 |].
      rewrite unlines_app, unlines_one, <- !app_assoc in Heq, Hrun. cbn [app] in Heq, Hrun.
      exists pre'. split; [exact Heq|]. split; [exact Hn'|]. rewrite <- Hrun. f_equal. rewrite !app_length. cbn [length]. lia. }
    destruct dl as [|d dl0]; [rewrite (Hpre eq_refl) in *; apply Hskip; reflexivity|].
    remember (d :: dl0) as dl eqn:Edl. assert (Hne : dl <> []) by (subst dl; discriminate). clear Edl.
    assert (Hpos : 0 < length (unlines dl)) by (rewrite unlines_open_length by assumption; lia).
    rewrite (close_open dl l Hne) in E, Hskip. destruct l as [|c l0]; cbn [is_start] in E, Hskip.
    + cbn [length Nat.add]. rewrite Nat.ltb_irrefl, andb_false_r. apply Hskip. reflexivity.
    + replace ((0 <? _) && _) with true by (cbn [length]; lia).
      rewrite (oslice_mid 2 _ (pre ++ unlines dl) (c :: l0) (NL :: r)) by (rewrite <- ?app_assoc, ?app_length; lia || reflexivity).
      cbn [bindo]. destruct (test (c :: l0)); [|apply Hskip; reflexivity].
      (* a record start: the open segment is delivered and left behind *)
      rewrite (oslice_mid 3 _ pre (join NL dl) (NL :: (c :: l0) ++ NL :: r));
        [| rewrite unlines_open by assumption; reflexivity | reflexivity
         | rewrite unlines_open_length by assumption; lia].
      cbn [bindo]. destruct (feed [_] [] r) as [[o2 dl2] p2] eqn:E2. injection E as <- <- <-.
      destruct (IH (pre ++ unlines dl) [c :: l0] r (out ++ [join NL dl]) o2 dl2 p2) as (pre' & Heq & Hn' & Hrun);
        [discriminate | cbn [length] in Hfuel; lia | exact E2 |].
      rewrite unlines_one, <- !app_assoc in Heq, Hrun. rewrite <- (app_assoc out) in Hrun. cbn [app] in Heq, Hrun.
      exists pre'. split; [exact Heq|]. split; [exact Hn'|]. rewrite <- Hrun. f_equal; cbn [length]; rewrite !app_length; cbn [length]; lia.
Qed.

Section Reader.
Variables cap limit : nat.

(* the reader's state as a function of the machine's: the buffer holds the complete lines of
   the open segment and the partial line, offsetSearch is where the partial line begins *)
Definition conc (dl : list bytes) (p : bytes) : mlr :=
  {| m_cap := cap; m_limit := limit; m_buf := unlines dl ++ p; m_search := length (unlines dl) |}.

Lemma process_buffer_abs : forall dl p new o dl' p',
  nonl p -> feed dl p new = (o, dl', p') ->
  length (unlines dl' ++ p') <= length (unlines dl ++ p) + length new /\
  process_buffer test (conc dl p) ((unlines dl ++ p) ++ new) =
    (r <-- check_overflow test (conc dl' p') ;; let '(st, o2) := r in Ok (st, o ++ o2)).
Proof.
  intros dl p new o dl' p' Hp E.
  assert (E' : feed dl [] (p ++ new) = (o, dl', p')) by (rewrite feed_app, (feed_nonl _ _ _ Hp); cbn [app]; rewrite E; reflexivity).
  destruct (pb_loop_spec (S (length (unlines dl ++ p ++ new))) [] dl (p ++ new) [] o dl' p' (fun _ => eq_refl))
    as (pre' & Heq & _ & Hrun); [rewrite !app_length; lia | exact E' |].
  cbn [app length Nat.add] in Heq, Hrun. split.
  { apply (f_equal (@length N)) in Heq. rewrite !app_length in *. lia. }
  unfold process_buffer. cbn [m_search conc]. rewrite <- app_assoc, Hrun, Heq. cbn [bindo].
  destruct pre' as [|c pre'']; [reflexivity|]. set (pre' := c :: pre'').
  rewrite (oslice_tail 4 _ pre' (unlines dl' ++ p')) by reflexivity.
  rewrite Nat.add_comm, Nat.add_sub. reflexivity.
Qed.

Lemma check_overflow_quiet : forall dl p,
  length (unlines dl ++ p) + limit <= cap -> check_overflow test (conc dl p) = Ok (conc dl p, []).
Proof.
  intros dl p H. unfold check_overflow. cbn [conc m_limit m_cap m_buf].
  destruct (Nat.leb_spec limit (cap - length (unlines dl ++ p))); [reflexivity|lia].
Qed.

(* never full: room for a record of the soft limit, or nothing buffered *)
Definition inv (dl : list bytes) (p : bytes) : Prop :=
  nonl p /\ length (unlines dl ++ p) <= cap /\
  (limit <= cap - length (unlines dl ++ p) \/ unlines dl ++ p = []).

Lemma inv_nil : inv [] [].
Proof. split; [exact nonl_nil|]. cbn. split; [lia|right; reflexivity]. Qed.

Lemma check_overflow_inv : forall dl p, nonl p -> length (unlines dl ++ p) <= cap ->
  exists dl' p' o, check_overflow test (conc dl p) = Ok (conc dl' p', o) /\ inv dl' p'.
Proof.
  intros dl p Hp Hlen. unfold check_overflow. cbn [conc m_limit m_cap m_buf m_search].
  destruct (Nat.leb_spec limit (cap - length (unlines dl ++ p))) as [Hq|_].
  - exists dl, p, []. split; [reflexivity|]. split; [assumption|]. split; [assumption|left; assumption].
  - (* every other path empties the buffer *)
    assert (Hreset : forall o, exists dl' p' o',
              @Ok (mlr * list bytes) (set_buf (conc dl p) [] 0, o) = Ok (conc dl' p', o') /\ inv dl' p')
      by (intros o; exists [], [], o; split; [reflexivity|exact inv_nil]).
    destruct (0 <? length (unlines dl)) eqn:E0; [|destruct (test _); apply Hreset].
    assert (Hne : dl <> []) by (intros ->; discriminate E0).
    rewrite (oslice_tail 5 _ (unlines dl) p) by reflexivity. cbn [bindo].
    destruct (test p); [|destruct (test _); apply Hreset].
    rewrite (oslice_head 6 _ (join NL dl) (NL :: p));
      [| apply unlines_open; assumption | rewrite unlines_open_length by assumption; lia].
    cbn [bindo]. destruct (test _); apply Hreset.
Qed.

Lemma read_once_abs : forall dl p frag n o dl' p',
  nonl p -> length (unlines dl ++ p) < cap -> frag <> [] ->
  n = Nat.min (length frag) (cap - length (unlines dl ++ p)) ->
  feed dl p (firstn n frag) = (o, dl', p') ->
  0 < n /\ length (unlines dl' ++ p') <= cap /\
  read_once test (conc dl p) frag =
    (r <-- check_overflow test (conc dl' p') ;; let '(st, o2) := r in Ok (st, o ++ o2, skipn n frag)).
Proof.
  intros dl p frag n o dl' p' Hp Hroom Hf Hn E.
  assert (H0 : 0 < n) by (destruct frag; [congruence|cbn [length] in Hn; lia]).
  destruct (process_buffer_abs dl p (firstn n frag) o dl' p' Hp E) as [Hlen Hrun].
  rewrite firstn_length in Hlen. split; [assumption|]. split; [lia|].
  unfold read_once. cbn [m_cap m_buf conc]. rewrite <- Hn, Hrun.
  replace (cap <? _) with false by lia. replace (0 <? n) with true by lia.
  destruct (check_overflow test (conc dl' p')) as [[st o2]| |]; reflexivity.
Qed.

Lemma flush_abs : forall dl p, nonl p ->
  flush test (conc dl p) = Ok (conc [] p, if is_start test (join NL dl) then [join NL dl] else []).
Proof.
  intros dl p Hp. unfold flush. cbn [conc m_buf]. destruct dl as [|d dl0].
  - cbn [unlines flat_map app]. rewrite (last_index_byte_nonl _ Hp). reflexivity.
  - set (dl := d :: dl0). rewrite (unlines_open dl p), (last_index_byte_app _ _ Hp) by discriminate.
    rewrite (oslice_head 7 _ (join NL dl) (NL :: p)) by reflexivity.
    rewrite (oslice_tail 8 _ (join NL dl ++ [NL]) p) by (rewrite <- ?app_assoc, ?app_length; reflexivity).
    cbn [bindo]. destruct (join NL dl); reflexivity.
Qed.

Lemma flush_all_abs : forall dl p, nonl p ->
  flush_all test (conc dl p) = Ok (conc [] [], close_last test (seg_state dl p)).
Proof.
  intros dl p Hp. unfold flush_all, oidx. cbn [conc m_buf].
  destruct p as [|c p0 _] using rev_ind.
  - rewrite app_nil_r. destruct dl as [|d dl0]; [reflexivity|]. set (dl := d :: dl0).
    rewrite (unlines_join dl), last_snoc by discriminate.
    replace (0 <? _) with true by (rewrite app_length; cbn [length]; lia).
    cbn [bindo]. rewrite N.eqb_refl.
    rewrite (oslice_head 10 _ (join NL dl) [NL]) by (rewrite ?app_length; cbn [length]; lia || reflexivity).
    reflexivity.
  - apply nonl_app in Hp. destruct Hp as [_ Hc]. apply nonl_cons in Hc.
    rewrite seg_state_partial by (destruct p0; discriminate). rewrite !app_assoc, last_snoc.
    replace (0 <? _) with true by (rewrite app_length; cbn [length]; lia).
    cbn [bindo]. rewrite eqb_NL_false by apply Hc. reflexivity.
Qed.

Hypothesis Hlimit : 1 <= limit.
Hypothesis Hcap : 1 <= cap.

Lemma inv_room : forall dl p, inv dl p -> length (unlines dl ++ p) < cap.
Proof. intros dl p (_ & _ & [H|H]); [lia|]. rewrite H. cbn [length]. lia. Qed.

Lemma inv_flush : forall dl p, inv dl p -> inv [] p.
Proof.
  intros dl p (Hp & Hlen & Hroom). split; [assumption|].
  cbn [unlines flat_map app]. rewrite app_length in *. split; [lia|].
  destruct Hroom as [H|H]; [left; lia|right; apply app_eq_nil in H; apply H].
Qed.

Lemma read_frag_inv : forall fuel frag dl p out, inv dl p -> length frag <= fuel ->
  exists dl' p' o, read_frag test fuel (conc dl p) frag out = Ok (conc dl' p', out ++ o) /\ inv dl' p'.
Proof.
  induction fuel as [|fuel IH]; intros [|c frag0] dl p out Hinv Hf;
    try (exists dl, p, []; rewrite app_nil_r; split; [reflexivity|assumption]).
  - cbn [length] in Hf. lia.
  - set (frag := c :: frag0) in *. set (n := Nat.min (length frag) (cap - length (unlines dl ++ p))).
    destruct (feed dl p (firstn n frag)) as [[o1 dl1] p1] eqn:E1.
    destruct (read_once_abs dl p frag n o1 dl1 p1 (proj1 Hinv) (inv_room _ _ Hinv) ltac:(discriminate) eq_refl E1)
      as (Hn & Hlen1 & Hrun).
    destruct (check_overflow_inv dl1 p1 (feed_partial_nonl _ _ _ _ _ _ (proj1 Hinv) E1) Hlen1) as (dl2 & p2 & o2 & Hc & Hinv2).
    destruct (IH (skipn n frag) dl2 p2 (out ++ o1 ++ o2) Hinv2) as (dl3 & p3 & o3 & Hrun3 & Hinv3).
    { rewrite skipn_length. lia. }
    exists dl3, p3, ((o1 ++ o2) ++ o3). cbn [read_frag]. rewrite Hrun, Hc. cbn [bindo].
    rewrite Hrun3, !app_assoc. split; [reflexivity|assumption].
Qed.

Lemma run_op_inv : forall dl p o, inv dl p ->
  exists dl' p' out, run_op test (conc dl p) o = Ok (conc dl' p', out) /\ inv dl' p'.
Proof.
  intros dl p [frag| |] Hinv; cbn [run_op].
  - exact (read_frag_inv (length frag) frag dl p [] Hinv (le_n _)).
  - rewrite flush_abs by apply Hinv. eexists [], p, _. split; [reflexivity|exact (inv_flush _ _ Hinv)].
  - rewrite flush_all_abs by apply Hinv. eexists [], [], _. split; [reflexivity|exact inv_nil].
Qed.

Lemma run_ops_inv : forall ops dl p out, inv dl p ->
  exists dl' p' o, run_ops test ops (conc dl p) out = Ok (conc dl' p', out ++ o) /\ inv dl' p'.
Proof.
  induction ops as [|op ops IH]; intros dl p out Hinv.
  - exists dl, p, []. rewrite app_nil_r. split; [reflexivity|assumption].
  - destruct (run_op_inv dl p op Hinv) as (dl1 & p1 & o1 & Hrun & Hinv1).
    destruct (IH dl1 p1 (out ++ o1) Hinv1) as (dl2 & p2 & o2 & Hrun2 & Hinv2).
    exists dl2, p2, (o1 ++ o2). cbn [run_ops]. rewrite Hrun. cbn [bindo]. rewrite Hrun2, app_assoc.
    split; [reflexivity|assumption].
Qed.

Lemma read_frag_quiet : forall fuel frag out dl p o dl' p',
  nonl p ->
  (forall f1 f2 o1 dl1 p1, frag = f1 ++ f2 -> feed dl p f1 = (o1, dl1, p1) ->
     length (unlines dl1 ++ p1) + limit <= cap) ->
  length frag <= fuel -> feed dl p frag = (o, dl', p') ->
  read_frag test fuel (conc dl p) frag out = Ok (conc dl' p', out ++ o).
Proof.
  clear Hcap. (* not needed, and lia would make the lemma depend on it *)
  induction fuel as [|fuel IH]; intros [|c frag0] out dl p o dl' p' Hp Hq Hf E;
    try (injection E as <- <- <-; rewrite app_nil_r; reflexivity).
  - cbn [length] in Hf. lia.
  - set (frag := c :: frag0) in *. set (n := Nat.min (length frag) (cap - length (unlines dl ++ p))).
    pose proof (Hq [] frag [] dl p eq_refl eq_refl) as H0.
    destruct (feed dl p (firstn n frag)) as [[o1 dl1] p1] eqn:E1.
    destruct (read_once_abs dl p frag n o1 dl1 p1 Hp ltac:(lia) ltac:(discriminate) eq_refl E1) as (Hn & _ & Hrun).
    destruct (feed dl1 p1 (skipn n frag)) as [[o2 dl2] p2] eqn:E2.
    rewrite <- (firstn_skipn n frag), feed_app, E1, E2 in E. injection E as <- <- <-.
    cbn [read_frag]. rewrite Hrun, check_overflow_quiet. cbn [bindo].
    + rewrite app_nil_r, (IH (skipn n frag) (out ++ o1) dl1 p1 o2 dl2 p2), app_assoc; trivial.
      * exact (feed_partial_nonl _ _ _ _ _ _ Hp E1).
      * intros f1 f2 o1' dl1' p1' Hsplit E'. apply (Hq (firstn n frag ++ f1) f2 (o1 ++ o1')).
        -- rewrite <- app_assoc, <- Hsplit. symmetry. apply firstn_skipn.
        -- rewrite feed_app, E1, E'. reflexivity.
      * rewrite skipn_length. lia.
    + apply (Hq (firstn n frag) (skipn n frag) o1); [symmetry; apply firstn_skipn|assumption].
Qed.

Lemma run_ops_spec_gen : forall ops carry out0 oc dl p b,
  flush_ok test ops -> 2 * b + 1 + limit <= cap ->
  feed [] [] carry = (oc, dl, p) -> bounded_ops test b carry ops ->
  exists st', run_ops test ops (conc dl p) (out0 ++ oc) = Ok (st', out0 ++ spec_ops test carry ops).
Proof.
  clear Hcap.
  induction ops as [|op ops IH]; intros carry out0 oc dl p b Hnil Hb E HB; cbn [run_ops spec_ops].
  - rewrite (closed_segments_feed _ _ _ _ E). eexists. reflexivity.
  - assert (Hnil' : flush_ok test ops) by (destruct Hnil as [H|H]; [left; assumption|right; inversion H; assumption]).
    pose proof (feed_partial_nonl _ _ _ _ _ _ nonl_nil E) as Hp.
    destruct op as [f| |]; cbn [run_op bounded_ops] in *.
    + destruct (bounded_ops_future _ _ _ HB) as [z Hz].
      destruct (feed dl p f) as [[o1 dl1] p1] eqn:E1.
      unfold read. rewrite (read_frag_quiet (length f) f [] dl p o1 dl1 p1 Hp); [|  | apply le_n | exact E1].
      * cbn [bindo app]. rewrite <- app_assoc. apply (IH (carry ++ f) out0 (oc ++ o1) dl1 p1 b); trivial.
        rewrite feed_app, E, E1. reflexivity.
      * intros f1 f2 o' dl' p' -> E'.
        enough (length (unlines dl' ++ p') <= 2 * b + 1) by lia.
        apply (prefix_state_bound (carry ++ f1) (f2 ++ z) b (oc ++ o')).
        -- rewrite <- app_assoc, (app_assoc f1), app_assoc. exact Hz.
        -- rewrite feed_app, E, E'. reflexivity.
    + assert (Hnil0 : test [] = false) by (destruct Hnil as [H|H]; [assumption|inversion H; congruence]).
      destruct (split_lines carry) as [ls t] eqn:Es. destruct (flush_feed carry oc dl p ls t E Es) as [-> ->].
      rewrite flush_abs, (flush_out dl Hnil0) by exact Hp. cbn [bindo].
      destruct (IH p ((out0 ++ oc) ++ close_last test (seg_state dl [])) [] [] p b) as [st' H]; trivial;
        [apply (feed_nonl p [] []), Hp | apply HB |].
      exists st'. rewrite app_nil_r in H. rewrite H, !app_assoc. reflexivity.
    + rewrite flush_all_abs, (frame_feed _ _ _ _ E) by exact Hp. cbn [bindo].
      destruct (IH [] ((out0 ++ oc) ++ close_last test (seg_state dl p)) [] [] [] b) as [st' H]; trivial; [apply HB|].
      exists st'. rewrite app_nil_r in H. rewrite H, !app_assoc. reflexivity.
Qed.

End Reader.
End Machine.

Lemma new_mlr_cap : forall min_buf limit, m_cap (new_mlr min_buf limit) = Nat.max min_buf (limit * 3).
Proof. reflexivity. Qed.

Lemma script_lemma : forall test min_buf limit b ops,
  flush_ok test ops -> 1 <= limit -> 2 * b + 1 + limit <= Nat.max min_buf (limit * 3) ->
  bounded_ops test b [] ops ->
  exists st', run_ops test ops (new_mlr min_buf limit) [] = Ok (st', spec_ops test [] ops).
Proof.
  intros test min_buf limit b ops Hf Hl Hc HB.
  exact (run_ops_spec_gen test (Nat.max min_buf (limit * 3)) limit Hl ops [] [] [] [] [] b Hf Hc eq_refl HB).
Qed.

Lemma total_lemma : forall test min_buf limit ops,
  1 <= limit ->
  exists st' out, run_ops test ops (new_mlr min_buf limit) [] = Ok (st', out) /\
    length (m_buf st') <= m_cap st' /\
    (m_limit st' <= m_cap st' - length (m_buf st') \/ m_buf st' = []) /\
    m_cap st' = Nat.max min_buf (limit * 3) /\ m_limit st' = limit.
Proof.
  intros test min_buf limit ops Hl.
  destruct (run_ops_inv test (Nat.max min_buf (limit * 3)) limit Hl ltac:(lia) ops [] [] [] (inv_nil _ _))
    as (dl & p & o & Hrun & _ & Hlen & Hroom).
  eexists _, o. split; [exact Hrun|]. cbn [m_buf m_cap m_limit conc]. auto.
Qed.

Lemma run_ops_tr_lemma : forall test ops st out tr,
  forget_trace (run_ops_tr test ops st out tr) = run_ops test ops st out.
Proof.
  induction ops as [|o ops IH]; intros st out tr; [reflexivity|].
  cbn [run_ops_tr run_ops]. destruct (run_op test st o) as [[st' o']| |]; cbn [bindo]; [apply IH|reflexivity|reflexivity].
Qed.

Lemma reads_Forall : forall (P : op -> Prop) fs, (forall f, P (OpRead f)) -> Forall P (map OpRead fs).
Proof. intros P fs H. induction fs; constructor; auto. Qed.

Lemma ops_text_app : forall a b, ops_text (a ++ b) = ops_text a ++ ops_text b.
Proof.
  induction a as [|[f| |] a IH]; intros b; cbn [app ops_text]; [reflexivity| |apply IH|apply IH].
  rewrite IH, app_assoc. reflexivity.
Qed.

Lemma ops_text_reads : forall fs, ops_text (map OpRead fs) = concat fs.
Proof. induction fs as [|f fs IH]; [reflexivity|]. cbn [map ops_text concat]. rewrite IH. reflexivity. Qed.

Lemma spec_ops_reads : forall test fs carry rest,
  spec_ops test carry (map OpRead fs ++ rest) = spec_ops test (carry ++ concat fs) rest.
Proof.
  induction fs as [|f fs IH]; intros carry rest; cbn [map app concat spec_ops].
  - rewrite app_nil_r. reflexivity.
  - rewrite IH, <- app_assoc. reflexivity.
Qed.

Lemma bounded_ops_of_stream : forall test b ops pre carry,
  no_flush_all ops -> ends_NL pre -> seg_bound test b (pre ++ carry ++ ops_text ops) ->
  bounded_ops test b carry (ops ++ [OpFlushAll]).
Proof.
  induction ops as [|[f| |] ops IH]; intros pre carry Hn He H; cbn [app bounded_ops ops_text] in *.
  - rewrite app_nil_r in H. split.
    + exists []. rewrite app_nil_r. eapply seg_bound_drop_prefix; eassumption.
    + exists []. constructor.
  - inversion Hn; subst. apply (IH pre); [assumption|assumption|]. rewrite <- app_assoc. assumption.
  - inversion Hn; subst. split.
    + exists (ops_text ops). eapply seg_bound_drop_prefix; eassumption.
    + destruct (split_lines carry) as [ls t] eqn:Es. destruct (split_lines_decomp _ _ _ Es) as (Hc & _ & _).
      cbn [snd]. apply (IH (pre ++ unlines ls)); [assumption|apply ends_NL_app; [assumption|apply ends_NL_unlines]|].
      rewrite Hc in H. rewrite <- !app_assoc in *. assumption.
  - inversion Hn; subst. congruence.
Qed.

Lemma script_stream_gen : forall test min_buf limit b ops,
  flush_ok test (ops ++ [OpFlushAll]) -> 1 <= limit -> 2 * b + 1 + limit <= Nat.max min_buf (limit * 3) ->
  no_flush_all ops -> seg_bound test b (ops_text ops) ->
  exists st', run_ops test (ops ++ [OpFlushAll]) (new_mlr min_buf limit) [] =
              Ok (st', spec_ops test [] (ops ++ [OpFlushAll])).
Proof.
  intros test min_buf limit b ops Hf Hl Hc Hn HB. apply (script_lemma test min_buf limit b); trivial.
  apply (bounded_ops_of_stream test b ops [] []); trivial. left. reflexivity.
Qed.

Lemma script_stream_lemma : forall test min_buf limit b ops,
  test [] = false -> 1 <= limit -> 2 * b + 1 + limit <= Nat.max min_buf (limit * 3) ->
  no_flush_all ops -> seg_bound test b (ops_text ops) ->
  exists st', run_ops test (ops ++ [OpFlushAll]) (new_mlr min_buf limit) [] =
              Ok (st', spec_ops test [] (ops ++ [OpFlushAll])).
Proof. intros test min_buf limit b ops Hnil. apply script_stream_gen. left. assumption. Qed.

Lemma frag_independent_lemma : forall test min_buf limit b fs,
  1 <= limit -> 2 * b + 1 + limit <= Nat.max min_buf (limit * 3) ->
  seg_bound test b (concat fs) ->
  exists st', run_ops test (map OpRead fs ++ [OpFlushAll]) (new_mlr min_buf limit) [] =
              Ok (st', frame test (concat fs)).
Proof.
  intros test min_buf limit b fs Hl Hc HB.
  destruct (script_stream_gen test min_buf limit b (map OpRead fs)) as [st' H]; trivial.
  - right. apply Forall_app. split; [apply reads_Forall; discriminate|repeat constructor; discriminate].
  - apply reads_Forall. discriminate.
  - rewrite ops_text_reads. assumption.
  - exists st'. rewrite H, spec_ops_reads. cbn [app spec_ops]. f_equal. f_equal. apply app_nil_r.
Qed.

Lemma frag_pair_lemma : forall test min_buf limit b fs1 fs2,
  1 <= limit -> 2 * b + 1 + limit <= Nat.max min_buf (limit * 3) ->
  concat fs1 = concat fs2 -> seg_bound test b (concat fs1) ->
  exists st1 st2 out,
    run_ops test (map OpRead fs1 ++ [OpFlushAll]) (new_mlr min_buf limit) [] = Ok (st1, out) /\
    run_ops test (map OpRead fs2 ++ [OpFlushAll]) (new_mlr min_buf limit) [] = Ok (st2, out).
Proof.
  intros test min_buf limit b fs1 fs2 Hl Hc Heq HB.
  destruct (frag_independent_lemma test min_buf limit b fs1 Hl Hc HB) as (st1 & H1).
  rewrite Heq in HB. destruct (frag_independent_lemma test min_buf limit b fs2 Hl Hc HB) as (st2 & H2).
  exists st1, st2, (frame test (concat fs1)). split; [assumption|]. rewrite Heq. assumption.
Qed.

Lemma conn_ops_data : forall fs, conn_ops (map (fun f => EvData f false) fs) = map OpRead fs ++ [OpFlushAll].
Proof. induction fs as [|f fs IH]; [reflexivity|]. cbn [map conn_ops app]. rewrite IH. reflexivity. Qed.

Lemma conn_frag_independent_lemma : forall test min_buf limit b fs,
  1 <= limit -> 2 * b + 1 + limit <= Nat.max min_buf (limit * 3) ->
  seg_bound test b (concat fs) ->
  exists st', run_ops test (conn_ops (map (fun f => EvData f false) fs)) (new_mlr min_buf limit) [] =
              Ok (st', frame test (concat fs)).
Proof. intros. rewrite conn_ops_data. eapply frag_independent_lemma; eassumption. Qed.

Lemma conn_ops_shape : forall evs, exists ops, conn_ops evs = ops ++ [OpFlushAll] /\ no_flush_all ops.
Proof.
  induction evs as [|[f r| |] evs (ops & IH & Hn)].
  - exists []. split; [reflexivity|constructor].
  - cbn [conn_ops]. rewrite IH. destruct r.
    + exists (OpRead f :: OpFlush :: ops). split; [reflexivity|]. repeat constructor; try discriminate. assumption.
    + exists (OpRead f :: ops). split; [reflexivity|]. constructor; [discriminate|assumption].
  - cbn [conn_ops]. rewrite IH. exists (OpFlush :: ops). split; [reflexivity|]. constructor; [discriminate|assumption].
  - exists []. split; [reflexivity|constructor].
Qed.

Lemma conn_characterisation_lemma : forall test min_buf limit b evs,
  test [] = false -> 1 <= limit -> 2 * b + 1 + limit <= Nat.max min_buf (limit * 3) ->
  seg_bound test b (ops_text (conn_ops evs)) ->
  exists st', run_ops test (conn_ops evs) (new_mlr min_buf limit) [] =
              Ok (st', spec_ops test [] (conn_ops evs)).
Proof.
  intros test min_buf limit b evs Hnil Hl Hc HB.
  destruct (conn_ops_shape evs) as (ops & Heq & Hn). rewrite Heq in *.
  rewrite ops_text_app, app_nil_r in HB. apply (script_stream_lemma test min_buf limit b); assumption.
Qed.

Lemma valid_lines_nonl : forall test b ls, Forall (valid_line test b) ls -> Forall nonl ls.
Proof. intros test b ls H. eapply Forall_impl; [|exact H]. intros l (_ & Hn & _). exact Hn. Qed.

Lemma group_valid_lines : forall test b ls x, Forall (valid_line test b) ls -> group test [x] ls [] = x :: ls.
Proof.
  induction ls as [|l ls IH]; intros x H; [reflexivity|].
  inversion H as [|? ? (Hne & _ & Ht & _) Hls]; subst. cbn [group].
  assert (Hs : is_start test l = true) by (unfold is_start; destruct l; [congruence|assumption]).
  rewrite Hs, IH by assumption. reflexivity.
Qed.

Lemma segments_valid_lines : forall test b ls, Forall (valid_line test b) ls -> segments test (unlines ls) = ls.
Proof.
  intros test b ls H. unfold segments. rewrite split_lines_unlines by (eapply valid_lines_nonl; eassumption).
  destruct ls as [|l ls]; [reflexivity|]. inversion H; subst. eapply group_valid_lines; eassumption.
Qed.

Lemma frame_valid_lines : forall test b ls, Forall (valid_line test b) ls -> frame test (unlines ls) = ls.
Proof.
  intros test b ls H. unfold frame. rewrite (segments_valid_lines test b ls H).
  induction H as [|l ls (_ & _ & Ht & _) Hls IH]; [reflexivity|]. destruct ls as [|l2 ls].
  - cbn. rewrite Ht. reflexivity.
  - change (close_last test (l :: l2 :: ls)) with (l :: close_last test (l2 :: ls)). rewrite IH. reflexivity.
Qed.

Lemma seg_bound_valid_lines : forall test b ls, Forall (valid_line test b) ls -> seg_bound test b (unlines ls).
Proof.
  intros test b ls H. unfold seg_bound. rewrite (segments_valid_lines test b ls H).
  eapply Forall_impl; [|exact H]. intros l (_ & _ & _ & Hl). exact Hl.
Qed.

(* every cut falls between two records, and each piece is framed into its lines *)
Lemma spec_valid_lines : forall test b ops carry,
  no_flush_all ops -> Forall (valid_line test b) (fst (split_lines (carry ++ ops_text ops))) ->
  snd (split_lines (carry ++ ops_text ops)) = [] ->
  spec_ops test carry (ops ++ [OpFlushAll]) = fst (split_lines (carry ++ ops_text ops)).
Proof.
  induction ops as [|[f| |] ops IH]; intros carry Hn Hv Ht; inversion Hn; subst; cbn [app spec_ops ops_text] in *.
  - rewrite (app_nil_r carry) in *. destruct (split_lines carry) as [ls t] eqn:Es. cbn [fst snd] in *. subst t.
    destruct (split_lines_decomp _ _ _ Es) as (-> & _). rewrite !app_nil_r. apply (frame_valid_lines test b), Hv.
  - rewrite app_assoc in *. apply IH; assumption.
  - destruct (split_lines carry) as [la t] eqn:Es. destruct (split_lines_decomp _ _ _ Es) as (-> & Hla & _).
    rewrite <- app_assoc, split_lines_unlines_app in * by assumption. cbn [fst snd] in *.
    apply Forall_app in Hv. rewrite (frame_valid_lines test b la), IH by tauto. reflexivity.
  - congruence.
Qed.

Lemma single_line_lemma : forall test min_buf limit b ls ops,
  test [] = false -> 1 <= limit -> 2 * b + 1 + limit <= Nat.max min_buf (limit * 3) ->
  Forall (valid_line test b) ls -> no_flush_all ops -> ops_text ops = unlines ls ->
  exists st', run_ops test (ops ++ [OpFlushAll]) (new_mlr min_buf limit) [] = Ok (st', ls).
Proof.
  intros test min_buf limit b ls ops Hnil Hl Hc Hv Hnf Htext.
  pose proof (split_lines_unlines ls (valid_lines_nonl test b ls Hv)) as Hs.
  destruct (script_stream_lemma test min_buf limit b ops) as [st' H]; trivial.
  - rewrite Htext. apply seg_bound_valid_lines. assumption.
  - exists st'. rewrite H, (spec_valid_lines test b); cbn [app]; rewrite ?Htext, ?Hs; trivial.
Qed.

Lemma conn_single_line_lemma : forall test min_buf limit b ls evs,
  test [] = false -> 1 <= limit -> 2 * b + 1 + limit <= Nat.max min_buf (limit * 3) ->
  Forall (valid_line test b) ls -> ops_text (conn_ops evs) = unlines ls ->
  exists st', run_ops test (conn_ops evs) (new_mlr min_buf limit) [] = Ok (st', ls).
Proof.
  intros test min_buf limit b ls evs Hnil Hl Hc Hv Ht.
  destruct (conn_ops_shape evs) as (ops & Heq & Hn). rewrite Heq in *.
  rewrite ops_text_app, app_nil_r in Ht. apply (single_line_lemma test min_buf limit b); assumption.
Qed.

Lemma segments_has_record : forall test x l c y,
  ends_NL x -> nonl l -> is_start test l = true -> nonl c -> is_start test c = false ->
  exists more, In (l ++ NL :: c ++ more) (segments test (x ++ l ++ NL :: c ++ NL :: y)).
Proof.
  intros test x l c y Hx Hl Hsl Hc Hsc.
  destruct (feed test [] [] x) as [[ox dlx] px] eqn:Ex. pose proof (feed_ends_NL test _ _ _ _ _ Hx Ex). subst px.
  destruct (open_segment_prefix test y []) as (more & rest & Hf). specialize (Hf [l; c] ltac:(discriminate)).
  unfold future_segs in Hf. destruct (feed test [l; c] [] y) as [[o3 dl3] p3] eqn:E3.
  assert (Eall : exists o1, feed test [] [] (x ++ l ++ NL :: c ++ NL :: y) = (ox ++ o1 ++ o3, dl3, p3)).
  { rewrite feed_app, Ex, (feed_line test l _ dlx [] Hl). cbn [app].
    assert (Hcl : exists o1, close test dlx l = (o1, [l])).
    { unfold close. destruct dlx; [exists []; reflexivity|]. rewrite Hsl. eexists; reflexivity. }
    destruct Hcl as [o1 ->]. rewrite (feed_line test c _ [l] [] Hc). cbn [app close].
    rewrite Hsc, E3. exists o1. reflexivity. }
  destruct Eall as [o1 Eall]. rewrite (proj1 (segments_feed test _ _ _ _ Eall)).
  exists more. rewrite <- !app_assoc, Hf. apply in_or_app. right. apply in_or_app. right.
  left. cbn [join]. rewrite <- app_assoc. reflexivity.
Qed.

(* reads and flushes while the start line is still arriving: the text then carried begins at
   the start of the stream or behind a cut, and ends with what has arrived of the line *)
Lemma spec_ops_before : forall test ops1 carry x l1 rest,
  no_flush_all ops1 -> carry ++ ops_text ops1 = x ++ l1 -> ends_NL x -> nonl l1 ->
  exists out x', ends_NL x' /\ spec_ops test carry (ops1 ++ rest) = out ++ spec_ops test (x' ++ l1) rest.
Proof.
  induction ops1 as [|[f| |] ops1 IH]; intros carry x l1 rest Hn Ht Hx Hl; inversion Hn; subst;
    cbn [app spec_ops ops_text] in *.
  - rewrite app_nil_r in Ht. subst carry. exists [], x. auto.
  - apply (IH (carry ++ f) x); trivial. rewrite <- app_assoc. assumption.
  - destruct (split_lines carry) as [ls t] eqn:Es. destruct (split_lines_decomp _ _ _ Es) as (-> & _ & _).
    rewrite <- app_assoc in Ht.
    destruct (ends_NL_prefix_split (unlines ls) (t ++ ops_text ops1) x l1 Ht (ends_NL_unlines ls) Hl) as (x1 & -> & Ht1).
    destruct (IH t x1 l1 rest) as (out & x' & Hx' & ->); trivial; [apply (ends_NL_suffix (unlines ls)), Hx|].
    exists (frame test (unlines ls) ++ out), x'. rewrite app_assoc. auto.
  - congruence.
Qed.

Ltac lnorm := repeat (first [rewrite <- app_assoc | progress (cbn [app])]); try reflexivity.

Section Attach.
Variable test : bytes -> bool.
Hypothesis test_head : forall a z, test a = true -> test (a ++ z) = true.

Lemma frame_has_record : forall x l c y,
  ends_NL x -> nonl l -> is_start test l = true -> nonl c -> is_start test c = false ->
  exists more, In (l ++ NL :: c ++ more) (frame test (x ++ l ++ NL :: c ++ NL :: y)).
Proof.
  intros x l c y Hx Hl Hsl Hc Hsc.
  destruct (segments_has_record test x l c y Hx Hl Hsl Hc Hsc) as (more & Hin).
  exists more. unfold frame. destruct (close_last_split test (segments test (x ++ l ++ NL :: c ++ NL :: y))) as (d & Hd & E).
  rewrite <- E in Hin. apply in_app_or in Hin. destruct Hin as [Hin|Hin]; [assumption|exfalso].
  destruct Hd as [->|(r & -> & Hr)]; [destruct Hin|]. destruct Hin as [->|[]].
  rewrite test_head in Hr; [discriminate|]. destruct l; [discriminate|exact Hsl].
Qed.

(* carried text up to a newline is framed with what follows it up to the next cut (or the close) *)
Lemma spec_ops_cut : forall ops a y, ends_NL a ->
  exists y' rest, spec_ops test (a ++ y) (ops ++ [OpFlushAll]) = frame test (a ++ y') ++ rest.
Proof.
  induction ops as [|[f| |] ops IH]; intros a y Ha; cbn [app spec_ops]; [eexists _, _; reflexivity| | |eexists _, _; reflexivity].
  - rewrite <- app_assoc. apply IH, Ha.
  - destruct (split_lines (a ++ y)) as [ls t] eqn:Es. destruct (split_lines_decomp _ _ _ Es) as (Hd & _ & Ht).
    destruct (ends_NL_prefix_split a y (unlines ls) t Hd Ha Ht) as (y' & -> & _). eexists _, _; reflexivity.
Qed.

Lemma continuation_flushes_spec : forall ops1 fs ops2 x l1 l2 c z,
  no_flush_all ops1 -> ops_text ops1 = x ++ l1 -> ends_NL x ->
  concat fs = l2 ++ NL :: c ++ NL :: z ->
  nonl (l1 ++ l2) -> is_start test (l1 ++ l2) = true -> nonl c -> is_start test c = false ->
  exists more, In ((l1 ++ l2) ++ NL :: c ++ more)
                  (spec_ops test [] (ops1 ++ map OpRead fs ++ ops2 ++ [OpFlushAll])).
Proof.
  intros ops1 fs ops2 x l1 l2 c z Hn Ht Hx Hfs Hl Hsl Hc Hsc.
  assert (Hl1 : nonl l1) by (apply nonl_app in Hl; tauto).
  destruct (spec_ops_before test ops1 [] x l1 (map OpRead fs ++ ops2 ++ [OpFlushAll]) Hn Ht Hx Hl1) as (out & x' & Hx'e & ->).
  rewrite spec_ops_reads, Hfs.
  replace ((x' ++ l1) ++ l2 ++ NL :: c ++ NL :: z) with ((x' ++ (l1 ++ l2) ++ NL :: c ++ [NL]) ++ z) by lnorm.
  destruct (spec_ops_cut ops2 (x' ++ (l1 ++ l2) ++ NL :: c ++ [NL]) z) as (y' & rest & ->).
  { right. exists (x' ++ (l1 ++ l2) ++ NL :: c). lnorm. }
  destruct (frame_has_record x' (l1 ++ l2) c y' Hx'e Hl Hsl Hc Hsc) as (more & Hin).
  exists more. apply in_or_app. right. apply in_or_app. left.
  replace ((x' ++ (l1 ++ l2) ++ NL :: c ++ [NL]) ++ y') with (x' ++ (l1 ++ l2) ++ NL :: c ++ NL :: y') by lnorm.
  exact Hin.
Qed.
End Attach.

Lemma continuation_attached_lemma : forall test min_buf limit b fs x l c y,
  1 <= limit -> 2 * b + 1 + limit <= Nat.max min_buf (limit * 3) ->
  (forall a z, test a = true -> test (a ++ z) = true) ->
  concat fs = x ++ l ++ NL :: c ++ NL :: y ->
  seg_bound test b (concat fs) ->
  (x = [] \/ exists x', x = x' ++ [NL]) ->
  nonl l -> is_start test l = true -> nonl c -> is_start test c = false ->
  exists st' out more,
    run_ops test (map OpRead fs ++ [OpFlushAll]) (new_mlr min_buf limit) [] = Ok (st', out) /\
    In (l ++ NL :: c ++ more) out.
Proof.
  intros test min_buf limit b fs x l c y Hlim Hcap Hpre Hs HB Hx Hl Hsl Hc Hsc.
  destruct (frag_independent_lemma test min_buf limit b fs Hlim Hcap HB) as (st' & Hrun).
  destruct (frame_has_record test Hpre x l c y Hx Hl Hsl Hc Hsc) as (more & Hin).
  exists st', (frame test (concat fs)), more. split; [assumption|]. rewrite Hs. assumption.
Qed.

Lemma continuation_flushes_stream_lemma : forall test min_buf limit b ops1 fs ops2 x l1 l2 c z,
  test [] = false -> (forall a y, test a = true -> test (a ++ y) = true) ->
  1 <= limit -> 2 * b + 1 + limit <= Nat.max min_buf (limit * 3) ->
  no_flush_all ops1 -> no_flush_all ops2 ->
  seg_bound test b (ops_text (ops1 ++ map OpRead fs ++ ops2)) ->
  ops_text ops1 = x ++ l1 -> (x = [] \/ exists x', x = x' ++ [NL]) ->
  concat fs = l2 ++ NL :: c ++ NL :: z ->
  nonl (l1 ++ l2) -> is_start test (l1 ++ l2) = true -> nonl c -> is_start test c = false ->
  exists st' out more,
    run_ops test (ops1 ++ map OpRead fs ++ ops2 ++ [OpFlushAll]) (new_mlr min_buf limit) [] = Ok (st', out) /\
    In ((l1 ++ l2) ++ NL :: c ++ more) out.
Proof.
  intros test min_buf limit b ops1 fs ops2 x l1 l2 c z Hnil Hhead Hlim Hcap Hn1 Hn2 HB Ht Hx Hfs Hl Hsl Hc Hsc.
  destruct (script_stream_lemma test min_buf limit b (ops1 ++ map OpRead fs ++ ops2)) as [st' H]; trivial.
  { apply Forall_app. split; [assumption|]. apply Forall_app. split; [apply reads_Forall; discriminate|assumption]. }
  rewrite <- !app_assoc in H.
  destruct (continuation_flushes_spec test Hhead ops1 fs ops2 x l1 l2 c z Hn1 Ht Hx Hfs Hl Hsl Hc Hsc) as (more & Hin).
  eexists st', _, more. split; [exact H|exact Hin].
Qed.

Lemma ops_text_script_of : forall fss, ops_text (script_of fss) = concat (map (@concat N) fss).
Proof.
  induction fss as [|fs fss IH]; [reflexivity|].
  unfold script_of in *. cbn [flat_map map concat]. rewrite !ops_text_app, ops_text_reads, IH. cbn [ops_text].
  rewrite app_nil_r. reflexivity.
Qed.

Lemma no_flush_all_script_of : forall fss rest, no_flush_all rest -> no_flush_all (script_of fss ++ rest).
Proof.
  intros fss rest H. induction fss as [|fs fss IH]; [assumption|].
  unfold script_of in *. cbn [flat_map]. rewrite <- !app_assoc.
  apply Forall_app. split; [apply reads_Forall; discriminate|]. constructor; [discriminate|exact IH].
Qed.

Lemma spec_ops_script_of : forall test fss1 fss2 rest1 rest2 carry,
  map (@concat N) fss1 = map (@concat N) fss2 ->
  (forall carry', spec_ops test carry' rest1 = spec_ops test carry' rest2) ->
  spec_ops test carry (script_of fss1 ++ rest1) = spec_ops test carry (script_of fss2 ++ rest2).
Proof.
  induction fss1 as [|fs1 fss1 IH]; intros fss2 rest1 rest2 carry H Hr; destruct fss2 as [|fs2 fss2]; try discriminate; [apply Hr|].
  cbn [map] in H. injection H as Hc Ht. unfold script_of in *. cbn [flat_map].
  rewrite <- !app_assoc, !spec_ops_reads, Hc. cbn [app spec_ops].
  destruct (split_lines (carry ++ concat fs2)) as [ls t]. f_equal. apply IH; assumption.
Qed.

Lemma frag_independent_ticks_lemma : forall test min_buf limit b fss1 fss2 last1 last2,
  test [] = false -> 1 <= limit -> 2 * b + 1 + limit <= Nat.max min_buf (limit * 3) ->
  map (@concat N) fss1 = map (@concat N) fss2 -> concat last1 = concat last2 ->
  seg_bound test b (concat (map (@concat N) fss1) ++ concat last1) ->
  exists st1 st2 out,
    run_ops test (script_of fss1 ++ map OpRead last1 ++ [OpFlushAll]) (new_mlr min_buf limit) [] = Ok (st1, out) /\
    run_ops test (script_of fss2 ++ map OpRead last2 ++ [OpFlushAll]) (new_mlr min_buf limit) [] = Ok (st2, out).
Proof.
  intros test min_buf limit b fss1 fss2 last1 last2 Hnil Hl Hc Hf Hlast HB.
  assert (Hrun : forall fss last, map (@concat N) fss = map (@concat N) fss1 -> concat last = concat last1 ->
            exists st, run_ops test (script_of fss ++ map OpRead last ++ [OpFlushAll]) (new_mlr min_buf limit) [] =
                       Ok (st, spec_ops test [] (script_of fss ++ map OpRead last ++ [OpFlushAll]))).
  { intros fss last Ef El. rewrite app_assoc. apply (script_stream_lemma test min_buf limit b); trivial.
    - apply no_flush_all_script_of, reads_Forall. discriminate.
    - rewrite ops_text_app, ops_text_script_of, ops_text_reads, Ef, El. exact HB. }
  destruct (Hrun fss1 last1 eq_refl eq_refl) as [st1 H1].
  destruct (Hrun fss2 last2 (eq_sym Hf) (eq_sym Hlast)) as [st2 H2].
  exists st1, st2, (spec_ops test [] (script_of fss1 ++ map OpRead last1 ++ [OpFlushAll])).
  split; [exact H1|]. rewrite H2. f_equal. f_equal. apply spec_ops_script_of; [symmetry; assumption|].
  intros carry. rewrite !spec_ops_reads, Hlast. reflexivity.
Qed.

Lemma digit_not_gt : forall c, is_digit c = true -> N.eqb c 62 = false.
Proof. intros c H. unfold is_digit in H. lia. Qed.

Lemma trs_short : forall s, length s < 32 -> test_record_start s = Ok false.
Proof. intros s H. unfold test_record_start. apply Nat.ltb_lt in H. rewrite H. reflexivity. Qed.

Ltac trs_cases :=
  repeat match goal with
         | |- context [if ?b then _ else _] => let E := fresh "E" in destruct b eqn:E; cbn [negb bindo]
         end.

Lemma trs_total_lemma : forall s, exists b, test_record_start s = Ok b.
Proof.
  intros s. destruct (Nat.ltb (length s) 32) eqn:El.
  - exists false. apply trs_short. apply Nat.ltb_lt. assumption.
  - unfold test_record_start. rewrite El.
    destruct s as [|c0 [|c1 [|c2 [|c3 [|c4 [|c5 [|c6 rest]]]]]]]; try (cbn in El; discriminate El).
    cbn [oidx nth_error bindo trs_loop trs_tail Nat.add]. trs_cases; eexists; reflexivity.
Qed.

Lemma trs_shape_lemma : forall s, test_record_start s = Ok true <-> start_shape s.
Proof.
  intros s. split.
  - intros H. destruct (Nat.ltb (length s) 32) eqn:El.
    + rewrite trs_short in H by (apply Nat.ltb_lt; assumption). discriminate.
    + assert (H32 : 32 <= length s) by (apply Nat.ltb_ge; assumption).
      unfold test_record_start in H. rewrite El in H.
      destruct s as [|c0 [|c1 [|c2 [|c3 [|c4 [|c5 [|c6 rest]]]]]]]; try (cbn in El; discriminate El).
      split; [assumption|]. revert H.
      cbn [oidx nth_error bindo trs_loop trs_tail Nat.add]. trs_cases; intros H; try discriminate H;
        injection H as H;
        rewrite ?negb_false_iff, ?negb_true_iff in *;
        repeat match goal with E : N.eqb _ _ = true |- _ => apply N.eqb_eq in E; subst end.
      all: [> exists [c1], (c5 :: c6 :: rest) | exists [c1; c2], (c6 :: rest) | exists [c1; c2; c3], rest];
        (split; [reflexivity|]; split; [cbn; lia|]; repeat constructor; assumption).
  - intros (H32 & ds & rest & -> & Hlen & Hd). unfold test_record_start.
    destruct (Nat.ltb_spec (length (60%N :: ds ++ 62%N :: 49%N :: 32%N :: rest)) 32) as [Hs|_]; [lia|].
    destruct ds as [|d1 [|d2 [|d3 [|d4 ds]]]]; cbn [length] in Hlen; try lia;
      repeat (apply Forall_cons_iff in Hd; destruct Hd as [? Hd]);
      cbn [app oidx nth_error bindo trs_loop trs_tail Nat.add N.eqb Pos.eqb negb];
      repeat match goal with H : is_digit _ = true |- _ => rewrite ?(digit_not_gt _ H), H; clear H end;
      reflexivity.
Qed.

Lemma trs_spec_lemma : forall s, trs s = true <-> start_shape s.
Proof.
  intros s. rewrite <- trs_shape_lemma. unfold trs. destruct (trs_total_lemma s) as [b ->].
  split; [intros ->; reflexivity|intros H; injection H; trivial].
Qed.

Lemma trs_nil : trs [] = false.
Proof. reflexivity. Qed.

Lemma trs_prefix_lemma : forall a z, trs a = true -> trs (a ++ z) = true.
Proof.
  intros a z H. apply trs_spec_lemma in H. apply trs_spec_lemma.
  destruct H as (H32 & ds & rest & -> & Hlen & Hd). split.
  - rewrite app_length. lia.
  - exists ds, (rest ++ z). split; [|split; assumption].
    cbn [app]. rewrite <- app_assoc. reflexivity.
Qed.

Lemma gt_prefix_lemma : forall a z, gt_test a = true -> gt_test (a ++ z) = true.
Proof. intros [|c a] z H; [discriminate|exact H]. Qed.

Lemma seg_bound_dec : forall test b s,
  forallb (fun r => length r <=? b) (segments test s) = true -> seg_bound test b s.
Proof.
  intros test b s H. unfold seg_bound. apply Forall_forall. intros r Hr.
  rewrite forallb_forall in H. apply Nat.leb_le. apply H. assumption.
Qed.

Lemma nonl_dec : forall l, forallb (fun c => negb (N.eqb c NL)) l = true -> nonl l.
Proof.
  intros l H Hin. rewrite forallb_forall in H. specialize (H NL Hin). rewrite N.eqb_refl in H. discriminate.
Qed.

(* ">a" NL "b" NL ">c" NL with the '>' tester *)
Definition ex_f1 : bytes := [62;97;10]%N.
Definition ex_f2 : bytes := [98;10;62;99;10]%N.

Lemma flush_splits_lemma :
  exists min_buf limit b f1 f2,
    1 <= limit /\ 2 * b + 1 + limit <= Nat.max min_buf (limit * 3) /\ seg_bound gt_test b (f1 ++ f2) /\
    exists st out,
      run_ops gt_test [OpRead f1; OpFlush; OpRead f2; OpFlushAll] (new_mlr min_buf limit) [] = Ok (st, out) /\
      out <> frame gt_test (f1 ++ f2).
Proof.
  exists 32, 8, 8, ex_f1, ex_f2. split; [lia|]. split; [cbn; lia|]. split; [apply seg_bound_dec; reflexivity|].
  eexists _, _. split; [vm_compute; reflexivity|]. vm_compute. discriminate.
Qed.

(* with the smallest buffer the constructor allows (3 * limit) records of exactly [limit] bytes
   overflow: the bound 2*b+1+limit <= cap of the theorems cannot be dropped *)
Definition ex_g1 : bytes := [62;97;10;62;98]%N.
Definition ex_g2 : bytes := [10;62;99;10]%N.

Lemma cap3_boundary_lemma :
  exists min_buf limit fs,
    1 <= limit /\ Nat.max min_buf (limit * 3) = limit * 3 /\ seg_bound gt_test limit (concat fs) /\
    exists st out,
      run_ops gt_test (map OpRead fs ++ [OpFlushAll]) (new_mlr min_buf limit) [] = Ok (st, out) /\
      out <> frame gt_test (concat fs).
Proof.
  exists 0, 2, [ex_g1; ex_g2]. split; [lia|]. split; [reflexivity|]. split; [apply seg_bound_dec; reflexivity|].
  eexists _, _. split; [vm_compute; reflexivity|]. vm_compute. discriminate.
Qed.

Definition ex_big : bytes := [62;97;98;99;100;101;102;103;104;105;106;107;108;109;110;111;112;10;62;120;10]%N.

Lemma oversize_lemma :
  exists min_buf limit fs1 fs2,
    1 <= limit /\ concat fs1 = concat fs2 /\
    exists st1 out1 st2 out2,
      run_ops gt_test (map OpRead fs1 ++ [OpFlushAll]) (new_mlr min_buf limit) [] = Ok (st1, out1) /\
      run_ops gt_test (map OpRead fs2 ++ [OpFlushAll]) (new_mlr min_buf limit) [] = Ok (st2, out2) /\
      out1 <> out2.
Proof.
  exists 0, 2, [ex_big], [firstn 5 ex_big; skipn 5 ex_big]. split; [lia|]. split; [reflexivity|].
  eexists _, _, _, _. split; [vm_compute; reflexivity|]. split; [vm_compute; reflexivity|]. discriminate.
Qed.

(* the example: two syslog records, the first with a continuation line, production ratio 4:1 *)
Definition ex_r1 : bytes := [60;49;51;62;49;32;50;48;49;57;45;48;56;45;49;53;84;49;53;58;53;48;58;52;54;43;48;51;58;48;48;32;104;32;97;32;49;32;102;32;45;32;70;105;114;115;116]%N.
Definition ex_c1 : bytes := [32;32;83;101;99;111;110;100;32;108;105;110;101]%N.
Definition ex_r2 : bytes := [60;49;54;51;62;49;32;50;48;49;57;45;48;56;45;49;53;84;49;53;58;53;49;58;52;54;43;48;51;58;48;48;32;104;32;97;32;50;32;102;32;45;32;78;101;120;116]%N.
Definition ex_stream : bytes := ex_r1 ++ NL :: ex_c1 ++ NL :: ex_r2 ++ [NL].
(* cut inside the header, just before a newline, just after a newline, inside the relocated tail *)
Definition ex_frags : list bytes :=
  [firstn 3 ex_stream; firstn 44 (skipn 3 ex_stream); firstn 1 (skipn 47 ex_stream);
   firstn 20 (skipn 48 ex_stream); []; skipn 68 ex_stream].

Lemma example_lemma :
  concat ex_frags = ex_stream /\ seg_bound trs 64 ex_stream /\ 2 * 64 + 1 + 64 <= Nat.max 256 (64 * 3) /\
  frame trs ex_stream = [ex_r1 ++ NL :: ex_c1; ex_r2] /\
  exists st, run_ops trs (map OpRead ex_frags ++ [OpFlushAll]) (new_mlr 256 64) [] =
             Ok (st, [ex_r1 ++ NL :: ex_c1; ex_r2]).
Proof.
  split; [vm_compute; reflexivity|]. split; [apply seg_bound_dec; vm_compute; reflexivity|].
  split; [cbn; lia|]. split; [vm_compute; reflexivity|]. eexists. vm_compute. reflexivity.
Qed.

(* the hypotheses of the theorems with flushes are satisfiable: the example stream, a flush
   after the first three bytes (inside the first header), the two lines of the first record
   and the head of the second in three reads, a flush, the rest *)
Definition ex_ops1 : list op := [OpRead (firstn 3 ex_stream); OpFlush].
Definition ex_fs : list bytes := [firstn 20 (skipn 3 ex_stream); firstn 30 (skipn 23 ex_stream); firstn 18 (skipn 53 ex_stream)].
Definition ex_ops2 : list op := [OpFlush; OpRead (skipn 71 ex_stream)].

Lemma example_flush_lemma :
  trs [] = false /\ no_flush_all ex_ops1 /\ no_flush_all ex_ops2 /\
  seg_bound trs 64 (ops_text (ex_ops1 ++ map OpRead ex_fs ++ ex_ops2)) /\
  ops_text ex_ops1 = [] ++ firstn 3 ex_r1 /\
  concat ex_fs = skipn 3 ex_r1 ++ NL :: ex_c1 ++ NL :: firstn 9 ex_r2 /\
  nonl (firstn 3 ex_r1 ++ skipn 3 ex_r1) /\ is_start trs (firstn 3 ex_r1 ++ skipn 3 ex_r1) = true /\
  nonl ex_c1 /\ is_start trs ex_c1 = false /\
  exists st, run_ops trs (ex_ops1 ++ map OpRead ex_fs ++ ex_ops2 ++ [OpFlushAll]) (new_mlr 256 64) [] =
             Ok (st, [ex_r1 ++ NL :: ex_c1; ex_r2]).
Proof.
  split; [reflexivity|]. split; [repeat constructor; discriminate|]. split; [repeat constructor; discriminate|].
  split; [apply seg_bound_dec; vm_compute; reflexivity|]. split; [vm_compute; reflexivity|].
  split; [vm_compute; reflexivity|]. split; [apply nonl_dec; vm_compute; reflexivity|].
  split; [vm_compute; reflexivity|]. split; [apply nonl_dec; vm_compute; reflexivity|].
  split; [vm_compute; reflexivity|]. eexists. vm_compute. reflexivity.
Qed.

Open Scope Z_scope.

Lemma ncw_read_zero : forall d now, 0 < d ->
  ncw_read (wrap_net_conn d) now = ({| w_min := d; w_max := d * 2; w_deadline := Some (now + d * 2) |}, true).
Proof. intros d now H. unfold ncw_read, wrap_net_conn. cbn [w_min w_max w_deadline]. destruct (0 <? d) eqn:E; [reflexivity|lia]. Qed.

(* after a renewal at time t0 no Read within the next readTimeout renews the deadline again,
   so runConnection calls no Flush for a deadline update during that time *)
Lemma ncw_quiet_lemma : forall gaps w t0 now,
  0 < w_min w -> w_max w = w_min w * 2 -> w_deadline w = Some (t0 + w_max w) ->
  t0 <= now -> Forall (fun g => 0 <= g) gaps -> now + fold_right Z.add 0 gaps <= t0 + w_min w ->
  ncw_run w now gaps = map (fun _ => false) gaps.
Proof.
  induction gaps as [|g gaps IH]; intros w t0 now Hmin Hmax Hd Hnow Hg Hsum; [reflexivity|].
  inversion Hg as [|? ? Hg0 Hg']; subst. cbn [fold_right] in Hsum.
  assert (Hrest : 0 <= fold_right Z.add 0 gaps).
  { clear - Hg'. induction gaps as [|x gaps IHg]; [cbn; lia|]. inversion Hg'; subst. cbn [fold_right]. specialize (IHg H2). lia. }
  cbn [ncw_run map]. unfold ncw_read. rewrite Hd.
  destruct (0 <? w_min w) eqn:E0; [|lia].
  destruct (t0 + w_max w - (now + g) <? w_min w) eqn:E1; [lia|].
  f_equal. apply (IH w t0 (now + g)); try assumption; lia.
Qed.
Close Scope Z_scope.
