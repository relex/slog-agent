(* C17 - the property lemmas, in this order: what the invariant gives at once (no record goes to dead pipelines,
   buffered records sit in live sinks); conservation (nothing is lost or duplicated); a failed reload changes
   nothing but the failure counter; progress; then the runs: one that meets every hypothesis, and the witnesses
   of the two defects. *)
From SV Require Import Model.Common Model.Reload Spec.ReloadSpec Proofs.ReloadLists Proofs.ReloadInv.
From Coq Require Import Arith Lia Permutation.
Local Open Scope nat_scope.

Lemma invariant_lemma : forall (nthr maxn : nat) (evs : list event) (st : state),
  grun true (init nthr maxn) evs = Some st -> INV st.
Proof. intros nthr maxn evs st H. exact (grun_inv evs _ _ (inv_init nthr maxn) H). Qed.

Lemma no_dead_pipeline_lemma : forall nthr maxn evs st,
  grun true (init nthr maxn) evs = Some st -> log_ok (st_log st).
Proof. intros nthr maxn evs st H. exact (i_log _ (invariant_lemma _ _ _ _ H)). Qed.

Lemma inv_buffered_live : forall st s d,
  INV st -> sink_at st s = Some d -> ds_pending d <> [] -> live_tracked st s d.
Proof.
  intros st s d I Hd Hp. destruct (i_sink _ I _ _ Hd) as [H1 H2]. destruct (ds_closed d) eqn:Ec.
  - destruct (Hp (H1 eq_refl)).
  - destruct (H2 eq_refl) as (Eg & Hg & Ht). unfold live_tracked. rewrite Eg. auto.
Qed.

Lemma buffered_live_lemma : forall nthr maxn evs st s d,
  grun true (init nthr maxn) evs = Some st ->
  nth_error (st_sinks st) s = Some d -> ds_pending d <> [] -> live_tracked st s d.
Proof. intros nthr maxn evs st s d H. apply inv_buffered_live, (invariant_lemma _ _ _ _ H). Qed.

Definition cnt (r : rec) (l : list rec) : nat := count_occ N.eq_dec l r.

Lemma cnt_app : forall r l1 l2, cnt r (l1 ++ l2) = cnt r l1 + cnt r l2.
Proof. intros. apply count_occ_app. Qed.

Lemma cnt_nil : forall r, cnt r [] = 0.
Proof. reflexivity. Qed.

Lemma cnt_flat_map_upd : forall A (f : A -> list rec) r l t c c',
  nth_error l t = Some c ->
  cnt r (flat_map f (upd l t c')) + cnt r (f c) = cnt r (flat_map f l) + cnt r (f c').
Proof.
  intros A f r l t c c' H. rewrite <- !cnt_app. apply Permutation_count_occ, flat_map_upd_perm, H.
Qed.

(* where a record can be: delivered or buffered in a downstream sink (held by the downstream objects),
   or inside an Accept call *)
Definition held (r : rec) (st : state) : nat := cnt r (delivered_recs (st_log st)) + cnt r (buffered st).
Definition whereabouts (r : rec) (st : state) : nat := held r st + cnt r (inflight st).

Lemma delivered_hand : forall t s g al rs lg,
  delivered_recs (rev (map (fun r => OHand t r s g al) rs) ++ lg) = delivered_recs lg.
Proof.
  intros. unfold delivered_recs. rewrite flat_map_app, <- map_rev.
  induction (rev rs); simpl; auto.
Qed.

Lemma delivered_deliver : forall s g al rs lg r,
  cnt r (delivered_recs (rev (map (fun r => ODeliver r s g al) rs) ++ lg)) = cnt r rs + cnt r (delivered_recs lg).
Proof.
  intros. unfold delivered_recs. rewrite flat_map_app, cnt_app, <- map_rev. f_equal.
  unfold cnt. rewrite <- (@count_occ_rev rec N.eq_dec rs). induction (rev rs) as [|x l IH]; simpl; auto.
  destruct (N.eq_dec x r); lia.
Qed.

Lemma hand_held : forall r st t s d rs, sink_at st s = Some d -> held r (hand st t s rs) = cnt r rs + held r st.
Proof.
  intros r st t s d rs Hd. unfold hand. unfold sink_at in Hd. rewrite Hd. unfold held, buffered.
  cbn [st_log st_sinks set_log set_sinks]. rewrite delivered_hand.
  pose proof (cnt_flat_map_upd _ ds_pending r _ s d (mkSink (ds_gen d) (ds_num d) (ds_addr d) (ds_closed d) (ds_pending d ++ rs)) Hd) as H.
  cbn [ds_pending] in H. rewrite cnt_app in H. lia.
Qed.

Lemma flush_held : forall r st s cl, held r (flush st s cl) = held r st.
Proof.
  intros r st s cl. unfold flush. destruct (nth_error (st_sinks st) s) as [d|] eqn:Hd; auto. unfold held, buffered.
  cbn [st_log st_sinks set_log set_sinks]. rewrite delivered_deliver.
  pose proof (cnt_flat_map_upd _ ds_pending r _ s d (mkSink (ds_gen d) (ds_num d) (ds_addr d) (ds_closed d || cl) []) Hd) as H.
  cbn [ds_pending] in H. rewrite cnt_nil in H. lia.
Qed.

Lemma new_sink_held : forall r st g n a, held r (set_sinks st (st_sinks st ++ [mkSink g n a false []])) = held r st.
Proof.
  intros. unfold held, buffered. cbn [st_log st_sinks set_sinks]. rewrite flat_map_app, cnt_app. simpl. lia.
Qed.

Lemma put_thr_whereabouts : forall r st X t c c' k,
  get_thr st t = Some c -> st_thr X = st_thr st ->
  held r X + cnt r (inflight_of c') = k + held r st + cnt r (inflight_of c) ->
  whereabouts r (put_thr X t c') = k + whereabouts r st.
Proof.
  intros r st X t c c' k Ht E Hh. unfold whereabouts. change (held r (put_thr X t c')) with (held r X).
  unfold inflight, put_thr. cbn [st_thr set_thr]. rewrite E.
  pose proof (cnt_flat_map_upd _ inflight_of r _ t c c' Ht). lia.
Qed.

Lemma step_conserves : forall st e st' r,
  INV st -> guard st e = true -> step true st e = Some st' ->
  whereabouts r st' = cnt r (acc_of_event e) + whereabouts r st.
Proof.
  intros st e st' r I G H. destruct e; simpl acc_of_event; rewrite ?cnt_nil.
  - inv_step H. inversion H. apply (put_thr_whereabouts r st _ t _ _ _ Ht); reflexivity.
  - inv_step H.
  - (* ENewEnd, also when the number is out of range and the goroutine panics *)
    inv_step H. unfold new_sink, store in H. cbn [st_table st_readers set_readers set_sinks] in H.
    destruct (ct_num <? length (st_table st)); inversion H;
      [|change (whereabouts r (set_log ?x _)) with (whereabouts r x)];
      apply (put_thr_whereabouts r st _ t _ _ _ Ht); try reflexivity;
      cbn [inflight_of ct_pc]; rewrite <- (new_sink_held r st g ct_num t); reflexivity.
  - (* EAccBegin: the panic on an empty slot would lose rs; the invariant excludes it *)
    inv_step H. destruct (open_idle_slot _ _ _ I Ht) as [s Hs]. rewrite Hs in H. inversion H.
    apply (put_thr_whereabouts r st _ t _ _ _ Ht); [reflexivity|]. cbn [inflight_of ct_pc]. rewrite cnt_nil.
    change (held r (set_readers st _)) with (held r st). lia.
  - inv_step H. inversion H.
    pose proof (i_thr _ I _ _ Ht) as Hs. unfold thr_ok in Hs; simpl in Hs.
    destruct (in_call_sink _ _ _ _ _ I Ht eq_refl Hs) as (d & Hd & _).
    apply (put_thr_whereabouts r st _ t _ _ _ Ht).
    + unfold hand. unfold sink_at in Hd. rewrite Hd. reflexivity.
    + change (held r (set_readers ?x _)) with (held r x). rewrite (hand_held r st t s d rs Hd).
      cbn [inflight_of ct_pc]. rewrite cnt_nil. lia.
  - (* ETickBegin: the panic on an empty slot loses nothing *)
    inv_step H. destruct (slot st ct_num); inversion H;
      [|change (whereabouts r (set_log ?x _)) with (whereabouts r x)];
      apply (put_thr_whereabouts r st _ t _ _ _ Ht); reflexivity.
  - inv_step H. inversion H. apply (put_thr_whereabouts r st _ t _ _ _ Ht); [apply flush_proj|].
    change (held r (set_readers ?x _)) with (held r x). rewrite flush_held. reflexivity.
  - inv_step H. destruct (slot st ct_num); inversion H;
      [|change (whereabouts r (set_log ?x _)) with (whereabouts r x)];
      apply (put_thr_whereabouts r st _ t _ _ _ Ht); reflexivity.
  - inv_step H. inversion H. apply (put_thr_whereabouts r st _ t _ _ _ Ht); [apply flush_proj|].
    change (held r (set_readers (set_table ?x _) _)) with (held r x). rewrite flush_held. reflexivity.
  - unfold step in H. destruct (st_rl st); try discriminate. inversion H. reflexivity.
  - unfold step in H. destruct (st_rl st); try discriminate. destruct ok; inversion H; reflexivity.
  - unfold step in H. destruct (st_rl st); try discriminate. destruct (st_writer st); try discriminate.
    destruct (st_readers st); try discriminate. inversion H. reflexivity.
  - unfold step in H. destruct (st_rl st) eqn:Er; try discriminate; inversion H.
    + unfold whereabouts, inflight. cbn [st_thr set_rl]. change (held r (set_rl ?x _)) with (held r x).
      destruct (slot st j) as [s|]; [|reflexivity].
      destruct (flush_proj st s true) as (_ & _ & _ & -> & _). rewrite flush_held. reflexivity.
    + reflexivity.
    + unfold after_new, finish_reload. destruct (next_slot _ 0); reflexivity.
    + unfold new_sink, after_new, finish_reload.
      match goal with |- context [next_slot ?a ?b] => destruct (next_slot a b) end;
        unfold whereabouts; rewrite <- (new_sink_held r st (st_cur st) j (nth j (st_addrs st) 0)); reflexivity.
Qed.

Lemma grun_conserves : forall r evs st st',
  INV st -> grun true st evs = Some st' ->
  whereabouts r st' = cnt r (acc_of_events evs) + whereabouts r st.
Proof.
  intros r.
  apply (grun_ind (fun st evs st' => whereabouts r st' = cnt r (acc_of_events evs) + whereabouts r st)).
  - reflexivity.
  - intros st e st1 evs st' I G S IH. unfold acc_of_events. simpl. rewrite cnt_app. fold (acc_of_events evs). rewrite IH, (step_conserves st e st1 r I G S). lia.
Qed.

(* every record, at every moment of every run: delivered + buffered + in an Accept call = times accepted *)
Lemma no_loss_count_lemma : forall nthr maxn evs st r,
  grun true (init nthr maxn) evs = Some st ->
  cnt r (delivered_recs (st_log st)) + cnt r (buffered st) + cnt r (inflight st) = cnt r (acc_of_events evs).
Proof.
  intros nthr maxn evs st r H. pose proof (grun_conserves r evs _ _ (inv_init nthr maxn) H) as E.
  assert (E0 : whereabouts r (init nthr maxn) = 0) by (unfold whereabouts, held, inflight; simpl; clear; induction nthr; auto).
  unfold whereabouts, held in *. lia.
Qed.

Lemma quiescent_empty : forall st, INV st -> quiescent st -> buffered st = [] /\ inflight st = [].
Proof.
  intros st I [Hrl Hq]. split.
  - unfold buffered. apply flat_map_nil. intros d Hin. apply In_nth_error in Hin. destruct Hin as [s Hd].
    destruct (i_sink _ I _ _ Hd) as [H1 H2]. destruct (ds_closed d) eqn:Ec; auto.
    exfalso. destruct (H2 eq_refl) as (_ & _ & Ht). apply slot_nth in Ht.
    destruct (i_own _ I _ _ Ht) as (t & c & Hc & _ & Hh). destruct (Hq _ _ Hc) as [_ Hn]. contradiction.
  - unfold inflight. apply flat_map_nil. intros c Hin. apply In_nth_error in Hin. destruct Hin as [t Hc].
    destruct (Hq _ _ Hc) as [Hp _]. unfold inflight_of. rewrite Hp. reflexivity.
Qed.

(* when all connections are closed and no reload is running, every record has been delivered exactly
   as many times as it was accepted *)
Lemma no_loss_quiescent_lemma : forall nthr maxn evs st,
  grun true (init nthr maxn) evs = Some st -> quiescent st ->
  Permutation (acc_of_events evs) (delivered_recs (st_log st)).
Proof.
  intros nthr maxn evs st H Q. apply (Permutation_count_occ N.eq_dec). intros r.
  pose proof (no_loss_count_lemma _ _ _ _ r H) as E.
  destruct (quiescent_empty st (invariant_lemma _ _ _ _ H) Q) as [Eb Ei].
  rewrite Eb, Ei in E. unfold cnt in E. simpl in E. lia.
Qed.

Lemma exactly_once_lemma : forall nthr maxn evs st r,
  grun true (init nthr maxn) evs = Some st -> quiescent st ->
  NoDup (acc_of_events evs) -> In r (acc_of_events evs) ->
  count_occ N.eq_dec (delivered_recs (st_log st)) r = 1.
Proof.
  intros nthr maxn evs st r H Q ND Hin.
  pose proof (no_loss_quiescent_lemma _ _ _ _ H Q) as P.
  rewrite (Permutation_count_occ N.eq_dec) in P. rewrite <- P.
  apply NoDup_count_occ'; auto.
Qed.

Lemma failed_init_step_lemma : forall lk st st',
  step lk st (ERlInit false) = Some st' ->
  st_rl st = RInit /\ st' = set_rl (set_fails st (S (st_fails st))) RIdle.
Proof.
  intros lk st st' H. unfold step in H. destruct (st_rl st) eqn:E; try discriminate. inversion H. auto.
Qed.

(* the events of the connections neither read nor write the state of the reload goroutine *)
Lemma step_conn_rl : forall lk st e r,
  is_reload_event e = false ->
  step lk (set_rl st r) e = option_map (fun s => set_rl s r) (step lk st e).
Proof.
  intros lk st e r He. destruct e; try discriminate He; unfold step;
    change (get_thr (set_rl st r) t) with (get_thr st t);
    destruct (get_thr st t) as [[n0 [] []]|]; try reflexivity;
    change (st_writer (set_rl st r)) with (st_writer st);
    destruct lk; try reflexivity; destruct (st_writer st); try reflexivity.
  all: try (unfold new_sink, store; cbn [st_table set_rl set_readers set_sinks st_sinks st_readers];
            match goal with |- context [?a <? ?b] => destruct (a <? b) end; reflexivity).
  all: try (change (slot (set_rl st r) n0) with (slot st n0); destruct (slot st n0); reflexivity).
  all: try (unfold hand; change (st_sinks (set_rl st r)) with (st_sinks st);
            destruct (nth_error (st_sinks st) s); reflexivity).
  all: try (unfold flush; change (st_sinks (set_rl st r)) with (st_sinks st);
            destruct (nth_error (st_sinks st) s); reflexivity).
Qed.

Lemma run_conn_rl : forall lk evs st r,
  Forall (fun e => is_reload_event e = false) evs ->
  run lk (set_rl st r) evs = option_map (fun s => set_rl s r) (run lk st evs).
Proof.
  induction evs as [|e evs IH]; intros st r F; simpl; auto.
  inversion F as [|? ? He F']; subst. rewrite (step_conn_rl lk st e r He).
  destruct (step lk st e) as [st1|]; simpl; auto.
Qed.

Lemma run_conn_keeps_rl : forall lk evs st st',
  Forall (fun e => is_reload_event e = false) evs -> run lk st evs = Some st' -> st_rl st' = st_rl st.
Proof.
  intros lk evs st st' F H. pose proof (run_conn_rl lk evs st (st_rl st) F) as E.
  replace (set_rl st (st_rl st)) with st in E by (destruct st; reflexivity).
  rewrite H in E. injection E as E. rewrite E at 1. reflexivity.
Qed.

Lemma run_app : forall lk evs1 evs2 st,
  run lk st (evs1 ++ evs2) = match run lk st evs1 with Some st1 => run lk st1 evs2 | None => None end.
Proof.
  induction evs1 as [|e evs1 IH]; intros evs2 st; simpl; auto.
  destruct (step lk st e); auto.
Qed.

Lemma grun_app : forall lk evs1 evs2 st,
  grun lk st (evs1 ++ evs2) = match grun lk st evs1 with Some st1 => grun lk st1 evs2 | None => None end.
Proof.
  induction evs1 as [|e evs1 IH]; intros evs2 st; simpl; auto.
  destruct (guard st e); auto. destruct (step lk st e); auto.
Qed.

(* a reload whose initiateReload fails - at any moment, with any traffic of the connections in between -
   leaves exactly the state the same traffic produces without it, plus one on the failure counter *)
Lemma failed_reload_noop_lemma : forall lk st evs st',
  Forall (fun e => is_reload_event e = false) evs ->
  run lk st (ERlBegin :: evs ++ [ERlInit false]) = Some st' ->
  exists st0, run lk st evs = Some st0 /\ st' = set_fails st0 (S (st_fails st0)).
Proof.
  intros lk st evs st' F H. simpl in H. destruct (st_rl st) eqn:Er; try discriminate.
  rewrite run_app in H. rewrite (run_conn_rl lk evs st RInit F) in H.
  destruct (run lk st evs) as [st0|] eqn:R; simpl in H; try discriminate.
  exists st0. split; auto. inversion H; subst st'; clear H.
  pose proof (run_conn_keeps_rl _ _ _ _ F R) as Er0. rewrite Er in Er0.
  destruct st0; simpl in *. subst. reflexivity.
Qed.

Definition end_event (t : nat) (c : cthread) : event :=
  match ct_pc c with
  | PAccIn _ _ => EAccEnd t
  | PTickIn _ => ETickEnd t
  | PCloseIn _ => ECloseEnd t
  | _ => ENewEnd t
  end.

(* a goroutine inside a downstream call (it holds the read lock) can always complete it *)
Lemma reader_can_leave_lemma : forall st t c,
  INV st -> get_thr st t = Some c -> in_lock c = true ->
  exists st', step true st (end_event t c) = Some st'.
Proof.
  intros st t c I Ht Hin. pose proof (i_thr _ I _ _ Ht) as Hok.
  destruct c as [n h pc]. unfold thr_ok in Hok. unfold end_event. simpl in *.
  destruct pc; try discriminate Hin; destruct h; try contradiction; unfold step; rewrite Ht; eauto.
  destruct (new_sink st g n t). eauto.
Qed.

(* reload(): past Lock() it can always take its next step; at Lock() it proceeds as soon as no reader is
   left; and while readers are left, one of them can leave *)
Lemma reload_progress_lemma : forall st,
  INV st ->
  (rl_post (st_rl st) = true -> exists st', step true st ERlStep = Some st') /\
  (st_rl st = RWantLock -> st_readers st = 0 -> exists st', step true st ERlLock = Some st') /\
  (st_rl st = RWantLock -> st_readers st <> 0 ->
     exists t c st', get_thr st t = Some c /\ in_lock c = true /\ step true st (end_event t c) = Some st').
Proof.
  intros st I. split; [|split].
  - intros Hp. unfold step. destruct (st_rl st); try discriminate; eauto.
    destruct (new_sink st (st_cur st) j (nth j (st_addrs st) 0)). eauto.
  - intros Er H0. unfold step. rewrite Er. pose proof (i_wr _ I) as Hw. rewrite Er in Hw. simpl in Hw.
    rewrite Hw, H0. eauto.
  - intros Er Hn. rewrite (i_lock _ I) in Hn.
    assert (Hex : exists t c, nth_error (st_thr st) t = Some c /\ in_lock c = true).
    { clear -Hn. unfold count in Hn. induction (st_thr st) as [|c l IH]; simpl in Hn; [congruence|].
      destruct (in_lock c) eqn:E.
      - exists 0, c. auto.
      - destruct (IH Hn) as (t & c' & H1 & H2). exists (S t), c'. auto. }
    destruct Hex as (t & c & Ht & Hin). destruct (reader_can_leave_lemma st t c I Ht Hin) as [st' S].
    exists t, c, st'. auto.
Qed.

(* when reload() does not hold the lock every idle open connection can start its next call *)
Lemma reader_can_enter_lemma : forall st t n,
  INV st -> st_writer st = false -> get_thr st t = Some (mkThr n HOpen PIdle) ->
  (forall rs, exists st', step true st (EAccBegin t rs) = Some st') /\
  (exists st', step true st (ETickBegin t) = Some st') /\
  (exists st', step true st (ECloseBegin t) = Some st').
Proof.
  intros st t n I Hw Ht. destruct (open_idle_slot _ _ _ I Ht) as [s Hs].
  repeat split; intros; unfold step; rewrite Ht, Hw, Hs; eauto.
Qed.

Lemma progress_lemma : forall (nthr maxn : nat) (evs : list event) (st : state),
  grun true (init nthr maxn) evs = Some st ->
  (forall t c, get_thr st t = Some c -> in_lock c = true -> exists st', step true st (end_event t c) = Some st') /\
  (rl_post (st_rl st) = true -> exists st', step true st ERlStep = Some st') /\
  (st_rl st = RWantLock -> st_readers st = 0 -> exists st', step true st ERlLock = Some st') /\
  (st_rl st = RWantLock -> st_readers st <> 0 ->
     exists t c st', get_thr st t = Some c /\ in_lock c = true /\ step true st (end_event t c) = Some st') /\
  (st_writer st = false -> forall t n, get_thr st t = Some (mkThr n HOpen PIdle) ->
     (forall rs, exists st', step true st (EAccBegin t rs) = Some st') /\
     (exists st', step true st (ETickBegin t) = Some st') /\
     (exists st', step true st (ECloseBegin t) = Some st')).
Proof.
  intros nthr maxn evs st H. pose proof (invariant_lemma _ _ _ _ H) as I.
  destruct (reload_progress_lemma st I) as (P1 & P2 & P3).
  split; [intros t c; apply reader_can_leave_lemma; exact I|].
  split; [exact P1|]. split; [exact P2|]. split; [exact P3|].
  intros Hw t n Ht. apply (reader_can_enter_lemma st t n I Hw Ht).
Qed.

Definition quiescentb (st : state) : bool :=
  match st_rl st with RIdle => true | _ => false end &&
  forallb (fun c => match ct_pc c, ct_h c with PIdle, HOpen => false | PIdle, _ => true | _, _ => false end) (st_thr st).

Lemma quiescentb_sound : forall st, quiescentb st = true -> quiescent st.
Proof.
  intros st H. unfold quiescentb in H. apply andb_true_iff in H. destruct H as [H1 H2]. split.
  - destruct (st_rl st); try discriminate; reflexivity.
  - intros t c Hc. pose proof (forallb_nth _ _ _ _ _ H2 Hc) as H. simpl in H.
    destruct (ct_pc c); try discriminate. destruct (ct_h c); try discriminate; split; auto; discriminate.
Qed.

(* a run of the current code that satisfies every hypothesis: two connections with traffic, a successful
   reload that has to wait for an Accept in progress, a failed reload, all sinks closed at the end *)
Definition example_run : list event :=
  [ ENewBegin 0 0; ENewEnd 0; EAccBegin 0 [1%N; 2%N]; EAccEnd 0;
    ENewBegin 1 1; ENewEnd 1; EAccBegin 1 [3%N];
    ERlBegin; ERlInit true;                 (* blocked at Lock(): connection 1 is inside Accept *)
    EAccEnd 1; ERlLock; ERlStep; ERlStep;   (* close the two old sinks *)
    ERlStep; ERlStep; ERlStep; ERlStep;     (* Shutdown, completeRenewal, NewSink, NewSink *)
    EAccBegin 0 [4%N]; EAccEnd 0; ETickBegin 0; ETickEnd 0;
    ERlBegin; EAccBegin 1 [5%N]; ERlInit false; EAccEnd 1;
    ECloseBegin 0; ECloseEnd 0; ECloseBegin 1; ECloseEnd 1 ].

Lemma example_lemma :
  exists st, grun true (init 2 2) example_run = Some st /\ quiescent st /\
             NoDup (acc_of_events example_run) /\
             delivered_recs (st_log st) = [5%N; 4%N; 3%N; 2%N; 1%N] /\
             st_fails st = 1 /\ st_succs st = 1 /\ st_cur st = 1.
Proof.
  destruct (grun true (init 2 2) example_run) as [st|] eqn:E; [|vm_compute in E; discriminate].
  exists st. split; auto. vm_compute in E. inversion E; subst st; clear E.
  split; [apply quiescentb_sound; vm_compute; reflexivity|].
  split; [|repeat split; vm_compute; reflexivity].
  vm_compute. repeat constructor; simpl; intuition discriminate.
Qed.

(* defect 13, the code before the fix (lk = false): NewSink reads orc.downstream and creates the downstream
   sink before RLock(); a reload in between shuts that orchestrator down; the stale sink is stored and the
   connection's records go to pipelines that are shut down.  Client numbers are unique in this run. *)
Definition stale_sink_run : list event :=
  [ ENewBegin 0 0; ERlBegin; ERlInit true; ERlLock; ERlStep; ERlStep;
    ENewMade 0; ENewEnd 0; EAccBegin 0 [1%N]; EAccEnd 0 ].

Lemma stale_sink_refuted_lemma :
  exists st, grun false (init 1 1) stale_sink_run = Some st /\ In (OHand 0 1%N 0 0 false) (st_log st).
Proof.
  destruct (grun false (init 1 1) stale_sink_run) as [st|] eqn:E; [|vm_compute in E; discriminate].
  exists st. split; auto. vm_compute in E. inversion E; subst st; clear E. simpl. auto.
Qed.

(* the same schedule cannot happen in the current code: the reload cannot take the write lock *)
Lemma stale_sink_excluded_lemma :
  run true (init 1 1) [ENewBegin 0 0; ERlBegin; ERlInit true; ERlLock] = None.
Proof. vm_compute. reflexivity. Qed.

(* defect 14, the listener before its fix (lf = false), with the current reloadable.go: the closer goroutine closes the descriptor (number 0)
   while the connection goroutine still has its final Flush and the deferred sink Close ahead; the kernel
   gives the same number to a new connection.  The old connection's last records go into the new
   connection's sink, its Close closes that sink and nils the slot; the new connection's next Accept
   dereferences nil (panic, record 3 lost) and record 1 stays in a sink nobody will ever flush. *)
Definition slot_reuse_run : list levent :=
  [ LConnOpen 0 0; LApi (ENewEnd 0); LApi (EAccBegin 0 [1%N]); LApi (EAccEnd 0);
    LAbort 0; LFdClosed 0;
    LConnOpen 1 0; LApi (ENewEnd 1);
    LApi (EAccBegin 0 [2%N]); LApi (EAccEnd 0); LApi (ECloseBegin 0); LApi (ECloseEnd 0);
    LApi (EAccBegin 1 [3%N]) ].

Lemma slot_reuse_refuted_lemma :
  exists ls, lrun false true (linit 2 1) slot_reuse_run = Some ls /\
             In (OPanic 1 2 [3%N]) (st_log (l_st ls)) /\
             (exists d, nth_error (st_sinks (l_st ls)) 0 = Some d /\ ds_pending d = [1%N] /\ ds_closed d = false) /\
             slot (l_st ls) 0 = None /\
             ~ In 1%N (delivered_recs (st_log (l_st ls))).
Proof.
  destruct (lrun false true (linit 2 1) slot_reuse_run) as [ls|] eqn:E; [|vm_compute in E; discriminate].
  exists ls. split; auto. vm_compute in E. inversion E; subst ls; clear E. simpl.
  split; [auto|]. split; [eexists; repeat split|]. split; [reflexivity|]. intuition discriminate.
Qed.

(* the same schedule is impossible for the current listener: the descriptor is not closed before the sink *)
Lemma slot_reuse_excluded_lemma :
  lrun true true (linit 2 1)
    [LConnOpen 0 0; LApi (ENewEnd 0); LApi (EAccBegin 0 [1%N]); LApi (EAccEnd 0); LAbort 0; LFdClosed 0] = None.
Proof. vm_compute. reflexivity. Qed.
