(* Facts about the directory model and util.WriteFileAt (Model/FileWrite.v): [dir_set] keeps a directory sorted
   ([dir_sorted_set]), and what a write leaves under its name and under every other name in each outcome
   ([write_frame], [write_ok], [write_err], [write_died], [write_name_cases]).  The writer that truncates the final
   name in place ([write_file_at_v0]) is refuted twice: a short write reported as success leaves a truncated file
   ([v0_short_write_refuted]), and a kill in the middle of the write leaves a non-empty prefix under the chunk's
   name ([v0_crash_mid_write_refuted]). *)
From SV Require Import Model.Common Model.FileWrite Model.Buffer Spec.BufferSpec Proofs.CommonFacts.
From Coq Require Import Lia ZifyBool ZifyN ZifyNat Sorting.Sorted.
Ltac Zify.zify_post_hook ::= Z.div_mod_to_equations.

Lemma name_eqb_eq : forall a b, name_eqb a b = true <-> a = b.
Proof. exact bytes_eqb_eq. Qed.

Lemma name_eqb_refl : forall a, name_eqb a a = true.
Proof. exact bytes_eqb_refl. Qed.

Lemma name_eqb_neq : forall a b, name_eqb a b = false <-> a <> b.
Proof.
  intros a b. split.
  - intros H E. apply name_eqb_eq in E. congruence.
  - intros H. destruct (name_eqb a b) eqn:E; [apply name_eqb_eq in E; contradiction|reflexivity].
Qed.

Lemma name_eqb_sym : forall a b, name_eqb a b = name_eqb b a.
Proof.
  intros a b. destruct (name_eqb a b) eqn:E.
  - apply name_eqb_eq in E. subst. symmetry. apply name_eqb_refl.
  - symmetry. apply name_eqb_neq. apply name_eqb_neq in E. congruence.
Qed.

Definition name_eq_dec : forall a b : name, {a = b} + {a <> b} := list_eq_dec N.eq_dec.

Lemma name_ltb_irrefl : forall a, name_ltb a a = false.
Proof. induction a as [|x a IH]; cbn [name_ltb]; [reflexivity|]. rewrite N.ltb_irrefl. exact IH. Qed.

Lemma name_ltb_trans : forall a b c, name_ltb a b = true -> name_ltb b c = true -> name_ltb a c = true.
Proof.
  induction a as [|x a IH]; intros b c Hab Hbc.
  - destruct b as [|y b]; [discriminate|]. destruct c as [|z c]; [discriminate|]. reflexivity.
  - destruct b as [|y b]; [discriminate|]. destruct c as [|z c]; [cbn in Hbc; discriminate|].
    cbn [name_ltb] in *.
    destruct (x <? y) eqn:Exy.
    + (* x < y <= z *)
      assert (Hz : (x <? z) = true) by (destruct (y <? z) eqn:Eyz; [lia|destruct (z <? y) eqn:Ezy; [discriminate|lia]]).
      rewrite Hz. reflexivity.
    + destruct (y <? x) eqn:Eyx; [discriminate|]. assert (x = y) by lia. subst y.
      destruct (x <? z); [reflexivity|]. destruct (z <? x); [discriminate|]. eapply IH; eassumption.
Qed.

Lemma name_ltb_total : forall a b, name_ltb a b = false -> name_eqb a b = false -> name_ltb b a = true.
Proof.
  induction a as [|x a IH]; intros b Hlt Hne.
  - destruct b; cbn in *; discriminate.
  - destruct b as [|y b]; [reflexivity|].
    cbn [name_ltb] in *. unfold name_eqb in *. cbn [bytes_eqb] in Hne.
    destruct (x <? y) eqn:Exy; [discriminate|]. destruct (y <? x) eqn:Eyx; [reflexivity|].
    assert (x = y) by lia. subst y. rewrite N.eqb_refl in Hne. cbn [andb] in Hne.
    apply IH; assumption.
Qed.

Lemma name_ltb_neq : forall a b, name_ltb a b = true -> a <> b.
Proof. intros a b H E. subst. rewrite name_ltb_irrefl in H. discriminate. Qed.

(* a key occurs once: the entries under it are one *)
Lemma dir_get_set_same : forall d n e, dir_get (dir_set d n e) n = Some e.
Proof.
  induction d as [|[k v] d IH]; intros n e; cbn [dir_set dir_get].
  - rewrite name_eqb_refl. reflexivity.
  - destruct (name_eqb k n) eqn:E.
    + cbn [dir_get]. rewrite name_eqb_refl. reflexivity.
    + destruct (name_ltb n k); cbn [dir_get].
      * rewrite name_eqb_refl. reflexivity.
      * rewrite E. apply IH.
Qed.

Lemma dir_get_set_other : forall d n e m, m <> n -> dir_get (dir_set d n e) m = dir_get d m.
Proof.
  induction d as [|[k v] d IH]; intros n e m Hm; cbn [dir_set dir_get].
  - assert (name_eqb n m = false) as -> by (apply name_eqb_neq; congruence). reflexivity.
  - assert (Hnm : name_eqb n m = false) by (apply name_eqb_neq; congruence).
    destruct (name_eqb k n) eqn:E.
    + apply name_eqb_eq in E. subst k. cbn [dir_get]. rewrite Hnm. reflexivity.
    + destruct (name_ltb n k); cbn [dir_get].
      * rewrite Hnm. reflexivity.
      * destruct (name_eqb k m); [reflexivity|]. apply IH; assumption.
Qed.

Lemma dir_get_del_same : forall d n, dir_get (dir_del d n) n = None.
Proof.
  induction d as [|[k v] d IH]; intros n; unfold dir_del; cbn [filter dir_get fst]; [reflexivity|].
  destruct (name_eqb k n) eqn:E; cbn [negb].
  - apply IH.
  - cbn [dir_get]. rewrite E. apply IH.
Qed.

Lemma dir_get_del_other : forall d n m, m <> n -> dir_get (dir_del d n) m = dir_get d m.
Proof.
  induction d as [|[k v] d IH]; intros n m Hm; unfold dir_del; cbn [filter dir_get fst]; [reflexivity|].
  destruct (name_eqb k n) eqn:E; cbn [negb].
  - apply name_eqb_eq in E. subst k.
    assert (name_eqb n m = false) as -> by (apply name_eqb_neq; congruence). apply IH; assumption.
  - cbn [dir_get]. destruct (name_eqb k m); [reflexivity|]. apply IH; assumption.
Qed.

Lemma dir_get_in : forall d n e, dir_get d n = Some e -> In n (dir_names d).
Proof.
  induction d as [|[k v] d IH]; intros n e H; cbn [dir_get] in H; [discriminate|].
  cbn [dir_names map fst]. destruct (name_eqb k n) eqn:E.
  - apply name_eqb_eq in E. left. assumption.
  - right. eapply IH. eassumption.
Qed.

Lemma dir_in_get : forall d n, In n (dir_names d) -> exists e, dir_get d n = Some e.
Proof.
  induction d as [|[k v] d IH]; intros n H; cbn [dir_names map fst] in H; [contradiction|].
  cbn [dir_get]. destruct (name_eqb k n) eqn:E; [eexists; reflexivity|].
  destruct H as [H|H]; [subst; rewrite name_eqb_refl in E; discriminate|]. apply IH. exact H.
Qed.

Lemma dir_sorted_nil : dir_sorted [].
Proof. constructor. Qed.

Lemma Forall_lt_set : forall d k n e,
  Forall (name_lt k) (dir_names d) -> name_lt k n -> Forall (name_lt k) (dir_names (dir_set d n e)).
Proof.
  induction d as [|[k' v] d IH]; intros k n e Hall Hkn; cbn [dir_set dir_names map fst] in *.
  - constructor; [assumption|constructor].
  - inversion Hall as [|? ? Hk' Hrest]; subst.
    destruct (name_eqb k' n); [constructor; assumption|].
    destruct (name_ltb n k'); cbn [map fst].
    + constructor; [assumption|]. constructor; assumption.
    + constructor; [assumption|]. apply IH; assumption.
Qed.

Lemma dir_sorted_set : forall d n e, dir_sorted d -> dir_sorted (dir_set d n e).
Proof.
  unfold dir_sorted. induction d as [|[k v] d IH]; intros n e Hs; cbn [dir_set dir_names map fst] in *.
  - constructor; constructor.
  - inversion Hs as [|? ? Hs' Hall]; subst.
    destruct (name_eqb k n) eqn:E.
    + apply name_eqb_eq in E. subst k. cbn [map fst]. constructor; assumption.
    + destruct (name_ltb n k) eqn:L; cbn [map fst].
      * constructor; [constructor; assumption|].
        constructor; [exact L|].
        eapply Forall_impl; [|exact Hall]. intros a Ha. unfold name_lt in *. eapply name_ltb_trans; eassumption.
      * constructor; [apply IH; assumption|].
        apply Forall_lt_set; [assumption|]. unfold name_lt. apply name_ltb_total; [exact L|].
        rewrite name_eqb_sym. exact E.
Qed.

Lemma dir_sorted_del : forall d n, dir_sorted d -> dir_sorted (dir_del d n).
Proof.
  unfold dir_sorted, dir_del. induction d as [|[k v] d IH]; intros n Hs; cbn [filter dir_names map fst] in *.
  - constructor.
  - inversion Hs as [|? ? Hs' Hall]; subst.
    destruct (negb (name_eqb k n)); [|apply IH; assumption].
    cbn [map fst]. constructor; [apply IH; assumption|].
    apply Forall_map. eapply incl_Forall; [apply incl_filter|apply Forall_map; exact Hall].
Qed.

Lemma sorted_filter : forall (f : name -> bool) l,
  StronglySorted name_lt l -> StronglySorted name_lt (filter f l).
Proof.
  induction l as [|a l IH]; intros Hs; cbn [filter]; [constructor|].
  inversion Hs as [|? ? Hs' Hall]; subst.
  destruct (f a); [|apply IH; assumption].
  constructor; [apply IH; assumption|].
  eapply incl_Forall; [apply incl_filter|exact Hall].
Qed.

Lemma in_firstn_in : forall {A} n (l : list A) x, In x (firstn n l) -> In x l.
Proof. intros A n l x H. rewrite <- (firstn_skipn n l). apply in_or_app. left. exact H. Qed.

Lemma in_skipn_in : forall {A} n (l : list A) x, In x (skipn n l) -> In x l.
Proof. intros A n l x H. rewrite <- (firstn_skipn n l). apply in_or_app. right. exact H. Qed.

Lemma sorted_firstn : forall n l, StronglySorted name_lt l -> StronglySorted name_lt (firstn n l).
Proof.
  induction n as [|n IH]; intros l Hs; [constructor|].
  destruct l as [|a l]; [constructor|]. cbn [firstn].
  inversion Hs as [|? ? Hs' Hall]; subst. constructor; [apply IH; assumption|].
  eapply incl_Forall; [|exact Hall]. intros x. apply in_firstn_in.
Qed.

Lemma sorted_nodup : forall l, StronglySorted name_lt l -> NoDup l.
Proof.
  intros l. apply StronglySorted_NoDup. intros a H. unfold name_lt in H. rewrite name_ltb_irrefl in H. discriminate.
Qed.

(* what one call may change: only the name itself and its temporary name *)
Definition frame (d d' : dirT) (n : name) : Prop :=
  forall m, m <> n -> m <> tmp_name n -> dir_get d' m = dir_get d m.

Ltac wf_cases H :=
  unfold write_file_at in H; cbv zeta in H;
  repeat match type of H with
         | context [if ?b then _ else _] => let E := fresh "E" in destruct b eqn:E
         end.

Lemma tmp_name_neq : forall n, tmp_name n <> n.
Proof.
  intros n H. unfold tmp_name in H. assert (L : length (n ++ tmp_suffix) = length n) by (rewrite H; reflexivity).
  rewrite app_length in L. cbn in L. lia.
Qed.

(* no error reported by write and close, no short count: everything was stored *)
Lemma stored_all : forall ws data,
  ws_write_err ws || Nat.ltb (stored ws data) (length data) || ws_close_err ws = false ->
  firstn (stored ws data) data = data.
Proof.
  intros ws data E. apply Bool.orb_false_iff in E. destruct E as [E _]. apply Bool.orb_false_iff in E. destruct E as [_ E].
  apply Nat.ltb_ge in E. apply firstn_all2. exact E.
Qed.

Lemma write_frame : forall ws d n data d' r,
  write_file_at ws d n data = (d', r) -> frame d d' n.
Proof.
  intros ws d n data d' r H m Hn Ht. wf_cases H; inversion H; subst; clear H;
    repeat first [rewrite dir_get_set_other by congruence | rewrite dir_get_del_other by congruence]; reflexivity.
Qed.

Lemma write_sorted : forall ws d n data d' r,
  write_file_at ws d n data = (d', r) -> dir_sorted d -> dir_sorted d'.
Proof.
  intros ws d n data d' r H Hs. wf_cases H; inversion H; subst; clear H;
    repeat first [assumption | apply dir_sorted_set | apply dir_sorted_del].
Qed.

(* a short write is detected: success means the complete data is under the name, nothing under the temporary name *)
Lemma write_ok : forall ws d n data d',
  write_file_at ws d n data = (d', WOk) ->
  dir_get d' n = Some (EFile data) /\ dir_get d' (tmp_name n) = None.
Proof.
  intros ws d n data d' H. pose proof (tmp_name_neq n) as Hneq.
  wf_cases H; inversion H; subst; clear H.
  rewrite (stored_all _ _ E3). split.
  - apply dir_get_set_same.
  - rewrite dir_get_set_other by assumption. apply dir_get_del_same.
Qed.

(* failure reported: the name is untouched, the temporary file is removed *)
Lemma write_err : forall ws d n data d',
  write_file_at ws d n data = (d', WErr) ->
  dir_get d' n = dir_get d n.
Proof.
  intros ws d n data d' H. pose proof (tmp_name_neq n) as Hneq.
  wf_cases H; inversion H; subst; clear H;
    repeat first [rewrite dir_get_del_other by congruence | rewrite dir_get_set_other by congruence]; reflexivity.
Qed.

(* killed: under the name there is what was there before, or the complete data - never a part of it *)
Lemma write_died : forall ws d n data d',
  write_file_at ws d n data = (d', WDied) ->
  dir_get d' n = dir_get d n \/ dir_get d' n = Some (EFile data).
Proof.
  intros ws d n data d' H. pose proof (tmp_name_neq n) as Hneq.
  wf_cases H; inversion H; subst; clear H;
    try (left; repeat first [rewrite dir_get_del_other by congruence | rewrite dir_get_set_other by congruence]; reflexivity).
  right.
  rewrite (stored_all _ _ E3). apply dir_get_set_same.
Qed.

(* in every case *)
Lemma write_name_cases : forall ws d n data d' r,
  write_file_at ws d n data = (d', r) ->
  dir_get d' n = dir_get d n \/ dir_get d' n = Some (EFile data).
Proof.
  intros ws d n data d' r H. destruct r.
  - right. apply write_ok in H. tauto.
  - left. eapply write_err; eassumption.
  - eapply write_died; eassumption.
Qed.

(* without faults the write succeeds when neither name is occupied by a directory *)
Lemma write_no_fault : forall d n data,
  is_dir (dir_get d (tmp_name n)) = false -> is_dir (dir_get d n) = false ->
  exists d', write_file_at ws_ok d n data = (d', WOk).
Proof.
  intros d n data Ht Hn. unfold write_file_at, ws_ok, stored.
  cbn [ws_open_err ws_n ws_write_err ws_close_err ws_rename_err ws_kill Nat.eqb orb].
  rewrite Ht, Hn. rewrite Nat.ltb_irrefl. cbn [orb]. eexists. reflexivity.
Qed.

(* the code before the fix: commits (write_file_at_v0) *)

(* a short write without error is reported as success and leaves a truncated file *)
Lemma v0_short_write_refuted :
  exists ws d n data d' part,
    write_file_at_v0 ws d n data = (d', WOk) /\ dir_get d' n = Some (EFile part) /\ part <> data /\ part <> [].
Proof.
  exists {| ws_open_err := false; ws_n := Some 1%nat; ws_write_err := false; ws_close_err := false;
            ws_rename_err := false; ws_kill := 0 |}, [], [99; 46; 102; 102], [1; 2; 3], [([99; 46; 102; 102], EFile [1])], [1].
  vm_compute. repeat split; discriminate.
Qed.

(* a process killed in the middle of the write leaves a non-empty prefix under the chunk's name *)
Lemma v0_crash_mid_write_refuted :
  exists ws d n data d' part,
    write_file_at_v0 ws d n data = (d', WDied) /\ dir_get d' n = Some (EFile part) /\ part <> data /\ part <> [].
Proof.
  exists {| ws_open_err := false; ws_n := Some 2%nat; ws_write_err := false; ws_close_err := false;
            ws_rename_err := false; ws_kill := 2 |}, [], [99; 46; 102; 102], [1; 2; 3], [([99; 46; 102; 102], EFile [1; 2])], [1; 2].
  vm_compute. repeat split; discriminate.
Qed.
