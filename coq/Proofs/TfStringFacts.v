(* C15: the byte-string helpers of Model/Extractor.v (HasPrefix, HasSuffix, Index, LastIndex,
   the scanning loops) against their abstract meaning in Spec/TransformsSpec.v. *)
From SV Require Import Model.Common Model.Extractor Spec.TransformsSpec Proofs.CommonFacts.
From Coq Require Import Lia ZifyBool ZifyN ZifyNat.
Open Scope N_scope.

Lemma skipn_S_length_app : forall (a : bytes) c b, skipn (S (length a)) (a ++ c :: b) = b.
Proof. intros. rewrite skipn_app, skipn_all2, Nat.sub_succ_l, Nat.sub_diag by lia. reflexivity. Qed.

Lemma match_rev : forall (A B : Type) (x : list A) (a b : B),
  match rev x with [] => a | _ :: _ => b end = match x with [] => a | _ :: _ => b end.
Proof. intros A B [|c x] a b; [reflexivity|]. cbn [rev]. destruct (rev x); reflexivity. Qed.

Lemma rev_nonempty : forall x : bytes, x <> [] -> rev x <> [].
Proof. intros x H E. apply H. rewrite <- (rev_involutive x), E. reflexivity. Qed.

Lemma is_prefix_iff : forall p s, is_prefix p s = true <-> exists x, s = p ++ x.
Proof.
  induction p as [|a p IH]; intros s; cbn [is_prefix].
  - split; [intros _; exists s; reflexivity|reflexivity].
  - destruct s as [|b s].
    + split; [discriminate|intros [x Hx]; discriminate].
    + rewrite andb_true_iff, IH. split.
      * intros [Hab [x Hx]]. exists x. cbn. f_equal; [lia|assumption].
      * intros [x Hx]. inversion Hx; subst. split; [lia|exists x; reflexivity].
Qed.

Lemma is_prefix_app : forall p x, is_prefix p (p ++ x) = true.
Proof. intros. apply is_prefix_iff. exists x. reflexivity. Qed.

Lemma is_suffix_iff : forall p s, is_suffix p s = true <-> exists x, s = x ++ p.
Proof.
  intros p s. unfold is_suffix. rewrite andb_true_iff, bytes_eqb_eq. split.
  - intros [Hl He]. exists (firstn (length s - length p) s). rewrite <- He at 2. symmetry. apply firstn_skipn.
  - intros [x ->]. rewrite app_length. split; [lia|].
    rewrite Nat.add_sub. apply skipn_length_app.
Qed.

Lemma is_prefix_rev : forall p s, is_prefix (rev p) (rev s) = is_suffix p s.
Proof.
  intros p s. apply eq_true_iff_eq. rewrite is_prefix_iff, is_suffix_iff. split; intros [x Hx]; exists (rev x).
  - apply (f_equal (@rev N)) in Hx. rewrite rev_app_distr, !rev_involutive in Hx. exact Hx.
  - rewrite Hx. apply rev_app_distr.
Qed.

(* occurrences by offset: Index finds the least, LastIndex the greatest *)
Definition occurs_at (needle hay : bytes) (j : nat) : Prop := exists a b, hay = a ++ needle ++ b /\ length a = j.

Lemma occurs_at_prefix : forall needle hay j,
  occurs_at needle hay j <-> is_prefix needle (skipn j hay) = true /\ (j <= length hay)%nat.
Proof.
  intros needle hay j. split.
  - intros (a & b & -> & <-). rewrite skipn_length_app, app_length.
    split; [apply is_prefix_app|lia].
  - intros [H Hl]. apply is_prefix_iff in H as [x Hx]. exists (firstn j hay), x.
    rewrite <- Hx, firstn_skipn, firstn_length. split; [reflexivity|lia].
Qed.

Lemma occurs_at_bound : forall needle hay j, occurs_at needle hay j -> (j + length needle <= length hay)%nat.
Proof. intros needle hay j (a & b & -> & <-). rewrite !app_length. lia. Qed.

Lemma occurs_at_0 : forall needle hay, occurs_at needle hay 0 <-> is_prefix needle hay = true.
Proof. intros. rewrite occurs_at_prefix. cbn [skipn]. intuition lia. Qed.

Lemma occurs_at_S : forall needle c t j, occurs_at needle (c :: t) (S j) <-> occurs_at needle t j.
Proof. intros. rewrite !occurs_at_prefix. cbn [skipn length]. intuition lia. Qed.

(* first_occurrence and last_occurrence are the least and the greatest offset; R is the order *)
Lemma extreme_occurrence : forall (R : nat -> nat -> Prop) needle hay i,
  ((exists b, hay = firstn i hay ++ needle ++ b) /\ (i + length needle <= length hay)%nat /\
   forall a' b', hay = a' ++ needle ++ b' -> R i (length a')) <->
  (occurs_at needle hay i /\ forall j, occurs_at needle hay j -> R i j).
Proof.
  intros R needle hay i. split.
  - intros ((b & Hb) & Hl & Hext). split.
    + exists (firstn i hay), b. rewrite firstn_length. split; [exact Hb|lia].
    + intros j (a' & b' & H & <-). exact (Hext _ _ H).
  - intros (Hi & Hext). split; [|split; [exact (occurs_at_bound _ _ _ Hi)|]].
    + destruct Hi as (a & b & -> & <-). exists b.
      rewrite firstn_length_app. reflexivity.
    + intros a' b' H. apply Hext. exists a', b'. split; [exact H|reflexivity].
Qed.

Lemma first_occurrence_least : forall needle hay i,
  first_occurrence needle hay i <-> occurs_at needle hay i /\ forall j, occurs_at needle hay j -> (i <= j)%nat.
Proof. exact (extreme_occurrence le). Qed.

Lemma last_occurrence_greatest : forall needle hay i,
  last_occurrence needle hay i <-> occurs_at needle hay i /\ forall j, occurs_at needle hay j -> (j <= i)%nat.
Proof. exact (extreme_occurrence (fun i j => (j <= i)%nat)). Qed.

(* restricting the haystack to a window *)
Lemma occurs_at_firstn : forall needle hay n j,
  occurs_at needle (firstn n hay) j <-> occurs_at needle hay j /\ (j + length needle <= n)%nat.
Proof.
  intros needle hay n j. split.
  - intros H. pose proof (occurs_at_bound _ _ _ H) as Hb. rewrite firstn_length in Hb. split; [|lia].
    destruct H as (a & b & H & <-). exists a, (b ++ skipn n hay).
    rewrite <- (firstn_skipn n hay) at 1. rewrite H, <- !app_assoc. split; reflexivity.
  - intros ((a & b & -> & <-) & Hn). exists a, (firstn (n - length a - length needle) b).
    rewrite !firstn_app, !firstn_all2 by lia. split; reflexivity.
Qed.

Lemma index_of_least : forall needle hay,
  match index_of needle hay with
  | Some i => occurs_at needle hay i /\ forall j, occurs_at needle hay j -> (i <= j)%nat
  | None => forall j, ~ occurs_at needle hay j
  end.
Proof.
  intros needle. induction hay as [|c t IH]; cbn [index_of].
  - destruct needle; [split; [apply occurs_at_0; reflexivity|lia]|].
    intros j H. apply occurs_at_bound in H. cbn [length] in H. lia.
  - destruct (is_prefix needle (c :: t)) eqn:E; [split; [apply occurs_at_0; exact E|lia]|].
    assert (H0 : ~ occurs_at needle (c :: t) 0) by (rewrite occurs_at_0, E; discriminate).
    destruct (index_of needle t) as [k|]; cbn [option_map].
    + destruct IH as [Hk Hmin]. split; [apply occurs_at_S; exact Hk|].
      intros [|j] Hj; [contradiction|]. apply occurs_at_S, Hmin in Hj. lia.
    + intros [|j] Hj; [contradiction|]. rewrite occurs_at_S in Hj. exact (IH j Hj).
Qed.

Lemma index_of_iff : forall needle hay i, index_of needle hay = Some i <-> first_occurrence needle hay i.
Proof.
  intros needle hay i. rewrite first_occurrence_least. pose proof (index_of_least needle hay) as H.
  destruct (index_of needle hay) as [k|].
  - destruct H as [Hk Hmin]. split; [intros [= <-]; split; assumption|].
    intros [Hi Hmin']. apply Hmin in Hi. apply Hmin' in Hk. f_equal. lia.
  - split; [discriminate|]. intros [Hi _]. destruct (H i Hi).
Qed.

(* searching in the first n bytes = the first occurrence, provided it ends within them: an earlier occurrence
   in hay lies inside the window as well *)
Lemma first_occurrence_firstn : forall needle hay n i,
  first_occurrence needle (firstn n hay) i <->
  first_occurrence needle hay i /\ (i + length needle <= n)%nat.
Proof.
  intros needle hay n i. rewrite !first_occurrence_least, occurs_at_firstn. split.
  - intros [[Hi Hn] Hmin]. repeat split; try assumption. intros j Hj.
    destruct (Nat.le_gt_cases i j) as [|Hlt]; [assumption|]. apply Hmin, occurs_at_firstn. split; [assumption|lia].
  - intros [[Hi Hmin] Hn]. repeat split; try assumption. intros j Hj. apply Hmin, (occurs_at_firstn _ _ n), Hj.
Qed.

Lemma first_occurrence_unique : forall needle hay i j,
  first_occurrence needle hay i -> first_occurrence needle hay j -> i = j.
Proof.
  intros needle hay i j Hi Hj. apply first_occurrence_least in Hi as [Hi Hmin], Hj as [Hj Hmin'].
  apply Hmin in Hj. apply Hmin' in Hi. lia.
Qed.

Lemma last_index_of_greatest : forall needle hay,
  match last_index_of needle hay with
  | Some i => occurs_at needle hay i /\ forall j, occurs_at needle hay j -> (j <= i)%nat
  | None => forall j, ~ occurs_at needle hay j
  end.
Proof.
  intros needle. induction hay as [|c t IH]; cbn [last_index_of].
  - destruct needle; [split; [apply occurs_at_0; reflexivity|]|]; intros j H; apply occurs_at_bound in H;
      cbn [length] in H; lia.
  - destruct (last_index_of needle t) as [k|].
    + destruct IH as [Hk Hmax]. split; [apply occurs_at_S; exact Hk|].
      intros [|j] Hj; [lia|]. apply occurs_at_S, Hmax in Hj. lia.
    + destruct (is_prefix needle (c :: t)) eqn:E.
      * split; [apply occurs_at_0; exact E|]. intros [|j] Hj; [lia|]. rewrite occurs_at_S in Hj. destruct (IH j Hj).
      * intros [|j] Hj; [rewrite occurs_at_0, E in Hj; discriminate|]. rewrite occurs_at_S in Hj. exact (IH j Hj).
Qed.

Lemma last_index_of_iff : forall needle hay i, last_index_of needle hay = Some i <-> last_occurrence needle hay i.
Proof.
  intros needle hay i. rewrite last_occurrence_greatest. pose proof (last_index_of_greatest needle hay) as H.
  destruct (last_index_of needle hay) as [k|].
  - destruct H as [Hk Hmax]. split; [intros [= <-]; split; assumption|].
    intros [Hi Hmax']. apply Hmax in Hi. apply Hmax' in Hk. f_equal. lia.
  - split; [discriminate|]. intros [Hi _]. destruct (H i Hi).
Qed.

Lemma last_occurrence_unique : forall needle hay i j,
  last_occurrence needle hay i -> last_occurrence needle hay j -> i = j.
Proof.
  intros needle hay i j Hi Hj. apply last_occurrence_greatest in Hi as [Hi Hmax], Hj as [Hj Hmax'].
  apply Hmax in Hj. apply Hmax' in Hi. lia.
Qed.

(* reversing needle and haystack turns LastIndex into Index *)
Lemma occurs_at_rev : forall needle hay j,
  occurs_at needle hay j -> occurs_at (rev needle) (rev hay) (length hay - j - length needle).
Proof.
  intros needle hay j (a & b & -> & <-). exists (rev b), (rev a).
  rewrite !rev_app_distr, <- app_assoc, rev_length, !app_length. split; [reflexivity|lia].
Qed.

Lemma index_of_rev : forall needle hay,
  index_of (rev needle) (rev hay) =
  option_map (fun i => (length hay - i - length needle)%nat) (last_index_of needle hay).
Proof.
  intros needle hay. pose proof (last_index_of_greatest needle hay) as H.
  destruct (last_index_of needle hay) as [i|]; cbn [option_map].
  - destruct H as [Hi Hmax]. apply index_of_iff, first_occurrence_least. split; [apply occurs_at_rev; exact Hi|].
    intros j Hj. pose proof (occurs_at_bound _ _ _ Hj) as Hb. apply occurs_at_rev in Hj.
    rewrite !rev_involutive in Hj. apply Hmax in Hj. rewrite !rev_length in *. lia.
  - pose proof (index_of_least (rev needle) (rev hay)) as H'.
    destruct (index_of (rev needle) (rev hay)) as [k|]; [|reflexivity].
    destruct H' as [Hk _]. apply occurs_at_rev in Hk. rewrite !rev_involutive in Hk. destruct (H _ Hk).
Qed.

Lemma last_occurrence_rev : forall needle a b,
  last_occurrence needle (a ++ needle ++ b) (length a) <->
  first_occurrence (rev needle) (rev b ++ rev needle ++ rev a) (length (rev b)).
Proof.
  intros needle a b. rewrite <- index_of_iff, <- last_index_of_iff.
  replace (rev b ++ rev needle ++ rev a) with (rev (a ++ needle ++ b)) by (rewrite !rev_app_distr, <- app_assoc; reflexivity).
  rewrite index_of_rev. split.
  - intros ->. cbn [option_map]. rewrite rev_length, !app_length. f_equal. lia.
  - destruct (last_index_of needle (a ++ needle ++ b)) as [i|] eqn:E; [|discriminate].
    apply last_index_of_iff in E. destruct E as (_ & Hb & _). rewrite rev_length, !app_length in *.
    intros [= H]. f_equal. lia.
Qed.

Lemma count_while_le : forall p s, (count_while p s <= length s)%nat.
Proof. induction s as [|c t IH]; cbn [count_while length]; [lia|]. destruct (p c); lia. Qed.

Lemma count_while_prefix : forall p s, Forall (fun c => p c = true) (firstn (count_while p s) s).
Proof.
  induction s as [|c t IH]; cbn [count_while]; [constructor|].
  destruct (p c) eqn:E; cbn [firstn]; [constructor; assumption|constructor].
Qed.

Lemma count_while_stop : forall p s,
  match skipn (count_while p s) s with [] => True | c :: _ => p c = false end.
Proof.
  induction s as [|c t IH]; cbn [count_while]; [exact I|].
  destruct (p c) eqn:E; cbn [skipn]; assumption.
Qed.

Lemma count_while_all : forall p s, count_while p s = length s <-> Forall (fun c => p c = true) s.
Proof.
  induction s as [|c t IH]; cbn [count_while length].
  - split; [constructor|reflexivity].
  - destruct (p c) eqn:E.
    + split; [intros H; constructor; [assumption|apply IH; lia]|intros H; inversion H; subst; f_equal; apply IH; assumption].
    + split; [lia|intros H; inversion H; congruence].
Qed.

Lemma count_while_app : forall p a b, Forall (fun c => p c = true) a ->
  count_while p (a ++ b) = (length a + count_while p b)%nat.
Proof.
  intros p a b H. induction H as [|c a Hc Ha IH]; [reflexivity|].
  cbn [app count_while length]. rewrite Hc, IH. reflexivity.
Qed.

Lemma count_while_stop_at : forall p a b, Forall (fun c => p c = true) a ->
  match b with [] => True | c :: _ => p c = false end -> count_while p (a ++ b) = length a.
Proof.
  intros p a b Ha Hb. rewrite count_while_app by assumption.
  destruct b as [|c b]; cbn [count_while]; [lia|]. rewrite Hb. lia.
Qed.

Lemma drop_blank_count : forall s, drop_blank s = skipn (count_while blank s) s.
Proof.
  induction s as [|c t IH]; [reflexivity|]. cbn [drop_blank count_while]. unfold blank at 1.
  destruct (c <=? 32); [exact IH|reflexivity].
Qed.

Lemma trim_blank_spec : forall s, trim_blank s = Ok (trim_ref s).
Proof.
  intros s. unfold trim_blank, trim_ref. rewrite !drop_blank_count.
  set (i := count_while blank s). set (m := skipn i s).
  set (k := count_while blank (rev m)).
  assert (Hi : (i <= length s)%nat) by apply count_while_le.
  assert (Hk : (k <= length m)%nat) by (unfold k; rewrite <- rev_length; apply count_while_le).
  assert (Hm : length m = (length s - i)%nat) by (unfold m; apply skipn_length).
  unfold slice. replace (Nat.leb i (length s - k) && Nat.leb (length s - k) (length s))%bool with true by lia.
  f_equal.
  fold m. fold k. rewrite skipn_rev, rev_involutive. f_equal. lia.
Qed.

(* the reference is what "trimmed" means: blanks removed at both ends, nothing else *)
Lemma drop_blank_split : forall s, exists a, s = a ++ drop_blank s /\ all_blank a /\
  match drop_blank s with [] => True | c :: _ => 32 < c end.
Proof.
  induction s as [|c t (a & Ha & Hb & Hh)]; [exists []; repeat split; constructor|].
  cbn [drop_blank]. destruct (c <=? 32) eqn:E.
  - exists (c :: a). split; [cbn; f_equal; assumption|]. split; [constructor; [lia|assumption]|assumption].
  - exists []. split; [reflexivity|]. split; [constructor|lia].
Qed.

Lemma trim_ref_spec : forall s, exists a b, s = a ++ trim_ref s ++ b /\ all_blank a /\ all_blank b /\
  match trim_ref s with [] => True | c :: _ => 32 < c end /\
  match rev (trim_ref s) with [] => True | c :: _ => 32 < c end.
Proof.
  intros s. unfold trim_ref.
  destruct (drop_blank_split s) as (a & Ha & Hba & Hha).
  destruct (drop_blank_split (rev (drop_blank s))) as (b & Hb & Hbb & Hhb).
  set (m := drop_blank s) in *. set (x := drop_blank (rev m)) in *.
  exists a, (rev b). split; [|split; [assumption|split]].
  - rewrite Ha at 1. f_equal. rewrite <- (rev_involutive m). rewrite Hb. rewrite rev_app_distr. reflexivity.
  - unfold all_blank in *. apply Forall_rev. assumption.
  - split; [|rewrite rev_involutive; assumption].
    (* the first byte of the result is the first byte of m unless everything was blank *)
    assert (Hm : m = rev x ++ rev b) by (rewrite <- rev_app_distr, <- Hb, rev_involutive; reflexivity).
    destruct (rev x) as [|c r] eqn:Er; [exact I|].
    rewrite Hm in Hha. cbn in Hha. assumption.
Qed.

Lemma drop_blank_app_blank : forall a x, all_blank a -> drop_blank (a ++ x) = drop_blank x.
Proof.
  intros a x H. induction H as [|c a Hc _ IH]; [reflexivity|].
  cbn [app drop_blank]. replace (c <=? 32) with true by lia. exact IH.
Qed.

Lemma drop_blank_id : forall x, match x with [] => True | c :: _ => 32 < c end -> drop_blank x = x.
Proof. intros [|c x] H; [reflexivity|]. cbn [drop_blank]. replace (c <=? 32) with false by lia. reflexivity. Qed.

(* ... and such a decomposition determines the middle part *)
Lemma trim_ref_middle : forall a m b, all_blank a -> all_blank b ->
  match m with [] => True | c :: _ => 32 < c end -> match rev m with [] => True | c :: _ => 32 < c end ->
  trim_ref (a ++ m ++ b) = m.
Proof.
  intros a m b Ha Hb Hm Hr. unfold trim_ref. rewrite drop_blank_app_blank by assumption.
  destruct m as [|c m'].
  - cbn [app]. rewrite <- (app_nil_r b), drop_blank_app_blank by assumption. reflexivity.
  - rewrite (drop_blank_id ((c :: m') ++ b)) by exact Hm.
    rewrite rev_app_distr, drop_blank_app_blank by (apply Forall_rev; assumption).
    rewrite drop_blank_id by assumption. apply rev_involutive.
Qed.

(* the conditions are symmetric, so trimming commutes with reversal *)
Lemma trim_ref_rev : forall s, trim_ref (rev s) = rev (trim_ref s).
Proof.
  intros s. destruct (trim_ref_spec s) as (a & b & Hs & Ha & Hb & Hh & Hl).
  rewrite Hs at 1. rewrite !rev_app_distr, <- app_assoc.
  apply trim_ref_middle; try (apply Forall_rev; assumption); [assumption|rewrite rev_involutive; assumption].
Qed.
