(* C07: concrete configurations and inputs evaluated by vm_compute: the hypotheses of the theorems are satisfiable
   (example), and the two defects of the original code (the switches c_fix_labels / c_fix_ser off). *)
From SV Require Import Model.Common.
From SV Require Model.Utf8 Model.Parser Model.ParseTime Model.Redact Model.Template Model.Extractor Model.Transforms
               Model.Routing Model.Serializer Model.PipelineSerializer Model.Packer Model.Framing.
From SV Require Import Model.Pipeline Proofs.PipelineProofs.
From SV Require Spec.FramingSpec Proofs.ParserProofs Proofs.TransformsProofs Proofs.TagTemplateProofs.
From Coq Require Import Lia.

Definition b (s : list N) : bytes := s.

Definition n_facility : bytes := [102;97;99;105;108;105;116;121]%N.
Definition n_level : bytes := [108;101;118;101;108]%N.
Definition n_time : bytes := [116;105;109;101]%N.
Definition n_host : bytes := [104;111;115;116]%N.
Definition n_app : bytes := [97;112;112]%N.
Definition n_pid : bytes := [112;105;100]%N.
Definition n_source : bytes := [115;111;117;114;99;101]%N.
Definition n_extradata : bytes := [101;120;116;114;97;100;97;116;97]%N.
Definition n_log : bytes := [108;111;103]%N.

Definition ex_schema : list bytes :=
  [n_facility; n_level; n_time; n_host; n_app; n_pid; n_source; n_extradata; n_log].

(* extractions: delFields [facility, pid, extradata]
   orchestration: keys [app], tag "t.$app";  metricKeys [host]
   transformations: parseTime key=time errorLabel=timeError; redactEmail key=log metricLabel=redacted;
                    drop (level = "debug") 100% label "dbg"
   one fluentdForward output: environment [host, app], rewrite log: unescape; PackedForward, no limits
   limits: InputLogMaxMessageBytes 64, InputLogMaxRecordBytes 96 (serializer buffer 192, line buffer 384) *)
Definition l_time_error : bytes := [116;105;109;101;69;114;114;111;114]%N.
Definition l_redacted : bytes := [114;101;100;97;99;116;101;100]%N.
Definition l_dbg : bytes := [100;98;103]%N.
Definition v_debug : bytes := [100;101;98;117;103]%N.

Definition ex_cfg (fix_labels fix_ser : bool) : config :=
  {| c_parser := {| Ps.max_msg := 64; Ps.max_rec := 96; Ps.level_mapping := Ps.severity_names |};
     c_nfields := 10;
     c_schema := ex_schema;
     c_locs := {| l_facility := 0; l_level := 1; l_time := 2; l_host := 3; l_app := 4; l_pid := 5;
                  l_source := 6; l_extradata := 7; l_log := 8 |};
     c_extract := XCons (XBase (T.TDelFields [0; 5; 7]%nat)) XNil;
     c_okeys := [4%nat];
     c_tag := [R.TLit [116; 46]%N; R.TVar 0];
     c_mkeys := [3%nat];
     c_transforms :=
       XCons (XBlock (XCons (XParseTime 2 l_time_error) XNil))
       (XCons (XRedact 8 l_redacted)
       (XCons (XBase (T.TDrop [(1%nat, T.VEq v_debug)] 100 l_dbg 0 0)) XNil));
     c_outputs := [ {| oc_kind := OFluentd {| S.c_env := [n_host; n_app]; S.c_hidden := [];
                                              S.c_rewrite := [(n_log, [S.RcUnescape])] |};
                       oc_pack := K.fluentd_config 1 0 0 [] |} ];
     c_buflen := 192; c_linebuf := 384; c_local_off := 0; c_json := (fun _ => []);
     c_fix_labels := fix_labels; c_fix_ser := fix_ser |}.

Definition O := T.tiny_oracles.

Lemma ex_config_ok : config_ok O (ex_cfg true true).
Proof.
  constructor; cbn.
  - reflexivity.
  - unfold locs_ok. cbn. lia.
  - lia.
  - split; exact I.
  - repeat split; lia.
  - repeat constructor.
  - repeat constructor.
  - repeat constructor.
  - constructor; [reflexivity|constructor].
  - reflexivity.
  - reflexivity.
Qed.

(* "<13>1 2020-01-02T03:04:05Z hostA appB 77 src - hello bob@example.org" *)
Definition rec_good1 : bytes :=
  [60;49;51;62;49;32; 50;48;50;48;45;48;49;45;48;50;84;48;51;58;48;52;58;48;53;90;32;
   104;111;115;116;65;32; 97;112;112;66;32; 55;55;32; 115;114;99;32; 45;32;
   104;101;108;108;111;32;98;111;98;64;101;120;97;109;112;108;101;46;111;114;103]%N.
(* "<14>1 - hostA appC 78 src - second record, NIL timestamp" *)
Definition rec_good2 : bytes :=
  [60;49;52;62;49;32; 45;32; 104;111;115;116;65;32; 97;112;112;67;32; 55;56;32; 115;114;99;32; 45;32;
   115;101;99;111;110;100;32;114;101;99;111;114;100;44;32;78;73;76;32;116;105;109;101]%N.
(* "<999>1 2020-01-02T03:04:05Z hostA appB 77 src - PRI out of range" : a record START the parser rejects *)
Definition rec_bad : bytes :=
  [60;57;57;57;62;49;32; 50;48;50;48;45;48;49;45;48;50;84;48;51;58;48;52;58;48;53;90;32;
   104;111;115;116;65;32; 97;112;112;66;32; 55;55;32; 115;114;99;32; 45;32; 80;82;73]%N.

Definition ex_lines : list bytes := [rec_good1; rec_bad; rec_good2; rec_bad].

(* the stream in two reads cut inside the first header, a read timeout (Flush) in between, then EOF *)
Definition ex_stream : bytes := FramingSpec.unlines ex_lines.
Definition ex_evs1 : list F.event :=
  [F.EvData (firstn 20 ex_stream) false; F.EvTimeout; F.EvData (skipn 20 ex_stream) true; F.EvClose].
(* the same connection without the malformed records, in one read *)
Definition ex_evs2 : list F.event := [F.EvData (FramingSpec.unlines [rec_good1; rec_good2]) false].

Lemma nonl_by_eval : forall l, existsb (N.eqb F.NL) l = false -> FramingSpec.nonl l.
Proof.
  intros l H Hin. assert (existsb (N.eqb F.NL) l = true); [|congruence].
  apply existsb_exists. exists F.NL. split; [exact Hin|apply N.eqb_refl].
Qed.

Lemma ex_lines_valid : Forall (FramingSpec.valid_line F.trs 96) ex_lines.
Proof.
  repeat apply Forall_cons; [..|apply Forall_nil];
    (split; [discriminate|split; [apply nonl_by_eval; reflexivity|split; [reflexivity|apply Nat.leb_le; reflexivity]]]).
Qed.

Lemma ex_texts :
  FramingSpec.ops_text (F.conn_ops ex_evs1) = FramingSpec.unlines ex_lines /\
  FramingSpec.ops_text (F.conn_ops ex_evs2) = FramingSpec.unlines (filter (good (ex_cfg true true)) ex_lines).
Proof. split; vm_compute; reflexivity. Qed.

(* what the example run does: the first record goes to pipeline 0 (appB), the malformed ones are dropped and counted,
   the third record opens pipeline 1 (appC); the input counters show 2 passed / 2 dropped *)
Lemma ex_run :
  match conn_run O (ex_cfg true true) g_init (1600000000, 0)%Z 0%Z ex_evs1 with
  | Ok (g, c, [RPassed 0 [s1] _; RDropParse; RPassed 1 [s2] _; RDropParse]) =>
      s1 <> [] /\ s2 <> [] /\ length (g_pipes g) = 2%nat /\
      Ps.passed_n (cs_input c) = 2%N /\ Ps.dropped_n (cs_input c) = 2%N /\
      Ps.dropped_bytes (cs_input c) = (2 * N.of_nat (length rec_bad))%N
  | _ => False
  end.
Proof. vm_compute. repeat split; discriminate. Qed.

(* the original code: defect 17 (label values) *)
(* "<13>1 2020-01-02T03:04:05Z ho\xFFst appB 77 src - hello world....." : invalid UTF-8 in the metric key field *)
Definition rec_bad_label : bytes :=
  [60;49;51;62;49;32; 50;48;50;48;45;48;49;45;48;50;84;48;51;58;48;52;58;48;53;90;32;
   104;111;255;115;116;32; 97;112;112;66;32; 55;55;32; 115;114;99;32; 45;32;
   104;101;108;108;111;32;119;111;114;108;100]%N.

Lemma original_label_panic :
  process_record O (ex_cfg false true) g_init (new_conn (ex_cfg false true)) (1600000000, 0)%Z 0%Z rec_bad_label
  = Panic site_label.
Proof. vm_compute. reflexivity. Qed.

(* with the repair the same record is delivered, and the registry still gathers *)
Lemma fixed_label_passes :
  match process_record O (ex_cfg true true) g_init (new_conn (ex_cfg true true)) (1600000000, 0)%Z 0%Z rec_bad_label with
  | Ok (g, _, RPassed 0 [s] _) => s <> [] /\ metrics_ok g = true
  | _ => False
  end.
Proof. vm_compute. split; [discriminate|reflexivity]. Qed.

(* invalid UTF-8 in an ORCHESTRATION key of the original code: no panic, but the registry can no longer gather *)
Definition rec_bad_okey : bytes :=
  [60;49;51;62;49;32; 50;48;50;48;45;48;49;45;48;50;84;48;51;58;48;52;58;48;53;90;32;
   104;111;115;116;65;32; 97;112;255;66;32; 55;55;32; 115;114;99;32; 45;32;
   104;101;108;108;111;32;119;111;114;108;100]%N.

Lemma original_okey_breaks_metrics :
  match process_record O (ex_cfg false true) g_init (new_conn (ex_cfg false true)) (1600000000, 0)%Z 0%Z rec_bad_okey with
  | Ok (g, _, RPassed 0 _ _) => metrics_ok g = false
  | _ => False
  end.
Proof. vm_compute. reflexivity. Qed.

(* the original code: defect 16 (serializer buffer) *)
(* a 200-byte host name: the parser limits only the message, the event does not fit the 192-byte buffer *)
Definition rec_huge_host : bytes :=
  [60;49;51;62;49;32; 50;48;50;48;45;48;49;45;48;50;84;48;51;58;48;52;58;48;53;90;32]%N
  ++ repeat 104%N 200 ++ [32; 97;112;112;66;32; 55;55;32; 115;114;99;32; 45;32; 120]%N.

Lemma original_overflow_panic :
  exists s, process_record O (ex_cfg true false) g_init (new_conn (ex_cfg true false)) (1600000000, 0)%Z 0%Z rec_huge_host
            = Panic s.
Proof. vm_compute. eexists. reflexivity. Qed.

Lemma fixed_overflow_passes :
  match process_record O (ex_cfg true true) g_init (new_conn (ex_cfg true true)) (1600000000, 0)%Z 0%Z rec_huge_host with
  | Ok (_, _, RPassed 0 [s] _) => (192 < length s)%nat
  | _ => False
  end.
Proof. vm_compute. lia. Qed.

(* Boundary of the property (not a finding): a garbage line that is NOT a record start.
   Lines are records only from a start line on ("<ddd>1 ", 32 bytes): everything else is a continuation line of the
   record before it (multi-line support, C08_continuation_attached).  A garbage line after a well-formed record
   therefore ends up in that record's message; the records AFTER it are untouched. *)
Definition garbage_line : bytes := [255; 254; 32; 103; 97; 114; 98; 97; 103; 101]%N.

Lemma garbage_line_joins_previous :
  conn_records (ex_cfg true true) [F.EvData (FramingSpec.unlines [rec_good1; garbage_line; rec_good2]) false]
  = Ok [rec_good1 ++ F.NL :: garbage_line; rec_good2] /\
  conn_records (ex_cfg true true) [F.EvData (FramingSpec.unlines [rec_good1; rec_good2]) false]
  = Ok [rec_good1; rec_good2].
Proof. split; vm_compute; reflexivity. Qed.

Lemma ex_cap :
  (2 * 96 + 1 + record_limit (ex_cfg true true) <= Nat.max (c_linebuf (ex_cfg true true)) (record_limit (ex_cfg true true) * 3))%nat.
Proof. vm_compute. lia. Qed.

(* the shape of the sample configuration: a fluentdForward and a datadog output *)
Definition toy_json (m : list (bytes * bytes)) : bytes :=
  concat (map (fun kv => fst kv ++ [61]%N ++ snd kv ++ [59]%N) m).     (* stands for json.Marshal: any total function *)

Definition ex_cfg2 : config :=
  let c := ex_cfg true true in
  {| c_parser := c_parser c; c_nfields := c_nfields c; c_schema := c_schema c; c_locs := c_locs c;
     c_extract := c_extract c; c_okeys := c_okeys c; c_tag := c_tag c; c_mkeys := c_mkeys c;
     c_transforms := c_transforms c;
     c_outputs := c_outputs c ++ [ {| oc_kind := ODatadog [n_host; n_app]; oc_pack := K.datadog_config 1000 5242880 |} ];
     c_buflen := c_buflen c; c_linebuf := c_linebuf c; c_local_off := 0; c_json := toy_json;
     c_fix_labels := true; c_fix_ser := true |}.

(* only the outputs differ from [ex_cfg true true] *)
Lemma ex2_config_ok : config_ok O ex_cfg2.
Proof.
  destruct ex_config_ok. constructor; try assumption.
  constructor; [reflexivity|constructor; [exact I|constructor]].
Qed.

(* the first example record goes to both outputs; the datadog stream holds the visible fields, the timestamp in
   milliseconds and ddtags = the tag *)
Lemma ex2_run :
  config_ok O ex_cfg2 /\
  match process_record O ex_cfg2 g_init (new_conn ex_cfg2) (1600000000, 0)%Z 0%Z rec_good1 with
  | Ok (_, _, RPassed 0 [s1; s2] _) =>
      s1 <> [] /\
      (* level=notice; time=2020-01-02T03:04:05Z; source=src; log=hello REDACTED; timestamp=1577934245000; ddtags=t.appB *)
      s2 = toy_json [(n_level, [110;111;116;105;99;101]%N);
                     (n_time, [50;48;50;48;45;48;49;45;48;50;84;48;51;58;48;52;58;48;53;90]%N);
                     (n_source, [115;114;99]%N);
                     (n_log, [104;101;108;108;111;32;82;69;68;65;67;84;69;68]%N);
                     (b_timestamp, [49;53;55;55;57;51;52;50;52;53;48;48;48]%N); (b_ddtags, [116;46;97;112;112;66]%N)]
  | _ => False
  end.
Proof. split; [exact ex2_config_ok|]. vm_compute. split; [discriminate|reflexivity]. Qed.
