(* C15: facts about the UTF-8 clean-up used by truncate (Model/TfUtf8.v) against the grammar
   of Spec/TfUtf8Spec.v. *)
From SV Require Import Model.Common Model.TfUtf8 Spec.TfUtf8Spec.
From Coq Require Import Lia ZifyBool ZifyN ZifyNat.
Open Scope N_scope.

(* a lead byte that is ASCII or at least C2, then at most three continuation bytes, none after an ASCII lead *)
Lemma seq_shape : forall s, utf8_seq s ->
  exists b0 cs, s = b0 :: cs /\ Forall cont cs /\ (length cs <= 3)%nat /\ (b0 <= 127 /\ cs = [] \/ 194 <= b0).
Proof.
  intros s H. destruct H; do 2 eexists; (split; [reflexivity|]).
  all: split; [unfold cont in *; repeat (constructor; [lia|]); constructor|].
  all: split; [cbn; lia|].
  all: first [left; split; [assumption|reflexivity] | right; lia].
Qed.

Lemma cont_high : forall cs, Forall cont cs -> Forall (fun b => 128 <= b) cs.
Proof. apply Forall_impl. unfold cont. lia. Qed.

Lemma rune_width_seq : forall s t, utf8_seq s -> rune_width (s ++ t) = Some (length s).
Proof.
  intros s t H.
  destruct H; unfold rune_width, seq_tail, conts, cont in *; cbn [app length];
  repeat match goal with
  | |- context [?a <? ?b] => let E := fresh in destruct (a <? b) eqn:E; [try lia|]
  | |- context [?a =? ?b] => let E := fresh in destruct (a =? b) eqn:E; try lia
  | |- context [in_rng ?a ?b ?c] =>
      let E := fresh in destruct (in_rng a b c) eqn:E; unfold in_rng in E; try lia; cbn [andb orb]
  end; try reflexivity; try lia.
Qed.

(* by the row of the table the first byte selects, then by the bytes that are there *)
Lemma rune_width_sound : forall x w, rune_width x = Some w ->
  utf8_seq (firstn w x) /\ (1 <= w <= length x)%nat.
Proof.
  intros x w H. destruct x as [|b0 t]; [discriminate|]. unfold rune_width in H.
  destruct (b0 <? 128) eqn:E0; [|clear E0;
  destruct (in_rng 194 223 b0) eqn:E1; [|clear E1;
  destruct (N.eqb_spec b0 224) as [->|_]; [|
  destruct (in_rng 225 236 b0 || in_rng 238 239 b0)%bool eqn:E3; [|clear E3;
  destruct (N.eqb_spec b0 237) as [->|_]; [|
  destruct (N.eqb_spec b0 240) as [->|_]; [|
  destruct (in_rng 241 243 b0) eqn:E6; [|clear E6;
  destruct (N.eqb_spec b0 244) as [->|_]; [|discriminate]]]]]]]].
  all: destruct t as [|b1 [|b2 [|b3 t]]]; unfold seq_tail, conts in H; rewrite ?andb_false_r in H; try discriminate.
  all: match type of H with (if ?c then _ else _) = _ => destruct c eqn:E; [|discriminate] | _ => idtac end.
  all: inversion H; subst w; unfold in_rng in *; split; [|cbn; lia].
  all: constructor; unfold cont; lia.
Qed.

Lemma rune_width_app : forall x y w, rune_width x = Some w -> rune_width (x ++ y) = Some w.
Proof.
  intros x y w H. destruct (rune_width_sound _ _ H) as [Hq Hw].
  rewrite <- (firstn_skipn w x), <- app_assoc, (rune_width_seq _ _ Hq), firstn_length. f_equal. lia.
Qed.

Lemma rune_width_cont : forall c t, cont c -> rune_width (c :: t) = None.
Proof.
  intros c t Hc. destruct (rune_width (c :: t)) as [w|] eqn:E; [exfalso|reflexivity].
  destruct (rune_width_sound _ _ E) as [Hq Hw]. destruct w as [|w]; [lia|].
  destruct (seq_shape _ Hq) as (b0 & cs & Heq & _ & _ & Hb). inversion Heq; subst b0. unfold cont in Hc. lia.
Qed.

Lemma to_valid_k_split : forall k s, (k <= length s)%nat ->
  to_valid_k k s = firstn k s ++ to_valid_k 0 (skipn k s).
Proof.
  induction k as [|k IH]; intros s Hk.
  - reflexivity.
  - destruct s as [|b t]; [cbn in Hk; lia|].
    cbn [to_valid_k firstn skipn app]. f_equal. apply IH. cbn in Hk. lia.
Qed.

Lemma to_valid_step_valid : forall s w, rune_width s = Some w ->
  to_valid_k 0 s = firstn w s ++ to_valid_k 0 (skipn w s).
Proof.
  intros s w H. pose proof (rune_width_sound _ _ H) as [_ Hw].
  destruct s as [|b t]; [discriminate|].
  cbn [to_valid_k]. rewrite H. destruct w as [|w]; [lia|].
  cbn [firstn skipn app Nat.sub]. rewrite Nat.sub_0_r. f_equal.
  apply to_valid_k_split. cbn in Hw. lia.
Qed.

Lemma to_valid_step_invalid : forall b t, rune_width (b :: t) = None ->
  to_valid_k 0 (b :: t) = to_valid_k 0 t.
Proof. intros b t H. cbn [to_valid_k]. rewrite H. reflexivity. Qed.

(* every string parses into well-formed sequences and bytes at which none starts; the former are kept *)
Lemma to_valid_ind : forall P : bytes -> bytes -> Prop,
  P [] [] ->
  (forall q t r, utf8_seq q -> P t r -> P (q ++ t) (q ++ r)) ->
  (forall b t r, rune_width (b :: t) = None -> P t r -> P (b :: t) r) ->
  forall s, P s (to_valid_utf8 s).
Proof.
  intros P Hnil Hseq Hbad s. unfold to_valid_utf8. remember (length s) as n eqn:Hn. revert s Hn.
  induction n as [n IH] using lt_wf_ind. intros s Hn.
  destruct s as [|b t]; [exact Hnil|].
  destruct (rune_width (b :: t)) as [w|] eqn:E.
  - rewrite (to_valid_step_valid _ _ E). destruct (rune_width_sound _ _ E) as [Hq Hw].
    rewrite <- (firstn_skipn w (b :: t)) at 1. apply Hseq; [assumption|].
    apply (IH (length (skipn w (b :: t)))); [|reflexivity]. rewrite skipn_length. subst n. lia.
  - rewrite (to_valid_step_invalid _ _ E). apply Hbad; [assumption|].
    apply (IH (length t)); [subst n; cbn; lia|reflexivity].
Qed.

Lemma to_valid_seq_app : forall s t, utf8_seq s -> to_valid_utf8 (s ++ t) = s ++ to_valid_utf8 t.
Proof.
  intros s t H. unfold to_valid_utf8.
  rewrite (to_valid_step_valid _ _ (rune_width_seq s t H)).
  rewrite firstn_app, Nat.sub_diag, firstn_all, firstn_O, app_nil_r.
  rewrite skipn_app, Nat.sub_diag, skipn_all. reflexivity.
Qed.

Lemma to_valid_valid_app : forall w t, valid_utf8 w -> to_valid_utf8 (w ++ t) = w ++ to_valid_utf8 t.
Proof.
  intros w t H. induction H as [|s u Hs Hu IH]; [reflexivity|].
  rewrite <- !app_assoc. rewrite to_valid_seq_app by assumption. rewrite IH. reflexivity.
Qed.

Lemma to_valid_id : forall w, valid_utf8 w -> to_valid_utf8 w = w.
Proof.
  intros w H. rewrite <- (app_nil_r w) at 1. rewrite to_valid_valid_app by assumption. apply app_nil_r.
Qed.

Lemma to_valid_is_valid : forall s, valid_utf8 (to_valid_utf8 s).
Proof.
  apply (to_valid_ind (fun _ r => valid_utf8 r)); [constructor|intros; constructor; assumption|intros; assumption].
Qed.

Lemma to_valid_length : forall s, (length (to_valid_utf8 s) <= length s)%nat.
Proof.
  apply (to_valid_ind (fun s r => (length r <= length s)%nat)); intros; rewrite ?app_length; cbn [length]; lia.
Qed.

Lemma to_valid_Forall : forall Q s, Forall Q s -> Forall Q (to_valid_utf8 s).
Proof.
  intros Q. apply (to_valid_ind (fun s r => Forall Q s -> Forall Q r)); [trivial|..].
  - intros q t r _ IH H. apply Forall_app in H as [Hq Ht]. apply Forall_app. split; [assumption|exact (IH Ht)].
  - intros b t r _ IH H. exact (IH (Forall_inv_tail H)).
Qed.

Lemma incomplete_shape : forall r, incomplete_seq r -> exists b0 cs, r = b0 :: cs /\ 194 <= b0 /\ Forall cont cs.
Proof.
  intros r (Hne & s & x & Hs & Heq & Hx). destruct (seq_shape s Hs) as (b0 & cs & -> & Hc & _ & Hb).
  destruct r as [|r0 r]; [congruence|]. inversion Heq; subst. apply Forall_app in Hc as [Hc _].
  exists r0, r. split; [reflexivity|]. split; [|assumption].
  destruct Hb as [[_ Hn]|Hb]; [|assumption]. apply app_eq_nil in Hn as [_ Hn]. contradiction.
Qed.

Lemma incomplete_all_high : forall r, incomplete_seq r -> Forall (fun b => 128 <= b) r.
Proof.
  intros r H. destruct (incomplete_shape r H) as (b0 & cs & -> & Hb & Hc).
  constructor; [lia|apply cont_high; assumption].
Qed.

(* a sequence starting at r would be a proper beginning of the sequence r belongs to *)
Lemma incomplete_width : forall r, incomplete_seq r -> rune_width r = None.
Proof.
  intros r (_ & s & x & Hs & -> & Hx). destruct (rune_width r) as [w|] eqn:E; [exfalso|reflexivity].
  pose proof (rune_width_seq _ [] Hs) as R. rewrite <- app_assoc, (rune_width_app _ _ _ E), app_length in R.
  destruct (rune_width_sound _ _ E) as [_ Hw]. inversion R. destruct x; [congruence|cbn [length] in *; lia].
Qed.

Lemma incomplete_dropped : forall r, incomplete_seq r -> to_valid_utf8 r = [].
Proof.
  intros r H. destruct (incomplete_shape r H) as (b0 & cs & Heq & _ & Hc).
  pose proof (incomplete_width r H) as Hw. subst r. unfold to_valid_utf8. rewrite (to_valid_step_invalid _ _ Hw).
  clear H Hw. induction Hc as [|c cs Hc _ IH]; [reflexivity|]. rewrite (to_valid_step_invalid _ _ (rune_width_cont c cs Hc)). exact IH.
Qed.

Lemma flea_le : forall s, (find_last_end_of_ascii s <= length s)%nat.
Proof.
  induction s as [|b t IH]; cbn [find_last_end_of_ascii length]; [lia|].
  destruct (find_last_end_of_ascii t); [destruct (b <=? 127); lia | lia].
Qed.

Lemma flea_app : forall a b,
  find_last_end_of_ascii (a ++ b) =
  match find_last_end_of_ascii b with
  | O => find_last_end_of_ascii a
  | S n => (length a + S n)%nat
  end.
Proof.
  induction a as [|x a IH]; intros b; cbn [app find_last_end_of_ascii length].
  - destruct (find_last_end_of_ascii b); reflexivity.
  - rewrite IH. destruct (find_last_end_of_ascii b); [reflexivity|]. rewrite Nat.add_succ_r. cbn. rewrite Nat.add_succ_r. reflexivity.
Qed.

Lemma flea_high : forall s, Forall (fun b => 128 <= b) s -> find_last_end_of_ascii s = O.
Proof.
  induction 1 as [|b t Hb Ht IH]; [reflexivity|].
  cbn [find_last_end_of_ascii]. rewrite IH. destruct (b <=? 127) eqn:E; [lia|reflexivity].
Qed.

(* everything after the position is non-ASCII *)
Lemma flea_tail_high : forall s, Forall (fun b => 128 <= b) (skipn (find_last_end_of_ascii s) s).
Proof.
  induction s as [|b t IH]; [constructor|].
  cbn [find_last_end_of_ascii]. destruct (find_last_end_of_ascii t) as [|n] eqn:E.
  - destruct (b <=? 127) eqn:Eb; cbn [skipn]; [exact IH|]. constructor; [lia|exact IH].
  - cbn [skipn]. exact IH.
Qed.

(* and the byte just before it (if any) is ASCII *)
Lemma flea_prev_ascii : forall s n, find_last_end_of_ascii s = S n ->
  exists b, firstn (S n) s = firstn n s ++ [b] /\ b <= 127.
Proof.
  induction s as [|b t IH]; intros n H; [discriminate|].
  cbn [find_last_end_of_ascii] in H. destruct (find_last_end_of_ascii t) as [|m] eqn:E.
  - destruct (b <=? 127) eqn:Eb; [|discriminate]. inversion H; subst. exists b. split; [reflexivity|lia].
  - inversion H; subst. destruct (IH m eq_refl) as (c & Hc & Hle). exists c. split; [|assumption].
    rewrite !firstn_cons, Hc. reflexivity.
Qed.

Lemma clean_utf8_eq : forall s,
  clean_utf8 s = Ok (firstn (find_last_end_of_ascii s) s ++ to_valid_utf8 (skipn (find_last_end_of_ascii s) s)).
Proof.
  intros s. destruct s as [|b t]; [reflexivity|].
  unfold clean_utf8. set (x := b :: t). set (e := find_last_end_of_ascii x).
  unfold overwrite_n_truncate. pose proof (flea_le x) as Hle. fold e in Hle.
  destruct (e <=? length x)%nat eqn:E; [|lia].
  f_equal. f_equal. apply firstn_all2.
  pose proof (to_valid_length (skipn e x)) as Hl. rewrite skipn_length in Hl. exact Hl.
Qed.

Lemma clean_utf8_never_panics : forall s, exists r, clean_utf8 s = Ok r.
Proof. intros s. eexists. apply clean_utf8_eq. Qed.

Lemma clean_utf8_length : forall s r, clean_utf8 s = Ok r -> (length r <= length s)%nat.
Proof.
  intros s r H. rewrite clean_utf8_eq in H. inversion H; subst.
  rewrite app_length. pose proof (to_valid_length (skipn (find_last_end_of_ascii s) s)) as Hl.
  rewrite skipn_length in Hl. rewrite firstn_length. pose proof (flea_le s). lia.
Qed.

(* the trailing non-ASCII run of the result is well-formed, the part before it is untouched *)
Lemma clean_utf8_shape : forall s r, clean_utf8 s = Ok r ->
  exists head tail, r = head ++ tail /\ is_prefix_of head s /\ valid_utf8 tail /\
                    Forall (fun b => 128 <= b) tail /\
                    (head = [] \/ exists h b, head = h ++ [b] /\ b <= 127).
Proof.
  intros s r H. rewrite clean_utf8_eq in H. inversion H; subst. clear H.
  set (e := find_last_end_of_ascii s).
  exists (firstn e s), (to_valid_utf8 (skipn e s)). split; [reflexivity|]. split.
  { exists (skipn e s). symmetry. apply firstn_skipn. }
  split; [apply to_valid_is_valid|]. split; [apply to_valid_Forall, flea_tail_high|].
  destruct e as [|n] eqn:E; [left; reflexivity|right].
  destruct (flea_prev_ascii s n E) as (b & Hb & Hle). exists (firstn n s), b. split; assumption.
Qed.

Lemma seq_high_or_single : forall s, utf8_seq s -> (exists b, s = [b] /\ b <= 127) \/ Forall (fun b => 128 <= b) s.
Proof.
  intros s H. destruct (seq_shape s H) as (b0 & cs & -> & Hc & _ & [[Hb ->]|Hb]); [left; eauto|right].
  constructor; [lia|apply cont_high; assumption].
Qed.

Lemma valid_after_last_ascii : forall w, valid_utf8 w -> valid_utf8 (skipn (find_last_end_of_ascii w) w).
Proof.
  intros w H. induction H as [|s t Hs Ht IH]; [constructor|].
  rewrite flea_app. destruct (find_last_end_of_ascii t) as [|n] eqn:E.
  - destruct (seq_high_or_single s Hs) as [(b & -> & Hb)|Hh].
    + cbn [find_last_end_of_ascii]. destruct (b <=? 127) eqn:Eb; [|lia]. cbn [app skipn]. exact Ht.
    + rewrite (flea_high s Hh). cbn [skipn]. constructor; assumption.
  - rewrite skipn_app. rewrite skipn_all2 by lia. cbn [app].
    replace (length s + S n - length s)%nat with (S n) by lia. exact IH.
Qed.

Lemma clean_valid_incomplete : forall w r, valid_utf8 w -> (r = [] \/ incomplete_seq r) ->
  clean_utf8 (w ++ r) = Ok w.
Proof.
  intros w r Hw Hr. rewrite clean_utf8_eq. f_equal.
  assert (Hh : Forall (fun b => 128 <= b) r).
  { destruct Hr as [->|Hr]; [constructor|apply incomplete_all_high; assumption]. }
  assert (Hd : to_valid_utf8 r = []).
  { destruct Hr as [->|Hr]; [reflexivity|apply incomplete_dropped; assumption]. }
  rewrite flea_app, (flea_high r Hh).
  pose proof (flea_le w) as Hle.
  rewrite firstn_app, skipn_app.
  replace (find_last_end_of_ascii w - length w)%nat with O by lia. cbn [firstn skipn]. rewrite app_nil_r.
  rewrite to_valid_valid_app by (apply valid_after_last_ascii; assumption).
  rewrite Hd, app_nil_r. apply firstn_skipn.
Qed.

(* cutting a valid string anywhere leaves complete sequences and at most one incomplete one *)
Lemma valid_cut : forall v, valid_utf8 v -> forall n,
  exists w r, firstn n v = w ++ r /\ valid_utf8 w /\ (r = [] \/ incomplete_seq r) /\ (length r <= 3)%nat.
Proof.
  intros v H. induction H as [|s t Hs Ht IH]; intros n.
  - exists [], []. rewrite firstn_nil. repeat split; [constructor|left; reflexivity|cbn; lia].
  - destruct (Nat.le_gt_cases (length s) n) as [Hge|Hlt].
    + destruct (IH (n - length s)%nat) as (w & r & Heq & Hw & Hr & Hl).
      exists (s ++ w), r. rewrite firstn_app, Heq, firstn_all2 by lia. rewrite app_assoc.
      repeat split; [constructor; assumption|assumption|assumption].
    + exists [], (firstn n s). rewrite firstn_app. replace (n - length s)%nat with O by lia.
      rewrite firstn_O, app_nil_r. split; [reflexivity|]. split; [constructor|].
      assert (Hls : (length s <= 4)%nat) by (destruct Hs; cbn; lia).
      split; [|rewrite firstn_length; lia].
      destruct n as [|n]; [left; reflexivity|right].
      split; [destruct s; cbn in *; [lia|discriminate]|].
      exists s, (skipn (S n) s). split; [assumption|]. split; [symmetry; apply firstn_skipn|].
      intro Hc. apply (f_equal (@length N)) in Hc. rewrite skipn_length in Hc. cbn in Hc. lia.
Qed.

Lemma valid_cancel : forall w x, valid_utf8 w -> valid_utf8 (w ++ x) -> valid_utf8 x.
Proof.
  intros w x Hw Hwx. pose proof (to_valid_id _ Hwx) as H1.
  rewrite to_valid_valid_app in H1 by assumption. apply app_inv_head in H1.
  rewrite <- H1. apply to_valid_is_valid.
Qed.

Lemma incomplete_prefix : forall r r', incomplete_seq r -> r' <> [] -> is_prefix_of r' r -> incomplete_seq r'.
Proof.
  intros r r' [Hne (s & x & Hs & Heq & Hx)] Hne' [y Hy]. split; [assumption|].
  exists s, (y ++ x). split; [assumption|]. split.
  - rewrite Heq, Hy, <- app_assoc. reflexivity.
  - intro Hc. apply app_eq_nil in Hc. destruct Hc as [_ Hc]. contradiction.
Qed.

Lemma incomplete_not_valid : forall r, incomplete_seq r -> ~ valid_utf8 r.
Proof.
  intros r Hr Hv. pose proof (incomplete_dropped r Hr) as Hd. rewrite (to_valid_id r Hv) in Hd.
  destruct Hr as [Hne _]. contradiction.
Qed.

(* among the prefixes of (w ++ r) with w well formed and r an incomplete sequence, none longer than w is well formed *)
Lemma longest_valid_prefix : forall w r q, valid_utf8 w -> (r = [] \/ incomplete_seq r) ->
  is_prefix_of q (w ++ r) -> valid_utf8 q -> (length q <= length w)%nat.
Proof.
  intros w r q Hw Hr [y Hy] Hq.
  destruct (Nat.le_gt_cases (length q) (length w)) as [|Hgt]; [assumption|exfalso].
  (* q = w ++ r' with r' a non-empty prefix of r *)
  assert (Hq' : q = w ++ firstn (length q - length w) r).
  { assert (H1 : firstn (length q) (w ++ r) = q) by (rewrite Hy, firstn_app, Nat.sub_diag, firstn_all, firstn_O, app_nil_r; reflexivity).
    rewrite firstn_app in H1. rewrite firstn_all2 in H1 by lia. symmetry. exact H1. }
  set (r' := firstn (length q - length w) r) in *.
  assert (Hr'ne : r' <> []).
  { intro Hc. rewrite Hc, app_nil_r in Hq'. subst q. lia. }
  destruct Hr as [->|Hr]; [unfold r' in Hr'ne; rewrite firstn_nil in Hr'ne; congruence|].
  assert (Hinc : incomplete_seq r').
  { apply (incomplete_prefix r r' Hr Hr'ne). exists (skipn (length q - length w) r). symmetry. apply firstn_skipn. }
  apply (incomplete_not_valid r' Hinc). apply (valid_cancel w r' Hw). rewrite <- Hq'. assumption.
Qed.
