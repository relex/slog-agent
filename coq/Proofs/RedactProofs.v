(* Proofs for C14: the model of redactemail.go (Model/Redact.v) against Spec/RedactSpec.v.  Each scan is evaluated on
   a text written as a concatenation around the run of characters it walks over ([run_split]); the loop of
   redactEmail1 keeps the invariant [binv]. *)
From SV Require Import Model.Common Model.Redact Spec.RedactSpec Proofs.CommonFacts Proofs.GoSemFacts.
From Coq Require Import Lia ZifyBool ZifyN ZifyNat.
Local Open Scope nat_scope.

Lemma is_word_spec : forall c, is_word c = true <-> word_ch c.
Proof. intros c. unfold is_word, word_ch, digit_ch. lia. Qed.

Lemma is_addr_spec : forall c, is_addr c = true <-> addr_ch c.
Proof.
  intros c. unfold is_addr. rewrite !orb_true_iff, is_word_spec, !N.eqb_eq. unfold addr_ch. tauto.
Qed.

Lemma is_addr_false : forall c, is_addr c = false <-> ~ addr_ch c.
Proof. intros c. rewrite <- is_addr_spec. symmetry. apply not_true_iff_false. Qed.

Ltac ch := unfold addr_ch, word_ch, digit_ch; lia.

Lemma word_is_addr : forall c, word_ch c -> addr_ch c.
Proof. intros c H. left. exact H. Qed.

Lemma word_not_dot : forall c, word_ch c -> c <> 46%N.
Proof. ch. Qed.

Lemma addr_not_at : forall c, addr_ch c -> c <> 64%N.
Proof. ch. Qed.

Lemma addr_not_slash : forall c, addr_ch c -> c <> 47%N.
Proof. ch. Qed.

Definition seg (t : bytes) (i j : nat) : bytes := firstn (j - i) (skipn i t).

Lemma sub_ok : forall t a b, a <= b -> b <= length t -> sub t a b = Ok (seg t a b).
Proof.
  intros t a b H1 H2. unfold sub, slice.
  replace (Nat.leb a b && Nat.leb b (length t))%bool with true by lia. reflexivity.
Qed.

Lemma sub_inv : forall t a b r, sub t a b = Ok r -> r = seg t a b /\ a <= b <= length t.
Proof.
  intros t a b r. unfold sub, slice.
  destruct (Nat.leb a b && Nat.leb b (length t))%bool eqn:E; intro H; inversion H; subst.
  split; [reflexivity | lia].
Qed.

Lemma seg_to_end : forall t a, seg t a (length t) = skipn a t.
Proof.
  intros t a. unfold seg. apply firstn_all2. rewrite skipn_length. lia.
Qed.

Lemma seg_prefix : forall (x y : bytes), seg (x ++ y) 0 (length x) = x.
Proof. intros. unfold seg. simpl. rewrite Nat.sub_0_r. apply firstn_length_app. Qed.

Definition all_at (t : bytes) (lo hi : nat) (P : N -> Prop) : Prop :=
  forall k, lo <= k < hi -> exists c, nth_error t k = Some c /\ P c.

Lemma all_at_mid : forall (x y z : bytes) P, Forall P y -> all_at (x ++ y ++ z) (length x) (length x + length y) P.
Proof.
  intros x y z P HF k Hk.
  rewrite nth_error_app2 by lia. rewrite nth_error_app1 by lia.
  destruct (nth_error y (k - length x)) eqn:E.
  - exists n. split; [reflexivity|]. rewrite Forall_forall in HF. apply HF. eapply nth_error_In; eauto.
  - apply nth_error_None in E. lia.
Qed.

Lemma all_at_is : forall (t x y z : bytes) lo hi P,
  t = x ++ y ++ z -> lo = length x -> hi = length x + length y -> Forall P y -> all_at t lo hi P.
Proof. intros; subst. apply all_at_mid. assumption. Qed.

Lemma all_at_no_at : forall t lo hi k, all_at t lo hi addr_ch -> lo <= k < hi -> nth_error t k <> Some 64%N.
Proof. intros t lo hi k H Hk E. destruct (H k Hk) as [c [Hc Ha]]. apply (addr_not_at c Ha). congruence. Qed.

(* text and position enter through equations, which [app_norm] and [len_norm] discharge where the lemmas
   are used (each closes its goal or fails) *)
Lemma skipn_is : forall (t x y : bytes) n, t = x ++ y -> n = length x -> skipn n t = y.
Proof. intros; subst. apply skipn_length_app. Qed.

Lemma nth_is : forall (t x : bytes) c y n, t = x ++ c :: y -> n = length x -> nth_error t n = Some c.
Proof. intros; subst. apply nth_error_mid. Qed.

Lemma seg_is : forall (t x y z : bytes) i j, t = x ++ y ++ z -> i = length x -> j = length x + length y -> seg t i j = y.
Proof.
  intros; subst. unfold seg. rewrite skipn_length_app. replace (length x + length y - length x) with (length y) by lia.
  apply firstn_length_app.
Qed.

Ltac app_norm := repeat (first [rewrite <- app_assoc | progress simpl]); reflexivity.
Ltac len_norm := simpl; repeat (rewrite app_length; simpl); lia.

Lemma index_byte_spec : forall s c,
  match index_byte s c with
  | Some k => nth_error s k = Some c /\ forall j, j < k -> nth_error s j <> Some c
  | None => forall j, nth_error s j <> Some c
  end.
Proof.
  induction s as [|x s IH]; intros c; cbn [index_byte].
  - intros [|j]; discriminate.
  - destruct (N.eqb_spec x c) as [->|Hne].
    + split; [reflexivity | intros; lia].
    + specialize (IH c). destruct (index_byte s c) as [k|]; cbn [option_map].
      * destruct IH as [H1 H2]. split; [exact H1|]. intros [|j] Hj; cbn [nth_error]; [congruence | apply H2; lia].
      * intros [|j]; cbn [nth_error]; [congruence | apply IH].
Qed.

(* strings.IndexByte(src[n:], '@'), in positions of src *)
Lemma next_at_from : forall t n,
  match index_byte (skipn n t) ch_at with
  | Some k => nth_error t (n + k) = Some 64%N /\ forall j, n <= j < n + k -> nth_error t j <> Some 64%N
  | None => forall j, n <= j -> nth_error t j <> Some 64%N
  end.
Proof.
  intros t n. pose proof (index_byte_spec (skipn n t) ch_at) as H.
  assert (E : forall j, n <= j -> nth_error t j = nth_error (skipn n t) (j - n)).
  { intros j Hj. rewrite nth_error_skipn_add. f_equal. lia. }
  destruct (index_byte (skipn n t) ch_at) as [k|].
  - destruct H as [H1 H2]. rewrite nth_error_skipn_add in H1. split; [exact H1|].
    intros j Hj. rewrite E by lia. apply H2. lia.
  - intros j Hj. rewrite E by lia. apply H.
Qed.

(* what the guard tests: a letter or digit on both sides of the '@' *)
Definition cand (t : bytes) (a : nat) : Prop :=
  0 < a /\ (exists p, nth_error t (a - 1) = Some p /\ word_ch p) /\ (exists n, nth_error t (a + 1) = Some n /\ word_ch n).

Lemma get_some : forall t i c, nth_error t i = Some c -> get t i = Ok c.
Proof. intros t i c H. unfold get. rewrite H. reflexivity. Qed.

Lemma at_guard_spec : forall t a, S a < length t -> exists b, at_guard t a = Ok b /\ (b = true <-> cand t a).
Proof.
  intros t a Hlen. unfold at_guard, cand.
  destruct (Nat.ltb_spec 0 a) as [H0|H0].
  2:{ exists false. split; [reflexivity|]. split; [discriminate | intros [H _]; lia]. }
  destruct (nth_lt t (a - 1)) as [p Hp]; [lia|].
  destruct (nth_lt t (a + 1)) as [n Hn]; [lia|].
  rewrite (get_some _ _ _ Hp), (get_some _ _ _ Hn), Hp, Hn. cbn [rbind].
  exists (is_word p && is_word n)%bool. split; [destruct (is_word p); reflexivity|].
  rewrite andb_true_iff, !is_word_spec. split.
  - intros [Hwp Hwn]. eauto 8.
  - intros (_ & (p' & [= <-] & Hwp) & n' & [= <-] & Hwn). auto.
Qed.

Lemma two_ends : forall (d : bytes), 2 <= length d -> exists f m l, d = f :: m ++ [l].
Proof.
  intros d H. destruct d as [|f d]; [simpl in H; lia|].
  destruct d as [|l m _] using rev_ind; [simpl in H; lia|]. eauto.
Qed.

Lemma numeric_ends : forall f m l,
  numeric (f :: m ++ [l]) <-> digit_ch f /\ digit_ch l /\ Forall (fun c => digit_ch c \/ c = 46%N) m.
Proof.
  intros f m l. unfold numeric. split.
  - intros [_ [HF [[c [r [E1 Hc]]] [r' [c' [E2 Hc']]]]]].
    inversion E1; subst c r.
    change (f :: m ++ [l]) with ((f :: m) ++ [l]) in E2. apply app_inj_tail in E2. destruct E2 as [_ E2]. subst c'.
    split; [exact Hc|]. split; [exact Hc'|].
    inversion HF; subst. apply Forall_app in H2. tauto.
  - intros [Hf [Hl Hm]]. split; [len_norm|]. split.
    + constructor; [left; exact Hf|]. apply Forall_app. split; [exact Hm|]. constructor; [left; exact Hl | constructor].
    + split; [exists f, (m ++ [l]); auto | exists (f :: m), l; auto].
Qed.

Lemma check_number_ends : forall f m l,
  check_number (f :: m ++ [l]) =
  Ok (is_digit f && (is_digit l && forallb (fun c => is_digit c || (c =? ch_dot)%N) m))%bool.
Proof.
  intros f m l. unfold check_number.
  remember (f :: m ++ [l]) as d eqn:Ed.
  assert (Hlen : length d = S (S (length m))) by (subst d; len_norm).
  assert (H0 : get d 0 = Ok f) by (subst d; reflexivity).
  assert (Hl : get d (length d - 1) = Ok l).
  { apply get_some. apply (nth_is _ (f :: m) l []); [subst d; reflexivity | simpl; lia]. }
  assert (Hs : sub d 1 (length d - 1) = Ok m).
  { rewrite sub_ok by lia. f_equal. apply (seg_is _ [f] m [l]); [subst d; reflexivity | reflexivity | simpl; lia]. }
  rewrite H0, Hl, Hs. replace (length d <? 2) with false by lia.
  unfold rbind. destruct (is_digit f), (is_digit l); reflexivity.
Qed.

Lemma check_number_spec : forall d, exists b, check_number d = Ok b /\ (b = true <-> numeric d).
Proof.
  intros d. destruct (Nat.ltb_spec (length d) 2) as [El|El].
  - exists false. unfold check_number. replace (length d <? 2) with true by lia.
    split; [reflexivity|]. split; [discriminate|]. intros [H _]. lia.
  - destruct (two_ends d El) as [f [m [l ->]]]. rewrite check_number_ends. eexists. split; [reflexivity|].
    rewrite numeric_ends, !andb_true_iff, !is_digit_spec, forallb_forall, Forall_forall.
    setoid_rewrite orb_true_iff. setoid_rewrite is_digit_spec. setoid_rewrite N.eqb_eq. reflexivity.
Qed.

(* Every scan walks over the longest stretch of characters of one class.  [stops P x]: a stretch followed by [x]
   cannot be extended to the right (cf. [right_context]). *)
Definition stops (P : N -> Prop) (x : bytes) : Prop :=
  match x with
  | [] => True
  | c :: _ => ~ P c
  end.

Lemma run_split : forall (P : N -> Prop) (p : N -> bool), (forall c, p c = true <-> P c) ->
  forall l, exists r x, l = r ++ x /\ Forall P r /\ stops P x.
Proof.
  intros P p Hp. induction l as [|c l IH].
  - exists [], []. split; [reflexivity|]. split; [constructor | exact I].
  - destruct (p c) eqn:E.
    + destruct IH as [r [x [-> [Hr Hx]]]]. exists (c :: r), x. split; [reflexivity|].
      split; [constructor; [apply Hp; exact E | exact Hr] | exact Hx].
    + exists [], (c :: l). split; [reflexivity|]. split; [constructor|]. simpl. rewrite <- Hp, E. discriminate.
Qed.

(* the same to the left, for address characters *)
Definition left_stop (pre : bytes) : Prop := pre = [] \/ exists p c, pre = p ++ [c] /\ ~ addr_ch c.

Lemma run_decomp : forall l : bytes, exists pre loc, l = pre ++ loc /\ Forall addr_ch loc /\ left_stop pre.
Proof.
  intros l. destruct (run_split addr_ch is_addr is_addr_spec (rev l)) as [r [x [E [Hr Hx]]]].
  exists (rev x), (rev r). split; [rewrite <- rev_app_distr, <- E; symmetry; apply rev_involutive|].
  split; [apply Forall_rev; exact Hr|].
  destruct x as [|c x]; [left; reflexivity | right; exists (rev x), c; split; [reflexivity | exact Hx]].
Qed.

(* the characters of the first label of the domain *)
Definition label_ch (c : N) : Prop := addr_ch c /\ c <> 46%N.

Lemma label_ch_dec : forall c, (is_addr c && negb (c =? 46)%N)%bool = true <-> label_ch c.
Proof. intros c. unfold label_ch. rewrite andb_true_iff, negb_true_iff, N.eqb_neq, is_addr_spec. reflexivity. Qed.

Lemma label_forall : forall l, label l -> Forall label_ch l.
Proof.
  intros l [w [r [E [Hw HF]]]]. subst l. constructor; [|exact HF].
  split; [apply word_is_addr; exact Hw | apply word_not_dot; exact Hw].
Qed.

(* the first loop stops at the end of the run of label characters: at the end of the text, at a dot, or at
   something that is no address character *)
Lemma dot_scan_run : forall l x i, Forall label_ch l -> stops label_ch x ->
  dot_scan (l ++ x) i =
  match x with
  | [] => DotNone
  | c :: _ => if is_addr c then DotAt (i + length l) else DotNotAddr
  end.
Proof.
  induction l as [|c l IH]; intros x i HF Hx; cbn [app dot_scan length].
  - destruct x as [|c x]; [reflexivity|]. cbn [dot_scan]. destruct (is_addr c) eqn:Ea; cbn [negb]; [|reflexivity].
    destruct (N.eqb_spec c ch_dot) as [_|Hne]; [f_equal; lia|].
    exfalso. apply Hx. split; [apply is_addr_spec; exact Ea | exact Hne].
  - inversion HF as [|? ? [Ha Hd] HF']; subst. apply is_addr_spec in Ha. rewrite Ha. cbn [negb].
    replace (c =? ch_dot)%N with false by (unfold ch_dot; lia).
    rewrite IH by assumption. destruct x as [|c' x]; [reflexivity|]. destruct (is_addr c'); [f_equal; lia | reflexivity].
Qed.

Lemma end_scan_run : forall r post i, Forall addr_ch r -> stops addr_ch post -> end_scan (r ++ post) i = i + length r.
Proof.
  induction r as [|c r IH]; intros post i HF HR; simpl.
  - destruct post as [|c post]; simpl; [lia|]. simpl in HR. apply is_addr_false in HR. rewrite HR. lia.
  - inversion HF; subst. replace (is_addr c) with true by (symmetry; apply is_addr_spec; assumption).
    rewrite IH by assumption. lia.
Qed.

(* the answer once the domain [dom] is delimited: rejected when it is a number *)
Definition end_of (front dom : bytes) : outcome (option nat) :=
  num <-- check_number dom ;; if num then Ok None else Ok (Some (length front + 1 + length dom)).

Lemma end_of_spec : forall front dom, exists r, end_of front dom = Ok r /\
  forall ee, r = Some ee <-> ee = length front + 1 + length dom /\ ~ numeric dom.
Proof.
  intros front dom. unfold end_of. destruct (check_number_spec dom) as [b [-> Hb]]. cbn [rbind].
  destruct b; (eexists; split; [reflexivity|]); intros ee.
  - split; [discriminate | intros [_ HN]; exfalso; apply HN, Hb; reflexivity].
  - split; [intros [= <-] | intros [-> _]; reflexivity]. split; [reflexivity|]. intro HN. apply Hb in HN. discriminate.
Qed.

Lemma dot_last_not_numeric : forall l, ~ numeric (l ++ [46%N]).
Proof.
  intros l [_ [_ [_ [r [c [E Hc]]]]]]. apply app_inj_tail in E. destruct E as [_ E]. subst c.
  unfold digit_ch in Hc. lia.
Qed.

(* redactFindEmailEnd on a text given with the stretches its scans walk over: [l] is the run of label characters
   after the '@'.  It is followed by the end of the text ... *)
Lemma find_end_no_dot : forall front l, Forall label_ch l ->
  find_end (front ++ 64%N :: l) (length front) = end_of front l.
Proof.
  intros front l Hl. remember (front ++ 64%N :: l) as t eqn:Et.
  assert (Hskip : skipn (length front + 1) t = l).
  { apply (skipn_is _ (front ++ [64%N])); [subst t; app_norm | len_norm]. }
  assert (Hlen : length t = length front + 1 + length l) by (subst t; len_norm).
  unfold find_end. rewrite Hskip. rewrite <- (app_nil_r l) at 1. rewrite dot_scan_run by (assumption || exact I).
  rewrite sub_ok by lia. rewrite seg_to_end, Hskip, Hlen. reflexivity.
Qed.

(* ... or by something that is no address character ... *)
Lemma find_end_not_addr : forall front l c x, Forall label_ch l -> ~ addr_ch c ->
  find_end (front ++ 64%N :: l ++ c :: x) (length front) = Ok None.
Proof.
  intros front l c x Hl Hc. unfold find_end.
  rewrite (skipn_is _ (front ++ [64%N]) (l ++ c :: x)) by (app_norm || len_norm).
  rewrite dot_scan_run by (assumption || (intros [H _]; exact (Hc H))).
  apply is_addr_false in Hc. rewrite Hc. reflexivity.
Qed.

(* ... or by a dot that ends the text ... *)
Lemma find_end_dot_last : forall front l, Forall label_ch l ->
  find_end (front ++ 64%N :: l ++ [46%N]) (length front) = Ok (Some (length front + 1 + length (l ++ [46%N]))).
Proof.
  intros front l Hl. remember (front ++ 64%N :: l ++ [46%N]) as t eqn:Et.
  assert (Hlen : length t = length front + 1 + length l + 1) by (subst t; len_norm).
  unfold find_end.
  rewrite (skipn_is t (front ++ [64%N]) (l ++ [46%N])) by (subst t; app_norm || len_norm).
  rewrite dot_scan_run by (assumption || (intros [_ H]; exact (H eq_refl))). change (is_addr 46) with true. cbv iota.
  replace (length front + 1 + length l =? length t - 1) with true by lia. do 2 f_equal. len_norm.
Qed.

(* ... or by a dot, a character [c] and the run [r] of address characters *)
Lemma find_end_dotted : forall front l c r post,
  Forall label_ch l -> Forall addr_ch r -> stops addr_ch post ->
  find_end (front ++ 64%N :: (l ++ 46%N :: c :: r) ++ post) (length front) =
  if is_word c then end_of front (l ++ 46%N :: c :: r) else Ok None.
Proof.
  intros front l c r post Hl Hr Hpost.
  remember (front ++ 64%N :: (l ++ 46%N :: c :: r) ++ post) as t eqn:Et. set (a := length front).
  assert (Hlen : length t = a + 1 + length l + 2 + length r + length post) by (subst t a; len_norm).
  assert (Hskip : skipn (a + 1) t = l ++ 46%N :: c :: r ++ post).
  { apply (skipn_is _ (front ++ [64%N])); [subst t; app_norm | subst a; len_norm]. }
  unfold find_end. rewrite Hskip.
  rewrite dot_scan_run by (assumption || (intros [_ H]; exact (H eq_refl))). change (is_addr 46) with true. cbv iota.
  replace (a + 1 + length l =? length t - 1) with false by lia.
  assert (Hc : nth_error t (a + 1 + length l + 1) = Some c).
  { apply (nth_is _ (front ++ 64%N :: l ++ [46%N]) c (r ++ post)); [subst t; app_norm | subst a; len_norm]. }
  rewrite (get_some _ _ _ Hc). simpl rbind. destruct (is_word c); simpl negb; cbv iota; [|reflexivity].
  assert (Hskip2 : skipn (a + 1 + length l + 2) t = r ++ post).
  { apply (skipn_is _ (front ++ 64%N :: l ++ [46%N; c])); [subst t; app_norm | subst a; len_norm]. }
  rewrite Hskip2, end_scan_run by assumption.
  rewrite sub_ok by lia.
  assert (Hseg : seg t (a + 1) (a + 1 + length l + 2 + length r) = l ++ 46%N :: c :: r).
  { apply (seg_is _ (front ++ [64%N]) _ post); [subst t; app_norm | subst a; len_norm | subst a; len_norm]. }
  rewrite Hseg. unfold end_of.
  replace (a + 1 + length l + 2 + length r) with (length front + 1 + length (l ++ 46%N :: c :: r)) by (subst a; len_norm).
  reflexivity.
Qed.

(* redactFindEmailEnd finds the end of every domain of the supported shape ... *)
Lemma find_end_complete : forall front dom post,
  domain_shape dom post -> ~ numeric dom ->
  find_end (front ++ 64%N :: dom ++ post) (length front) = Ok (Some (length front + 1 + length dom)).
Proof.
  intros front dom post HD HN.
  assert (Hend : end_of front dom = Ok (Some (length front + 1 + length dom))).
  { destruct (end_of_spec front dom) as [r [-> Hr]]. f_equal. apply Hr. split; [reflexivity | exact HN]. }
  destruct HD as [l w r post Hl Hw Hr Hpost | l Hl | l Hl]; apply label_forall in Hl.
  - rewrite find_end_dotted by assumption. rewrite (proj2 (is_word_spec w) Hw). exact Hend.
  - rewrite app_nil_r, find_end_no_dot by exact Hl. exact Hend.
  - rewrite app_nil_r. apply find_end_dot_last. exact Hl.
Qed.

(* ... and nothing else; it never panics *)
Lemma find_end_sound : forall front w0 rest0,
  word_ch w0 ->
  exists r, find_end (front ++ 64%N :: w0 :: rest0) (length front) = Ok r /\
    forall ee, r = Some ee ->
      exists dom post, w0 :: rest0 = dom ++ post /\ ee = length front + 1 + length dom /\
        domain_shape dom post /\ ~ numeric dom.
Proof.
  intros front w0 rest0 Hw0.
  destruct (run_split label_ch _ label_ch_dec (w0 :: rest0)) as [l [x [E [Hl Hx]]]]. rewrite E.
  assert (Hlab : label l).
  { destruct l as [|c l]; simpl in E.
    - exfalso. subst x. apply Hx. split; [apply word_is_addr | apply word_not_dot]; exact Hw0.
    - injection E as <- _. exists w0, l. split; [reflexivity|]. split; [exact Hw0 | inversion Hl; assumption]. }
  destruct x as [|c x].
  - (* no dot before the end of the text *)
    rewrite app_nil_r, find_end_no_dot by exact Hl. destruct (end_of_spec front l) as [r [-> Hr]].
    exists r. split; [reflexivity|]. intros ee Hee. apply Hr in Hee. destruct Hee as [-> HN].
    exists l, []. split; [symmetry; apply app_nil_r|]. split; [reflexivity|]. split; [apply dom_cut_in_label; exact Hlab | exact HN].
  - destruct (is_addr c) eqn:Ea.
    2:{ rewrite find_end_not_addr by (assumption || (apply is_addr_false; exact Ea)).
        eexists. split; [reflexivity | discriminate]. }
    assert (c = 46%N) as ->.
    { destruct (N.eq_dec c 46) as [H|H]; [exact H|]. exfalso. apply Hx. split; [apply is_addr_spec; exact Ea | exact H]. }
    destruct x as [|w x].
    + (* the dot is the last character *)
      rewrite find_end_dot_last by exact Hl. eexists. split; [reflexivity|]. intros ee [= <-].
      exists (l ++ [46%N]), []. split; [rewrite app_nil_r; reflexivity|]. split; [reflexivity|].
      split; [apply dom_cut_after_dot; exact Hlab | apply dot_last_not_numeric].
    + destruct (run_split addr_ch _ is_addr_spec x) as [r [post [-> [Hr Hpost]]]].
      replace (l ++ 46%N :: w :: r ++ post) with ((l ++ 46%N :: w :: r) ++ post) by app_norm.
      rewrite find_end_dotted by assumption.
      destruct (is_word w) eqn:Ew; [|eexists; split; [reflexivity | discriminate]].
      destruct (end_of_spec front (l ++ 46%N :: w :: r)) as [re [-> Hre]]. exists re. split; [reflexivity|].
      intros ee Hee. apply Hre in Hee. destruct Hee as [-> HN].
      exists (l ++ 46%N :: w :: r), post. split; [reflexivity|]. split; [reflexivity|]. split; [|exact HN].
      apply dom_dotted; try assumption. apply is_word_spec. exact Ew.
Qed.

(* one turn of the loop, at the character [c] *)
Lemma find_start_loop_step : forall (x : bytes) c y limit,
  find_start_loop (x ++ c :: y) limit (S (length x)) =
  if (limit <=? length x) && is_addr c then find_start_loop (x ++ c :: y) limit (length x) else Ok (S (length x)).
Proof.
  intros x c y limit. cbn [find_start_loop]. rewrite (get_some _ _ _ (nth_error_mid x c y)).
  destruct (limit <=? length x); reflexivity.
Qed.

Lemma find_start_loop_run : forall loc pre rest limit,
  Forall addr_ch loc -> left_stop pre -> limit <= length pre + length loc ->
  find_start_loop (pre ++ loc ++ rest) limit (length pre + length loc) = Ok (Nat.max (length pre) limit).
Proof.
  induction loc as [|c loc IH] using rev_ind; intros pre rest limit HF HS Hlim.
  - simpl app. simpl length in *. rewrite Nat.add_0_r in *.
    destruct HS as [E|[p [c [E Hc]]]]; subst pre; [simpl; f_equal; simpl in Hlim; lia|].
    rewrite app_length in *. simpl length in *. replace (length p + 1) with (S (length p)) in * by lia.
    rewrite <- app_assoc. simpl app. rewrite find_start_loop_step.
    apply is_addr_false in Hc. rewrite Hc, andb_false_r. f_equal. lia.
  - apply Forall_app in HF. destruct HF as [HF Hc]. inversion Hc as [|? ? Hc' _]; subst.
    rewrite app_length in *. simpl length in *.
    replace (pre ++ (loc ++ [c]) ++ rest) with ((pre ++ loc) ++ c :: rest) by app_norm.
    replace (length pre + (length loc + 1)) with (S (length (pre ++ loc))) in * by len_norm.
    rewrite find_start_loop_step. apply is_addr_spec in Hc'. rewrite Hc', andb_true_r.
    rewrite app_length in *. destruct (Nat.leb_spec limit (length pre + length loc)); [|f_equal; lia].
    rewrite <- app_assoc. apply IH; [exact HF | exact HS | lia].
Qed.

(* the scan stops at the left end of the run or at the limit; there the character before it is looked at *)
Lemma find_start_run : forall loc pre rest limit,
  Forall addr_ch loc -> left_stop pre -> limit <= length pre + length loc ->
  find_start (pre ++ loc ++ rest) (length pre + length loc) limit =
  Ok (if (limit <=? length pre) && (last pre 0 =? 47)%N then None else Some (Nat.max (length pre) limit)).
Proof.
  intros loc pre rest limit HF HS Hlim. unfold find_start.
  rewrite find_start_loop_run by assumption. cbn [rbind].
  destruct (Nat.leb_spec limit (length pre)) as [Hle|Hgt]; cbn [andb].
  - rewrite Nat.max_l by lia. destruct pre as [|c p _] using rev_ind; [reflexivity|].
    rewrite app_length, last_last, Nat.add_1_r, <- app_assoc. cbn [app].
    rewrite (get_some _ _ _ (nth_error_mid p c _)). cbn [rbind]. unfold ch_slash. destruct (c =? 47)%N; reflexivity.
  - (* the limit cuts the run: the character before it is an address character *)
    rewrite Nat.max_r by lia. destruct limit as [|i]; [lia|].
    destruct (all_at_mid pre loc rest addr_ch HF i) as [c [Hc Ha]]; [lia|]. rewrite (get_some _ _ _ Hc). cbn [rbind].
    apply addr_not_slash, N.eqb_neq in Ha. unfold ch_slash. rewrite Ha. reflexivity.
Qed.

Lemma local_part_addr : forall loc, local_part loc -> Forall addr_ch loc.
Proof.
  intros loc [r [w [-> [Hr Hw]]]]. apply Forall_app. split; [exact Hr|].
  constructor; [apply word_is_addr; exact Hw | constructor].
Qed.

Lemma domain_addr : forall dom post, domain_shape dom post ->
  Forall addr_ch dom /\ exists w d, dom = w :: d /\ word_ch w.
Proof.
  assert (H : forall l x, label l -> Forall addr_ch x ->
            Forall addr_ch (l ++ x) /\ exists w d, l ++ x = w :: d /\ word_ch w).
  { intros l x Hl Hx. split.
    - apply Forall_app. split; [|exact Hx]. eapply Forall_impl; [|exact (label_forall l Hl)]. intros c Hc. apply Hc.
    - destruct Hl as [w [r [-> [Hw _]]]]. exists w, (r ++ x). split; [reflexivity | exact Hw]. }
  intros dom post [l w r p Hl Hw Hr _ | l Hl | l Hl]; [| rewrite <- (app_nil_r l) |]; apply H; try exact Hl.
  - constructor; [ch|]. constructor; [apply word_is_addr; exact Hw | exact Hr].
  - constructor.
  - constructor; [ch | constructor].
Qed.

Set Implicit Arguments.
(* what the proofs below take from an address *)
Record shape_facts (t : bytes) (s a e : nat) : Prop := {
  sf_at : nth_error t a = Some 64%N;
  sf_cand : cand t a;
  sf_order : s < a /\ a + 1 < e /\ e <= length t;
  sf_local : all_at t s a addr_ch;
  sf_domain : all_at t (a + 1) e addr_ch
}.

Lemma email_shape_facts : forall nn t s a e, email_shape nn t s a e -> shape_facts t s a e.
Proof.
  intros nn t s a e [pre [loc [dom [post [Et [Es [Ea [Ee [HL [Hloc [HD HN]]]]]]]]]]].
  pose proof (local_part_addr _ Hloc) as HFloc. destruct Hloc as [r [w [Eloc [Hr Hw]]]].
  destruct (domain_addr _ _ HD) as [HFdom [w1 [d1 [Edom Hw1]]]].
  assert (Hlenloc : length loc = length r + 1) by (subst loc; len_norm).
  assert (Hlendom : length dom = length d1 + 1) by (subst dom; len_norm).
  assert (Hlen : length t = length pre + length loc + 1 + length dom + length post) by (subst t; len_norm).
  constructor.
  - apply (nth_is _ (pre ++ loc) 64%N (dom ++ post)); [subst t; app_norm | len_norm].
  - split; [lia|]. split.
    + exists w. split; [|exact Hw]. apply (nth_is _ (pre ++ r) w (64%N :: dom ++ post)); [subst t loc; app_norm | len_norm].
    + exists w1. split; [|exact Hw1]. apply (nth_is _ (pre ++ loc ++ [64%N]) w1 (d1 ++ post)); [subst t dom; app_norm | len_norm].
  - lia.
  - apply (all_at_is _ pre loc (64%N :: dom ++ post)); [exact Et | lia | lia | exact HFloc].
  - apply (all_at_is _ (pre ++ loc ++ [64%N]) dom post); [subst t; app_norm | len_norm | len_norm | exact HFdom].
Qed.
Unset Implicit Arguments.

Lemma literal_is_email_at : forall t s a e, email_at_literal t s a e -> email_at t s a e.
Proof.
  intros t s a e [pre [loc [dom [post [Et [Es [Ea [Ee [HL [Hloc [HD HN]]]]]]]]]]].
  exists pre, loc, dom, post. repeat (split; [assumption|]).
  intro H. apply HN. apply H.
Qed.

(* what is known about the left limit (sCopied): it is 0 or the end of a redacted span, which
   contains an '@' followed by address characters only *)
Definition linv (t : bytes) (L : nat) (spans : list span) : Prop :=
  L = 0 \/ exists s0 a0, In (s0, L) spans /\ s0 <= a0 /\ a0 + 1 < L /\ L <= length t /\
                         nth_error t a0 = Some 64%N /\ all_at t (a0 + 1) L addr_ch.

Lemma left_context_last : forall pre, left_context pre -> left_stop pre /\ last pre 0%N <> 47%N.
Proof.
  intros pre [->|[p [c [-> [H1 H2]]]]]; [split; [left; reflexivity | discriminate]|].
  rewrite last_last. split; [right; eauto | exact H2].
Qed.

Lemma boundary_complete : forall t s a e L,
  email_at t s a e -> L <= a -> find_boundary t a L = Ok (Some (Nat.max s L), Some e).
Proof.
  intros t s a e L [pre [loc [dom [post [-> [-> [-> [-> [HLc [Hloc [HD HN]]]]]]]]]]] HL.
  pose proof (local_part_addr _ Hloc) as HFloc. destruct (left_context_last _ HLc) as [HS Hsl].
  unfold find_boundary. rewrite find_start_run by assumption.
  apply N.eqb_neq in Hsl. rewrite Hsl, andb_false_r. cbn [rbind].
  rewrite app_assoc, <- app_length, find_end_complete by assumption. reflexivity.
Qed.

Lemma cand_split : forall t a, nth_error t a = Some 64%N -> cand t a ->
  exists l p n rest, t = (l ++ [p]) ++ 64%N :: n :: rest /\ a = length l + 1 /\ word_ch p /\ word_ch n.
Proof.
  intros t a Ha [Ha0 [[p [Hp Hwp]] [n [Hn Hwn]]]].
  destruct (nth_error_split _ _ Ha) as [l1 [l2 [Et El]]]. subst a t.
  destruct l1 as [|p' l _] using rev_ind; [simpl in Ha0; lia|].
  assert (El : length (l ++ [p']) = length l + 1) by len_norm. rewrite El in *.
  rewrite (nth_is _ l p' (64%N :: l2)) in Hp by (app_norm || lia). injection Hp as ->.
  rewrite nth_error_app2 in Hn by lia. replace (length l + 1 + 1 - length (l ++ [p])) with 1 in Hn by lia.
  destruct l2 as [|n' rest]; [discriminate|]. injection Hn as ->. exists l, p, n, rest. auto.
Qed.

Lemma boundary_sound : forall t a L spans,
  nth_error t a = Some 64%N -> cand t a -> L <= a -> linv t L spans ->
  exists b, find_boundary t a L = Ok b /\
    forall es ee, b = (Some es, Some ee) -> exists s, email_at t s a ee /\ es = Nat.max s L.
Proof.
  intros t a L spans Ha Hc HL Hlinv.
  destruct (cand_split t a Ha Hc) as [l [p [n [rest0 [Et [Ea [Hwp Hwn]]]]]]].
  (* the run of address characters that ends before the '@' *)
  destruct (run_decomp l) as [pre [r [-> [Hr HS]]]].
  assert (Hlp : local_part (r ++ [p])) by (exists r, p; auto).
  pose proof (local_part_addr _ Hlp) as HFloc. remember (r ++ [p]) as loc eqn:Eloc.
  replace (((pre ++ r) ++ [p]) ++ 64%N :: n :: rest0) with (pre ++ loc ++ 64%N :: n :: rest0) in Et by (subst loc; app_norm).
  replace (length (pre ++ r) + 1) with (length pre + length loc) in Ea by (subst loc; len_norm).
  clear Eloc Ha Hc Hr. subst a.
  unfold find_boundary. rewrite (f_equal (fun x => find_start x _ L) Et), find_start_run by assumption.
  destruct ((L <=? length pre) && (last pre 0 =? 47)%N)%bool eqn:Esl; cbn [rbind];
    [eexists; split; [reflexivity | discriminate]|].
  destruct (find_end_sound (pre ++ loc) n rest0 Hwn) as [re [Hend Hre]].
  rewrite <- app_assoc, <- Et, app_length in Hend. rewrite Hend. cbn [rbind]. eexists. split; [reflexivity|].
  intros es ee [= <- ->]. exists (length pre). split; [|reflexivity].
  destruct (Hre ee eq_refl) as [dom [post [Edp [Eee [HD HN]]]]]. rewrite app_length in Eee.
  exists pre, loc, dom, post. rewrite <- Edp. split; [exact Et|]. split; [reflexivity|]. split; [reflexivity|].
  split; [lia|]. split; [|auto].
  destruct HS as [->|[q [c' [-> Hc']]]]; [left; reflexivity|]. right. exists q, c'. split; [reflexivity|].
  split; [exact Hc'|]. rewrite last_last in Esl.
  destruct (Nat.leb_spec L (length (q ++ [c']))) as [Hle|Hgt]; [apply N.eqb_neq; exact Esl|].
  (* the limit lies inside the run: it is the end of a span, whose '@' stops the run *)
  rewrite app_length in Hgt, HL. simpl in Hgt, HL.
  assert (Hq : nth_error t (length q) = Some c') by (apply (nth_is _ q c' (loc ++ 64%N :: n :: rest0)); [rewrite Et; app_norm | reflexivity]).
  destruct Hlinv as [E0|[s0 [a0 [_ [_ [Ha0' [HLlen [Hat0 Hall0]]]]]]]]; [lia|].
  destruct (Nat.lt_trichotomy (length q) a0) as [Hlt|[<-|Hgt']].
  - exfalso. apply (all_at_no_at t (length (q ++ [c'])) (length (q ++ [c']) + length loc) a0); [|rewrite app_length; simpl; lia | exact Hat0].
    rewrite Et. apply all_at_mid. exact HFloc.
  - rewrite Hat0 in Hq. injection Hq as <-. discriminate.
  - exfalso. destruct (Hall0 (length q)) as [x [Hx Hax]]; [lia|]. rewrite Hq in Hx. injection Hx as <-. contradiction.
Qed.

(* [r] is the first '@' with a letter or digit on both sides, if there is one *)
Definition first_cand (t : bytes) (r : option nat) : Prop :=
  match r with
  | None => forall k, nth_error t k = Some 64%N -> ~ cand t k
  | Some f => nth_error t f = Some 64%N /\ cand t f /\ S f < length t /\
              forall k, k < f -> nth_error t k = Some 64%N -> ~ cand t k
  end.

Lemma find_first_loop_spec : forall fuel t sAt,
  nth_error t sAt = Some 64%N ->
  (forall k, k < sAt -> nth_error t k = Some 64%N -> ~ cand t k) ->
  length t < fuel + sAt ->
  exists r, find_first_loop fuel t sAt = Ok r /\ first_cand t r.
Proof.
  induction fuel as [|fuel IH]; intros t sAt Hat Hbefore Hfuel;
    assert (Hlt : sAt < length t) by (apply nth_error_Some; congruence); [lia|].
  cbn [find_first_loop]. destruct (Nat.ltb_spec (S sAt) (length t)) as [El|El].
  - destruct (at_guard_spec t sAt El) as [b [-> Hbc]]. cbn [rbind]. destruct b.
    + eexists. split; [reflexivity|]. split; [exact Hat|]. split; [apply Hbc; reflexivity|]. split; [exact El | exact Hbefore].
    + rewrite sub_ok by lia. cbn [rbind]. rewrite seg_to_end.
      assert (Hupto : forall k, k < S sAt -> nth_error t k = Some 64%N -> ~ cand t k).
      { intros k Hk Hkat. destruct (Nat.eq_dec k sAt) as [->|]; [rewrite <- Hbc; discriminate | apply Hbefore; [lia | exact Hkat]]. }
      pose proof (next_at_from t (S sAt)) as Hn. destruct (index_byte (skipn (S sAt) t) ch_at) as [k|].
      * destruct Hn as [Hk Hnk]. apply IH; [exact Hk | | lia].
        intros j Hj Hjat. destruct (Nat.lt_ge_cases j (S sAt)); [auto|]. exfalso. apply (Hnk j); [lia | exact Hjat].
      * eexists. split; [reflexivity|]. intros j Hjat.
        destruct (Nat.lt_ge_cases j (S sAt)) as [Hj|Hj]; [auto | exfalso; exact (Hn j Hj Hjat)].
  - (* sAt is the last position: no character follows this '@' *)
    eexists. split; [reflexivity|]. intros j Hjat Hc.
    assert (j < length t) by (apply nth_error_Some; congruence).
    destruct (Nat.eq_dec j sAt) as [->|].
    + destruct Hc as (_ & _ & n & Hn & _). assert (sAt + 1 < length t) by (apply nth_error_Some; congruence). lia.
    + apply (Hbefore j); [lia | exact Hjat | exact Hc].
Qed.

Lemma find_first_spec : forall t, exists r, find_first t = Ok r /\ first_cand t r.
Proof.
  intros t. unfold find_first. pose proof (next_at_from t 0) as H. cbn [skipn Nat.add] in H.
  destruct (index_byte t ch_at) as [k|].
  - destruct H as [Hk Hnk]. apply find_first_loop_spec; [exact Hk | | lia].
    intros j Hj Hjat. exfalso. apply (Hnk j); [lia | exact Hjat].
  - eexists. split; [reflexivity|]. intros j Hjat. exfalso. exact (H j (Nat.le_0_l j) Hjat).
Qed.

(* every address whose '@' lies before position n is covered by the spans *)
Definition done_upto (t : bytes) (spans : list span) (n : nat) : Prop :=
  forall s a e, email_at t s a e -> a < n -> forall i, s <= i < e -> covered spans i.

Definition done_all (t : bytes) (spans : list span) : Prop :=
  forall s a e, email_at t s a e -> forall i, s <= i < e -> covered spans i.

(* a span is the address around one '@', cut on the left at most to the end of the previous span *)
Definition justified (t : bytes) (sp : span) : Prop :=
  exists s a, s <= fst sp /\ fst sp <= a /\ a < snd sp /\ email_at t s a (snd sp).

Record binv (t : bytes) (st : rstate) : Prop := {
  bi_bounds : r_copied st <= r_at st /\ r_at st <= length t;
  bi_chain : spans_ordered 0 (rev (r_spans st)) (r_copied st);
  bi_splice : forall more, r_dst st ++ splice t (r_copied st) more = splice t 0 (rev (r_spans st) ++ more);
  bi_linv : linv t (r_copied st) (r_spans st);
  bi_sound : forall sp, In sp (r_spans st) -> justified t sp;
  bi_done : done_upto t (r_spans st) (r_at st)
}.

Lemma spans_ordered_snoc : forall l lo mid s e,
  spans_ordered lo l mid -> mid <= s -> s < e -> spans_ordered lo (l ++ [(s, e)]) e.
Proof.
  induction l as [|[s1 e1] l IH]; intros lo mid s e H Hs He; simpl in *.
  - repeat split; lia.
  - destruct H as [H1 [H2 H3]]. repeat split; try assumption. eapply IH; eassumption.
Qed.

Lemma spans_ordered_weaken : forall l lo hi hi', spans_ordered lo l hi -> hi <= hi' -> spans_ordered lo l hi'.
Proof.
  induction l as [|[s1 e1] l IH]; intros lo hi hi' H Hh; simpl in *.
  - lia.
  - destruct H as [H1 [H2 H3]]. repeat split; try assumption. eapply IH; eassumption.
Qed.

Lemma covered_cons : forall sp spans i, covered spans i -> covered (sp :: spans) i.
Proof. intros sp spans i [s [e [Hin H]]]. exists s, e. split; [right; exact Hin | exact H]. Qed.

Lemma done_upto_gap : forall t spans n n',
  done_upto t spans n -> (forall k, n <= k < n' -> nth_error t k <> Some 64%N) -> done_upto t spans n'.
Proof.
  intros t spans n n' H Hgap s a e HE Ha.
  destruct (Nat.lt_ge_cases a n) as [Hlt|Hge]; [exact (H s a e HE Hlt)|].
  exfalso. apply (Hgap a); [lia|]. exact (sf_at (email_shape_facts HE)).
Qed.

Lemma done_upto_all : forall t spans n, done_upto t spans n -> length t <= n + 1 -> done_all t spans.
Proof.
  intros t spans n H Hn s a e HE. apply (H s a e HE).
  pose proof (sf_order (email_shape_facts HE)). lia.
Qed.

(* how an iteration may end: at the next '@', not before position n, with the invariant; or with all addresses done *)
Definition step_ok (t : bytes) (n : nat) (r : step_result) : Prop :=
  match r with
  | Continue st' => binv t st' /\ nth_error t (r_at st') = Some 64%N /\ n <= r_at st'
  | Break st' => binv t st' /\ done_all t (r_spans st')
  end.

Lemma step_ok_le : forall t n n' r, step_ok t n r -> n' <= n -> step_ok t n' r.
Proof. intros t n n' [st'|st'] H Hn; [|exact H]. destruct H as [H1 [H2 H3]]. split; [exact H1|]. split; [exact H2 | lia]. Qed.

(* moving sAt to the next '@' keeps the invariant; no further '@' means every address is done *)
Lemma binv_next : forall t st, binv t st -> exists r, next_at t st = Ok r /\ step_ok t (r_at st) r.
Proof.
  intros t st HI. pose proof HI as [[Hb1 Hb2] Hch Hsp Hl Hso Hdo].
  unfold next_at. rewrite sub_ok by lia. cbn [rbind]. rewrite seg_to_end.
  pose proof (next_at_from t (r_at st)) as H.
  destruct (index_byte (skipn (r_at st) t) ch_at) as [k|]; (eexists; split; [reflexivity|]).
  - destruct H as [Hk Hgap]. assert (r_at st + k < length t) by (apply nth_error_Some; congruence).
    split; [|split; [exact Hk | simpl; lia]]. constructor; simpl; try assumption; [lia|].
    eapply done_upto_gap; [exact Hdo | exact Hgap].
  - split; [exact HI|]. apply (done_upto_all t _ (length t)); [|lia].
    apply (done_upto_gap _ _ _ _ Hdo). intros k Hk. apply H. lia.
Qed.

Lemma redact_step_spec : forall t st,
  binv t st -> nth_error t (r_at st) = Some 64%N -> S (r_at st) < length t ->
  exists r, redact_step t st = Ok r /\ step_ok t (S (r_at st)) r.
Proof.
  intros t st HI Hat Hlen.
  pose proof HI as [[Hb1 Hb2] Hch Hsp Hl Hso Hdo].
  (* "sAt++" when nothing is redacted at this '@' *)
  assert (Hskip : (forall s e, ~ email_at t s (r_at st) e) ->
            exists r, next_at t {| r_at := S (r_at st); r_copied := r_copied st; r_dst := r_dst st; r_spans := r_spans st |} = Ok r /\
                      step_ok t (S (r_at st)) r).
  { intro Hno. apply binv_next. constructor; simpl; try assumption; [lia|].
    intros s a e HE Ha. destruct (Nat.eq_dec a (r_at st)) as [->|NE]; [exfalso; exact (Hno s e HE) | apply (Hdo s a e HE); lia]. }
  unfold redact_step.
  destruct (at_guard_spec t (r_at st) Hlen) as [g [-> Hgc]]. cbn [rbind].
  destruct g.
  2:{ apply Hskip. intros s e HE. pose proof (sf_cand (email_shape_facts HE)) as H. apply Hgc in H. discriminate. }
  assert (Hcand : cand t (r_at st)) by (apply Hgc; reflexivity).
  destruct (boundary_sound t (r_at st) (r_copied st) _ Hat Hcand Hb1 Hl) as [b [Hbd Hbs]].
  assert (Hbc : forall s e, email_at t s (r_at st) e -> b = (Some (Nat.max s (r_copied st)), Some e)).
  { intros s e HE. pose proof (boundary_complete t s _ e _ HE Hb1) as H. rewrite Hbd in H. injection H as ->. reflexivity. }
  rewrite Hbd.
  cbn [rbind].
  destruct b as [[es|] [ee|]];
    try (apply Hskip; intros s e HE; specialize (Hbc s e HE); discriminate).
  (* an address is redacted *)
  destruct (Hbs es ee eq_refl) as [s [HE Hes]].
  pose proof (email_shape_facts HE) as HF. pose proof (sf_order HF) as Hord.
  rewrite sub_ok by lia. cbn [rbind].
  set (st' := {| r_at := ee; r_copied := ee; r_dst := r_dst st ++ seg t (r_copied st) es ++ redacted_word;
                 r_spans := (es, ee) :: r_spans st |}).
  assert (HI' : binv t st').
  { constructor; simpl.
    - lia.
    - eapply spans_ordered_snoc; [exact Hch | lia | lia].
    - intros more. cbn [rev]. rewrite <- !app_assoc. apply (Hsp ((es, ee) :: more)).
    - right. exists es, (r_at st). split; [left; reflexivity|]. repeat (split; [first [assumption | lia]|]). exact (sf_domain HF).
    - intros sp [<-|Hin]; [|apply Hso; exact Hin]. exists s, (r_at st). simpl.
      split; [lia|]. split; [lia|]. split; [lia | exact HE].
    - intros s' a' e' HE' Ha' i Hi.
      destruct (Nat.lt_trichotomy a' (r_at st)) as [Hlt|[->|Hgt]].
      + apply covered_cons. exact (Hdo s' a' e' HE' Hlt i Hi).
      + specialize (Hbc s' e' HE'). injection Hbc as E1 <-.
        destruct (Nat.le_gt_cases es i) as [Hge|Hlt].
        * exists es, ee. split; [left; reflexivity | lia].
        * (* the part of the address before sCopied lies in the previous span *)
          apply covered_cons.
          destruct Hl as [E0|[s0 [a0 [Hin [Hs0 [Ha0 [HLlen [Hat0 Hall0]]]]]]]]; [lia|].
          exists s0, (r_copied st). split; [exact Hin|].
          destruct (Nat.le_gt_cases s' a0) as [Hle'|Hgt']; [|lia].
          exfalso. apply (all_at_no_at _ _ _ a0 (sf_local (email_shape_facts HE'))); [lia | exact Hat0].
      + exfalso. apply (all_at_no_at _ _ _ a' (sf_domain HF)); [lia|]. exact (sf_at (email_shape_facts HE')). }
  destruct (Nat.leb_spec (length t) ee) as [Ele|Ele].
  - eexists. split; [reflexivity|]. split; [exact HI'|].
    apply (done_upto_all t _ ee); [apply HI' | lia].
  - destruct (binv_next t st' HI') as [r [Hr Hrs]]. exists r. split; [exact Hr|].
    apply (step_ok_le _ _ _ _ Hrs). simpl. lia.
Qed.

(* what holds of the result of redactEmail1 / redactEmail *)
Definition redact_post (t out : bytes) (spans : list span) : Prop :=
  spans_ordered 0 spans (length t) /\ out = splice t 0 spans /\
  (forall sp, In sp spans -> justified t sp) /\ done_all t spans.

Lemma redact_finish_spec : forall t st, binv t st -> done_all t (r_spans st) ->
  exists out spans, redact_finish t st = Ok (out, spans) /\ redact_post t out spans.
Proof.
  intros t st [[Hb1 Hb2] Hch Hsp Hl Hso Hdo] Hall.
  unfold redact_finish. rewrite sub_ok by lia. cbn [rbind]. rewrite seg_to_end.
  eexists. eexists. split; [reflexivity|]. split; [|split; [|split]].
  - eapply spans_ordered_weaken; [exact Hch | lia].
  - specialize (Hsp []). simpl in Hsp. rewrite app_nil_r in Hsp. exact Hsp.
  - intros sp Hin. apply Hso. apply in_rev. exact Hin.
  - intros s a e HE i Hi. destruct (Hall s a e HE i Hi) as [s1 [e1 [Hin H]]]. exists s1, e1. rewrite <- in_rev. auto.
Qed.

Lemma redact_loop_spec : forall fuel t st,
  binv t st -> nth_error t (r_at st) = Some 64%N -> length t < fuel + r_at st ->
  exists out spans, redact_loop fuel t st = Ok (out, spans) /\ redact_post t out spans.
Proof.
  induction fuel as [|fuel IH]; intros t st HI Hat Hfuel.
  - assert (r_at st < length t) by (apply nth_error_Some; congruence). lia.
  - simpl redact_loop. destruct (S (r_at st) <? length t) eqn:El.
    + destruct (redact_step_spec t st HI Hat) as [r [Hr Hrs]]; [lia|]. rewrite Hr. cbn [rbind].
      destruct r as [st'|st'].
      * destruct Hrs as [H1 [H2 H3]]. apply IH; [exact H1 | exact H2 | lia].
      * destruct Hrs as [H1 H2]. apply redact_finish_spec; assumption.
    + apply redact_finish_spec; [exact HI|].
      apply (done_upto_all t _ (r_at st)); [apply HI | lia].
Qed.

Theorem redact_email_spec : forall t,
  exists out spans, redact_email t = Ok (out, spans) /\ redact_post t out spans.
Proof.
  intros t. unfold redact_email. destruct (find_first_spec t) as [r [Hr Hrs]]. rewrite Hr. cbn [rbind].
  destruct r as [f|].
  - destruct Hrs as [Hat [Hc [Hlen Hbefore]]]. unfold redact1. apply redact_loop_spec; simpl; [|exact Hat|lia].
    constructor; simpl.
    + lia.
    + lia.
    + intros more. reflexivity.
    + left. reflexivity.
    + intros sp [].
    + intros s a e HE Ha. exfalso.
      pose proof (email_shape_facts HE) as HF. exact (Hbefore a Ha (sf_at HF) (sf_cand HF)).
  - exists t, []. split; [reflexivity|]. split; [simpl; lia|]. split; [reflexivity|]. split; [intros sp []|].
    intros s a e HE. exfalso. pose proof (email_shape_facts HE) as HF. exact (Hrs a (sf_at HF) (sf_cand HF)).
Qed.

Lemma spans_ordered_hi : forall l lo hi, spans_ordered lo l hi -> lo <= hi.
Proof.
  induction l as [|[s e] l IH]; intros lo hi H; simpl in H; [exact H|].
  destruct H as [H1 [H2 H3]]. specialize (IH _ _ H3). lia.
Qed.

Lemma uncovered_after : forall s e r i, ~ covered ((s, e) :: r) i -> s <= i -> e <= i.
Proof.
  intros s e r i Hnc Hs. destruct (Nat.le_gt_cases e i); [assumption|].
  exfalso. apply Hnc. exists s, e. split; [left; reflexivity | lia].
Qed.

(* everything outside the spans is preserved, byte for byte ... *)
Lemma splice_outside : forall t spans lo i,
  spans_ordered lo spans (length t) -> lo <= i -> ~ covered spans i ->
  nth_error (splice t lo spans) (out_index lo spans i) = nth_error t i.
Proof.
  intros t spans. induction spans as [|[s e] r IH]; intros lo i Hord Hlo Hnc; cbn [splice out_index].
  - rewrite nth_error_skipn_add. f_equal. lia.
  - cbn [spans_ordered] in Hord. destruct Hord as [H1 [H2 H3]].
    pose proof (spans_ordered_hi _ _ _ H3) as He.
    assert (Hlen : length (firstn (s - lo) (skipn lo t)) = s - lo).
    { apply firstn_length_le. rewrite skipn_length. lia. }
    destruct (Nat.ltb_spec i s) as [Ei|Ei].
    + rewrite nth_error_app1 by lia. rewrite nth_error_firstn_lt by lia. rewrite nth_error_skipn_add. f_equal. lia.
    + pose proof (uncovered_after _ _ _ _ Hnc Ei).
      rewrite nth_error_app2 by lia. rewrite nth_error_app2 by lia.
      replace (s - lo + length marker + out_index e r i - length (firstn (s - lo) (skipn lo t)) - length marker)
        with (out_index e r i) by lia.
      apply IH; [exact H3 | assumption|]. intro Hc. apply Hnc. apply covered_cons. exact Hc.
Qed.

(* ... in the same order ... *)
Lemma out_index_mono : forall spans lo i j,
  lo <= i -> i < j -> ~ covered spans i -> ~ covered spans j ->
  out_index lo spans i < out_index lo spans j.
Proof.
  induction spans as [|[s e] r IH]; intros lo i j Hlo Hij Hi Hj; cbn [out_index].
  - lia.
  - destruct (Nat.ltb_spec i s) as [Ei|Ei]; destruct (Nat.ltb_spec j s) as [Ej|Ej]; try lia.
    pose proof (uncovered_after _ _ _ _ Hi Ei).
    assert (out_index e r i < out_index e r j); [|lia].
    apply IH; [lia | lia | |]; intro Hc; [apply Hi | apply Hj]; apply covered_cons; exact Hc.
Qed.

(* ... and nothing is added or removed *)
Lemma splice_length : forall t spans lo,
  spans_ordered lo spans (length t) ->
  length (splice t lo spans) + span_bytes spans = (length t - lo) + length marker * length spans.
Proof.
  intros t spans. induction spans as [|[s e] r IH]; intros lo Hord; cbn [splice span_bytes].
  - rewrite skipn_length. simpl. lia.
  - cbn [spans_ordered] in Hord. destruct Hord as [H1 [H2 H3]].
    pose proof (spans_ordered_hi _ _ _ H3) as He. specialize (IH e H3).
    rewrite !app_length. rewrite firstn_length_le by (rewrite skipn_length; lia).
    cbn [length] in *. lia.
Qed.

(* Consequences, in the form used by Props/C14.v. *)

Lemma redact_email_total : forall t, exists out spans, redact_email t = Ok (out, spans).
Proof. intros t. destruct (redact_email_spec t) as [out [spans [H _]]]. eauto. Qed.

Lemma redact_email_post : forall t out spans, redact_email t = Ok (out, spans) -> redact_post t out spans.
Proof.
  intros t out spans H. destruct (redact_email_spec t) as [out' [spans' [H' HP]]].
  rewrite H in H'. inversion H'; subst. exact HP.
Qed.

Lemma structure_lemma : forall t out spans, redact_email t = Ok (out, spans) ->
  spans_ordered 0 spans (length t) /\ out = splice t 0 spans.
Proof. intros t out spans H. destruct (redact_email_post _ _ _ H) as [H1 [H2 _]]. auto. Qed.

Lemma outside_preserved_lemma : forall t out spans i, redact_email t = Ok (out, spans) ->
  ~ covered spans i -> nth_error out (out_index 0 spans i) = nth_error t i.
Proof.
  intros t out spans i H Hnc. destruct (structure_lemma _ _ _ H) as [H1 H2]. subst out.
  apply splice_outside; [exact H1 | lia | exact Hnc].
Qed.

Lemma order_and_length_lemma : forall t out spans, redact_email t = Ok (out, spans) ->
  length out + span_bytes spans = length t + 8 * length spans /\
  forall i j, i < j -> ~ covered spans i -> ~ covered spans j -> out_index 0 spans i < out_index 0 spans j.
Proof.
  intros t out spans H. destruct (structure_lemma _ _ _ H) as [H1 H2]. subst out. split.
  - pose proof (splice_length t spans 0 H1) as HL. change (length marker) with 8 in HL. unfold span in *. lia.
  - intros i j. apply out_index_mono. lia.
Qed.

Lemma complete_lemma : forall t out spans s a e, redact_email t = Ok (out, spans) ->
  email_at t s a e -> forall i, s <= i < e -> covered spans i.
Proof. intros t out spans s a e H HE. destruct (redact_email_post _ _ _ H) as [_ [_ [_ H4]]]. exact (H4 s a e HE). Qed.

Lemma complete_literal_lemma : forall t out spans s a e, redact_email t = Ok (out, spans) ->
  email_at_literal t s a e -> forall i, s <= i < e -> covered spans i.
Proof. intros t out spans s a e H HE. apply (complete_lemma t out spans s a e H). apply literal_is_email_at. exact HE. Qed.

Lemma sound_lemma : forall t out spans es ee, redact_email t = Ok (out, spans) -> In (es, ee) spans ->
  exists s a, s <= es /\ es <= a /\ a < ee /\ email_at t s a ee.
Proof.
  intros t out spans es ee H Hin. destruct (redact_email_post _ _ _ H) as [_ [_ [H3 _]]].
  exact (H3 (es, ee) Hin).
Qed.

(* a span consists of address characters and '@' only - all of them ASCII: no multi-byte character is
   ever cut or removed *)
Lemma span_chars_lemma : forall t out spans es ee i, redact_email t = Ok (out, spans) -> In (es, ee) spans ->
  es <= i < ee -> exists c, nth_error t i = Some c /\ (addr_ch c \/ c = 64%N) /\ (c < 128)%N.
Proof.
  intros t out spans es ee i H Hin Hi.
  destruct (sound_lemma _ _ _ _ _ H Hin) as [s [a [H1 [H2 [H3 HE]]]]].
  pose proof (email_shape_facts HE) as HF.
  assert (Hin' : s <= i < a \/ i = a \/ a + 1 <= i < ee) by lia.
  destruct Hin' as [Hk|[->|Hk]]; [apply (sf_local HF) in Hk | | apply (sf_domain HF) in Hk].
  2:{ exists 64%N. split; [exact (sf_at HF)|]. split; [right; reflexivity | lia]. }
  all: destruct Hk as [c [Hc Hac]]; exists c; (split; [exact Hc|]); (split; [left; exact Hac | revert Hac; ch]).
Qed.

Lemma changed_iff_email_lemma : forall t out spans, redact_email t = Ok (out, spans) ->
  (spans <> [] <-> exists s a e, email_at t s a e).
Proof.
  intros t out spans H. destruct (redact_email_post _ _ _ H) as [_ [_ [H3 H4]]]. split.
  - intro Hne. destruct spans as [|sp spans]; [congruence|].
    destruct (H3 sp (or_introl eq_refl)) as [s [a [_ [_ [_ HE]]]]]. eauto.
  - intros [s [a [e HE]]] E. subst spans.
    pose proof (sf_order (email_shape_facts HE)).
    assert (Hi : s <= s < e) by lia.
    destruct (H4 s a e HE s Hi) as [s1 [e1 [[] _]]].
Qed.

Lemma no_email_unchanged_lemma : forall t, no_email t -> redact_email t = Ok (t, []).
Proof.
  intros t Hno. destruct (redact_email_total t) as [out [spans H]].
  destruct (structure_lemma _ _ _ H) as [_ Hout].
  destruct spans as [|sp spans]; [subst out; exact H|].
  exfalso. destruct (proj1 (changed_iff_email_lemma _ _ _ H)) as [s [a [e HE]]]; [discriminate|]. exact (Hno _ _ _ HE).
Qed.

(* Transform looks at nothing in an empty field, and keeps the field when nothing was redacted; either way its
   value, spans and counter are those of redactEmail *)
Lemma transform_redact_eq : forall v out spans, redact_email v = Ok (out, spans) ->
  exists f, transform_redact v =
    Ok {| tr_first := f; tr_value := if 0 <? length spans then out else v; tr_spans := spans;
          tr_counted := 0 <? length spans |}.
Proof.
  intros v out spans H. unfold transform_redact. unfold redact_email in H.
  destruct v as [|c v]; [injection H as <- <-; eexists; reflexivity|].
  destruct (find_first (c :: v)) as [[f|]|?|?]; cbn [rbind] in *; try discriminate.
  - rewrite H. cbn [rbind]. destruct spans; eexists; reflexivity.
  - injection H as <- <-. eexists; reflexivity.
Qed.

(* the transform: field value, spans and the 'redacted' counter *)
Lemma transform_lemma : forall v,
  exists r, transform_redact v = Ok r /\
    spans_ordered 0 (tr_spans r) (length v) /\
    tr_value r = splice v 0 (tr_spans r) /\
    (forall s a e, email_at v s a e -> forall i, s <= i < e -> covered (tr_spans r) i) /\
    (forall es ee, In (es, ee) (tr_spans r) -> exists s a, s <= es /\ es <= a /\ a < ee /\ email_at v s a ee) /\
    (tr_counted r = true <-> exists s a e, email_at v s a e) /\
    (tr_counted r = false -> tr_value r = v).
Proof.
  intros v. destruct (redact_email_spec v) as [out [spans [H [H1 [H2 [H3 H4]]]]]].
  pose proof (changed_iff_email_lemma _ _ _ H) as Hch.
  destruct (transform_redact_eq _ _ _ H) as [f ->]. eexists. split; [reflexivity|].
  cbn [tr_spans tr_value tr_counted].
  split; [exact H1|]. split; [destruct spans; [reflexivity | exact H2]|]. split; [exact H4|].
  split; [intros es ee Hin; exact (H3 _ Hin)|]. rewrite <- Hch.
  destruct spans; cbn; (split; [split|]); congruence.
Qed.

(* the specification is unambiguous: one '@', at most one address *)
Lemma email_at_deterministic : forall t s a e s' e', email_at t s a e -> email_at t s' a e' -> s = s' /\ e = e'.
Proof.
  intros t s a e s' e' H1 H2.
  pose proof (boundary_complete t s a e 0 H1 (Nat.le_0_l _)) as B1.
  pose proof (boundary_complete t s' a e' 0 H2 (Nat.le_0_l _)) as B2.
  rewrite B1 in B2. inversion B2. split; lia.
Qed.

(* Concrete texts: tests of the definitions, and witnesses that the hypotheses are satisfiable. *)

(* the scan decides the specification at a given '@': this is how the addresses below are recognised *)
Lemma email_at_by_scan : forall t s a e,
  nth_error t a = Some 64%N -> S a < length t -> at_guard t a = Ok true ->
  find_boundary t a 0 = Ok (Some s, Some e) -> email_at t s a e.
Proof.
  intros t s a e Ha Hlen Hg Hb.
  destruct (at_guard_spec t a Hlen) as [g [Hg' Hc]]. rewrite Hg in Hg'. injection Hg' as <-.
  destruct (boundary_sound t a 0 [] Ha (proj1 Hc eq_refl) (Nat.le_0_l a) (or_introl eq_refl)) as [b [Hb' Hs]].
  rewrite Hb in Hb'. injection Hb' as <-. destruct (Hs s e eq_refl) as [s' [HE Es]].
  rewrite Nat.max_0_r in Es. subst s'. exact HE.
Qed.

(* "a@b.c@d.e": two overlapping addresses, a@b.c at [0,5) and b.c@d.e at [2,9), the '@' at 1 and 5 *)
Definition ex_overlap : bytes := [97;64;98;46;99;64;100;46;101]%N.

Lemma ex_overlap_first : email_at ex_overlap 0 1 5.
Proof. apply email_at_by_scan; [reflexivity | simpl; lia | reflexivity | reflexivity]. Qed.

Lemma ex_overlap_second : email_at ex_overlap 2 5 9.
Proof. apply email_at_by_scan; [reflexivity | simpl; lia | reflexivity | reflexivity]. Qed.

Lemma ex_overlap_result :
  redact_email ex_overlap = Ok (marker ++ marker, [(0, 5); (5, 9)]).
Proof. vm_compute. reflexivity. Qed.

(* "bob@163.com_2024": digits at both ends of the domain, yet an address (defect #18 before the fix) *)
Definition ex_digit_ends : bytes := [98;111;98;64;49;54;51;46;99;111;109;95;50;48;50;52]%N.

Lemma ex_digit_ends_email : email_at ex_digit_ends 0 3 16.
Proof. apply email_at_by_scan; [reflexivity | simpl; lia | reflexivity | reflexivity]. Qed.

Lemma ex_digit_ends_result : redact_email ex_digit_ends = Ok (marker, [(0, 16)]).
Proof. vm_compute. reflexivity. Qed.

(* "hello@123.456": a number, not an address: unchanged *)
Lemma ex_number_result :
  redact_email [104;101;108;108;111;64;49;50;51;46;52;53;54]%N = Ok ([104;101;108;108;111;64;49;50;51;46;52;53;54]%N, []).
Proof. vm_compute. reflexivity. Qed.
