(* Facts about arbitrary lists that several properties use; no model definitions. *)
From Coq Require Import List PeanoNat Lia Sorted.
Import ListNotations.

Lemma nth_error_lt : forall (A : Type) (l : list A) i x, nth_error l i = Some x -> i < length l.
Proof. intros A l i x H. apply nth_error_Some. rewrite H. discriminate. Qed.

Lemma nth_error_app_l : forall (A : Type) (l ext : list A) i x, nth_error l i = Some x -> nth_error (l ++ ext) i = Some x.
Proof. intros A l ext i x H. rewrite nth_error_app1; [exact H|]. exact (nth_error_lt _ _ _ _ H). Qed.

Lemma nth_error_snoc : forall (A : Type) (l : list A) x i y,
  nth_error (l ++ [x]) i = Some y -> nth_error l i = Some y \/ (i = length l /\ y = x).
Proof.
  intros A l x i y H. destruct (Nat.lt_ge_cases i (length l)) as [Hlt|Hge].
  - left. rewrite nth_error_app1 in H by exact Hlt. exact H.
  - right. rewrite nth_error_app2 in H by exact Hge.
    destruct (i - length l) as [|k] eqn:E; cbn in H; [|destruct k; discriminate]. inversion H. split; [lia|reflexivity].
Qed.

Lemma filter_length_le : forall {A} (f : A -> bool) l, length (filter f l) <= length l.
Proof. induction l as [|a l IH]; cbn [filter length]; [lia|]. destruct (f a); cbn [length]; lia. Qed.

Lemma NoDup_snoc : forall {A} (l : list A) x, NoDup l -> ~ In x l -> NoDup (l ++ [x]).
Proof. intros A l x Hnd Hnin. apply (NoDup_Add (Add_app x l [])). rewrite app_nil_r. split; assumption. Qed.

Lemma firstn_length_app : forall {A} (a b : list A), firstn (length a) (a ++ b) = a.
Proof. intros. rewrite firstn_app, Nat.sub_diag, firstn_all, firstn_O, app_nil_r. reflexivity. Qed.

Lemma skipn_length_app : forall {A} (a b : list A), skipn (length a) (a ++ b) = b.
Proof. intros. rewrite skipn_app, Nat.sub_diag, skipn_all. reflexivity. Qed.

Lemma skipn_add : forall {A} (l : list A) a b, skipn a (skipn b l) = skipn (a + b) l.
Proof.
  intros A l a b. revert l. induction b as [|b IH]; intros l; [rewrite Nat.add_0_r; reflexivity|].
  rewrite Nat.add_succ_r. destruct l; [rewrite !skipn_nil; reflexivity|apply IH].
Qed.

Lemma nth_error_skipn_add : forall {A} (l : list A) i j, nth_error (skipn i l) j = nth_error l (i + j).
Proof.
  intros A l i. revert l. induction i as [|i IH]; intros l j; [reflexivity|].
  destruct l as [|x l]; [destruct j; reflexivity|]. cbn [skipn Nat.add nth_error]. apply IH.
Qed.

Lemma nth_error_mid : forall {A} (x : list A) c y, nth_error (x ++ c :: y) (length x) = Some c.
Proof. intros. rewrite nth_error_app2 by lia. rewrite Nat.sub_diag. reflexivity. Qed.

Lemma app_inj_len : forall {A} (a b x y : list A), length a = length b -> a ++ x = b ++ y -> a = b /\ x = y.
Proof.
  induction a as [|h a IH]; intros [|h' b] x y Hl He; simpl in *; try discriminate.
  - auto.
  - inversion He; subst. destruct (IH b x y) as [-> ->]; auto.
Qed.

Lemma NoDup_map_inj : forall {A B} (f : A -> B) (l : list A) a b,
  NoDup (map f l) -> In a l -> In b l -> f a = f b -> a = b.
Proof.
  induction l as [|x l IH]; intros a b Hnd Ha Hb Heq; [destruct Ha|]. inversion Hnd as [|? ? Hx Hl]; subst.
  destruct Ha as [<-|Ha], Hb as [<-|Hb]; [reflexivity| | |exact (IH _ _ Hl Ha Hb Heq)]; exfalso; apply Hx.
  - rewrite Heq. apply in_map. exact Hb.
  - rewrite <- Heq. apply in_map. exact Ha.
Qed.

Lemma StronglySorted_NoDup : forall {A} (R : A -> A -> Prop) l, (forall x, ~ R x x) -> StronglySorted R l -> NoDup l.
Proof.
  intros A R l Hirr. induction l as [|a l IH]; intro H; [constructor|].
  apply StronglySorted_inv in H. destruct H as [Hs Hall].
  constructor; [|auto].
  intro Hin. rewrite Forall_forall in Hall. exact (Hirr a (Hall a Hin)).
Qed.
