(* Proofs about Model/ShutdownWaits.v (C18).  The pipeline stop with a full chunk queue: until Destroy has run a
   step of the worker's side is enabled in every reachable state and their number is bounded
   ([pipeline_stop_never_waits_lemma], [pipeline_stop_bounded_lemma]); the variant with a blocking Accept is
   refuted for every capacity ([blocking_accept_variant_refuted_lemma]).  The listener's connections at a stop
   request: a quiescent state after the request has every connection closed ([listener_quiescent_closed_lemma]),
   with bounded steps and progress; the variant with one sweep over the registered connections is refuted
   ([single_sweep_variant_refuted_lemma]). *)
From SV Require Import Model.Common Model.ShutdownWaits.
From Coq Require Import Lia ZifyBool ZifyN ZifyNat.
Ltac Zify.zify_post_hook ::= Z.div_mod_to_equations.
Local Open Scope nat_scope.

Definition q_noblock (s : qstate) : Prop := match q_pc s with WBlocked _ => False | _ => True end.

Ltac q_cases H :=
  repeat match type of H with
         | context [if ?b then _ else _] => destruct b eqn:?
         | context [match ?x with _ => _ end] => destruct x eqn:?
         end; try discriminate H.

Definition q_inv (s : qstate) : Prop := q_pc s = WDestroyed -> q_closed s = true.

Lemma q_step_facts : forall cfg s e s', q_step cfg s e = Some s' ->
  (* conservation, for the code and for the variant *)
  q_kept s' + q_dropped s' + q_remaining s' = q_kept s + q_dropped s + q_remaining s /\
  (* for the code: no blocked state, and every own step is one unit of the measure *)
  (qg_block cfg = false -> q_noblock s ->
     q_noblock s' /\ (if q_own e then 1 else 0) + q_measure s' = q_measure s) /\
  (q_inv s -> q_inv s').
Proof.
  intros cfg [pc len cl kp dr tk] e s' H.
  unfold q_step in H; cbn [q_pc q_len q_closed q_kept q_dropped q_taken] in H.
  destruct e; destruct pc as [[|k]|k| |]; cbn in H; q_cases H;
    inversion H; subst; clear H; unfold q_noblock, q_measure, q_remaining, q_inv; cbn;
    (split; [lia|]);
    (split; [|intros Hi Hd; first [discriminate Hd | reflexivity | (specialize (Hi eq_refl); congruence)]]);
    intros Hb Hn; first [contradiction | congruence | (split; [exact I|lia])].
Qed.

Lemma q_run_facts : forall cfg evs s s', qg_block cfg = false -> q_noblock s -> q_inv s -> q_run cfg s evs = Some s' ->
  q_noblock s' /\ q_own_steps evs + q_measure s' = q_measure s /\
  q_kept s' + q_dropped s' + q_remaining s' = q_kept s + q_dropped s + q_remaining s /\
  q_inv s'.
Proof.
  intros cfg evs; induction evs as [|e r IH]; intros s s' Hb Hn Hi H; cbn in H.
  - inversion H; subst. cbn. repeat split; auto.
  - destruct (q_step cfg s e) as [s1|] eqn:Hs; [|discriminate].
    destruct (q_step_facts _ _ _ _ Hs) as (Hc & Hm & Hd). destruct (Hm Hb Hn) as (Hn1 & Hm1).
    destruct (IH _ _ Hb Hn1 (Hd Hi) H) as (Hn' & Hm' & Hc' & Hd').
    split; [exact Hn'|]. split; [cbn [q_own_steps]; lia|]. split; [lia|exact Hd'].
Qed.

Lemma q_init_inv : forall p, q_inv (q_init p).
Proof. intros p H; cbn in H; discriminate. Qed.

(* the code: until Destroy has run, a step of the worker / of the chain behind it is enabled in every reachable
   state - whatever the queue length, whatever the feeder does (QRoom is never needed) *)
Lemma pipeline_stop_never_waits_lemma :
  forall cfg p evs s, qg_block cfg = false -> q_run cfg (q_init p) evs = Some s -> q_pc s <> WDestroyed ->
  exists e s', q_own e = true /\ q_step cfg s e = Some s'.
Proof.
  intros cfg p evs s Hb H Hp.
  destruct (q_run_facts cfg evs (q_init p) s Hb I (q_init_inv p) H) as (Hn & _).
  destruct s as [pc len cl kp dr tk]. unfold q_noblock in Hn; cbn in Hn, Hp.
  destruct pc as [[|k]|k| |]; try contradiction.
  - exists QEnd; eexists; split; [reflexivity|]; cbn; reflexivity.
  - exists QAccept. unfold q_step; cbn [q_pc q_len q_closed q_kept q_dropped q_taken]. rewrite Hb. destruct (Nat.ltb len (qg_cap cfg)); eexists; split; reflexivity.
  - exists QDestroy; eexists; split; [reflexivity|]; cbn; reflexivity.
Qed.

(* ... every run has at most p + 2 such steps (p Accept calls, the end of the worker, Destroy); when Destroy has run
   the stop signal of the buffer is raised and every one of the p chunks is in the queue or counted dropped *)
Lemma pipeline_stop_bounded_lemma :
  forall cfg p evs s, qg_block cfg = false -> q_run cfg (q_init p) evs = Some s ->
  q_own_steps evs + q_measure s = p + 2 /\
  (q_pc s = WDestroyed -> q_kept s + q_dropped s = p /\ q_closed s = true).
Proof.
  intros cfg p evs s Hb H.
  destruct (q_run_facts cfg evs (q_init p) s Hb I (q_init_inv p) H) as (_ & Hm & Hc & Hd).
  split; [exact Hm|]. intros Hp. cbn in Hc. unfold q_remaining in Hc. rewrite Hp in Hc.
  split; [lia|exact (Hd Hp)].
Qed.

Lemma q_run_app : forall cfg a b s, q_run cfg s (a ++ b) =
  match q_run cfg s a with Some s1 => q_run cfg s1 b | None => None end.
Proof.
  intros cfg a; induction a as [|e a IH]; intros b s; cbn; [reflexivity|].
  destruct (q_step cfg s e); [apply IH|reflexivity].
Qed.

Lemma fill_queue : forall cap n k len kp, len + n <= cap ->
  q_run (QCFG cap true) (QS (WRun (n + k)) len false kp 0 0) (repq n [QAccept]) =
  Some (QS (WRun k) (len + n) false (kp + n) 0 0).
Proof.
  intros cap n; induction n as [|n IH]; intros k len kp Hle.
  - cbn. rewrite !Nat.add_0_r. reflexivity.
  - cbn [repq app Nat.add q_run]. unfold q_step; cbn [q_pc q_len q_closed q_kept q_dropped q_taken qg_cap qg_block].
    assert (Hlt : Nat.ltb len cap = true) by (apply Nat.ltb_lt; lia). rewrite Hlt.
    rewrite IH by lia. f_equal. f_equal; lia.
Qed.

(* the VARIANT (Accept waits on a full queue for room or for the signal raised by Destroy): the worker blocked inside
   Accept with the queue full; nothing of the shutdown path is enabled - only the environment (the feeder making room)
   could help: the wait depends on a signal that is raised only after the waiter has ended; for EVERY capacity and
   every number of chunks above it *)
Lemma blocking_accept_variant_refuted_lemma :
  forall cap p, cap < p ->
  exists evs s,
    q_run (QCFG cap true) (q_init p) evs = Some s /\ q_pc s <> WDestroyed /\ q_closed s = false /\
    q_len s = cap /\
    (forall e, q_own e = true -> q_step (QCFG cap true) s e = None).
Proof.
  intros cap p Hlt. exists (repq cap [QAccept] ++ [QAccept]).
  exists (QS (WBlocked (p - cap - 1)) cap false cap 0 0).
  split.
  - rewrite q_run_app. unfold q_init. replace p with (cap + S (p - cap - 1)) at 1 by lia.
    rewrite fill_queue by lia. cbn [Nat.add q_run]. unfold q_step; cbn [q_pc q_len q_closed q_kept q_dropped q_taken qg_cap qg_block].
    rewrite Nat.ltb_irrefl. reflexivity.
  - split; [discriminate|]. split; [reflexivity|]. split; [reflexivity|].
    intros e He. destruct e; try reflexivity; [|discriminate He].
    unfold q_step; cbn [q_pc q_len q_closed q_kept q_dropped q_taken qg_cap qg_block]. rewrite Nat.ltb_irrefl. reflexivity.
Qed.

(* the code (a closer per connection, level-triggered): in EVERY state after the stop request in which no step of
   the listener's goroutines is enabled, every connection is closed - the input reports Stopped() *)
Lemma listener_quiescent_closed_lemma : forall cfg evs s, lg_sweep cfg = false ->
  l_run cfg l_init evs = Some s -> l_stop s = true ->
  (forall e, l_own e = true -> l_step cfg s e = None) -> l_stopped s = true.
Proof.
  intros cfg evs s Hsw _ Hst Hq. unfold l_stopped. rewrite Hst. cbn.
  apply forallb_forall. intros c Hin. apply In_nth_error in Hin. destruct Hin as [i Hi].
  destruct c; [| |reflexivity].
  - pose proof (Hq (LRegister i) eq_refl) as H. cbn in H. rewrite Hi in H. discriminate.
  - pose proof (Hq (LCloser i) eq_refl) as H. cbn in H. rewrite Hsw, Hi, Hst in H. discriminate.
Qed.

Lemma l_measure_app : forall a b, l_measure (a ++ b) = l_measure a + l_measure b.
Proof. induction a as [|x a IH]; intros b; cbn; [reflexivity|]. rewrite IH. lia. Qed.

Lemma l_measure_set : forall l i c c', nth_error l i = Some c ->
  l_measure (set_nth l i c') + c_weight c = l_measure l + c_weight c'.
Proof.
  induction l as [|x l IH]; intros i c c' H; destruct i; cbn in *; try discriminate.
  - inversion H; subst. lia.
  - pose proof (IH _ _ c' H). lia.
Qed.

Lemma l_step_after_stop : forall cfg s e s', lg_sweep cfg = false -> l_stop s = true -> l_step cfg s e = Some s' ->
  l_stop s' = true /\ (if l_own e then 1 else 0) + l_measure (l_conns s') = l_measure (l_conns s).
Proof.
  intros cfg [cs st sw] e s' Hsw Hst H. cbn in Hst; subst st.
  destruct e; cbn in H; rewrite ?Hsw in H; cbn in H.
  - inversion H; subst; cbn. split; [reflexivity|]. rewrite l_measure_app. cbn. lia.
  - discriminate.
  - destruct (nth_error cs i) as [[| |]|] eqn:Hi; try discriminate. inversion H; subst; cbn.
    split; [reflexivity|]. pose proof (l_measure_set _ _ _ CReg Hi). cbn in *. lia.
  - destruct (nth_error cs i) as [[| |]|] eqn:Hi; try discriminate. inversion H; subst; cbn.
    split; [reflexivity|]. pose proof (l_measure_set _ _ _ CClosed Hi). cbn in *. lia.
  - discriminate.
Qed.

(* ... and after the stop request every run - any interleaving of late clients, NewSink returning, closers - has
   exactly as many steps of the listener's goroutines as the measure drops: at most 2 per connection that was being
   set up and 1 per established connection *)
Lemma listener_steps_after_stop_lemma : forall cfg evs s s', lg_sweep cfg = false -> l_stop s = true ->
  l_run cfg s evs = Some s' ->
  l_stop s' = true /\ l_own_steps evs + l_measure (l_conns s') = l_measure (l_conns s).
Proof.
  intros cfg evs; induction evs as [|e r IH]; intros s s' Hsw Hst H; cbn in H.
  - inversion H; subst. split; [exact Hst|reflexivity].
  - destruct (l_step cfg s e) as [s1|] eqn:Hs; [|discriminate].
    destruct (l_step_after_stop _ _ _ _ Hsw Hst Hs) as (Hst1 & Hm1).
    destruct (IH _ _ Hsw Hst1 H) as (Hst' & Hm'). split; [exact Hst'|]. cbn [l_own_steps]. lia.
Qed.

(* progress: after the stop, while a connection is not closed, a step of the listener's goroutines is enabled *)
Lemma listener_progress_lemma : forall cfg s, lg_sweep cfg = false -> l_stop s = true -> l_stopped s = false ->
  exists e s', l_own e = true /\ l_step cfg s e = Some s'.
Proof.
  intros cfg s Hsw Hst Hns. unfold l_stopped in Hns. rewrite Hst in Hns. cbn in Hns.
  assert (Hex : exists c, In c (l_conns s) /\ is_closed c = false).
  { clear -Hns. induction (l_conns s) as [|x l IH]; cbn in Hns; [discriminate|].
    destruct (is_closed x) eqn:Hx; cbn in Hns.
    - destruct (IH Hns) as (c & Hin & Hc). exists c; split; [right; exact Hin|exact Hc].
    - exists x; split; [left; reflexivity|exact Hx]. }
  destruct Hex as (c & Hin & Hc). apply In_nth_error in Hin. destruct Hin as [i Hi].
  destruct c; [| |discriminate].
  - exists (LRegister i). eexists. split; [reflexivity|]. cbn. rewrite Hi. reflexivity.
  - exists (LCloser i). eexists. split; [reflexivity|]. cbn. rewrite Hsw, Hi, Hst. reflexivity.
Qed.

(* the VARIANT (one sweep over the registered connections when the stop request fires): a connection accepted before
   the stop request whose NewSink returns after the sweep is registered and never closed: no step of the listener is
   enabled any more and the input has not stopped *)
Lemma single_sweep_variant_refuted_lemma :
  exists evs s, l_run (LCFG true) l_init evs = Some s /\ l_stop s = true /\
    (forall e, l_own e = true -> l_step (LCFG true) s e = None) /\ l_stopped s = false.
Proof.
  exists [LAccept; LStop; LSweep; LRegister 0]. eexists. split; [vm_compute; reflexivity|].
  split; [reflexivity|]. split; [|reflexivity].
  intros e He. destruct e; try discriminate He; try reflexivity.
  destruct i as [|[|i]]; reflexivity.
Qed.

(* tests on literals (non-vacuity): the replays used by the correspondence *)
Lemma stopwaits_example_lemma :
  (exists s, replay_qfull (QCFG 4 false) 12 3 = Some s /\ q_pc s = WDestroyed /\ q_kept s = 7 /\ q_dropped s = 5) /\
  (exists s, replay_qfull (QCFG 4 true) 12 0 = None /\ q_run (QCFG 4 true) (q_init 12) (repq 5 [QAccept]) = Some s /\ q_pc s = WBlocked 7) /\
  (exists s, replay_listener (LCFG false) 3 2 = Some s /\ l_stopped s = true /\ length (l_conns s) = 5) /\
  replay_listener (LCFG true) 3 2 = None.
Proof.
  split; [eexists; vm_compute; repeat split; reflexivity|].
  split; [eexists; vm_compute; repeat split; reflexivity|].
  split; [eexists; vm_compute; repeat split; reflexivity|].
  vm_compute; reflexivity.
Qed.
