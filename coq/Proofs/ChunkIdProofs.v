(* Proofs about the chunk id generator (Model/ChunkId.v): fixed-width decimal formatting
   preserves order, ids are ordered and distinct under a clock that never goes back, and
   the witness that a backwards step of the clock breaks uniqueness. *)
From SV Require Import Model.Common Model.ChunkId Model.Packer Spec.ChunkSpec Proofs.CommonFacts.
From Coq Require Import Lia ZifyBool ZifyN ZifyNat Sorted.
Ltac Zify.zify_post_hook ::= Z.div_mod_to_equations.

Lemma lex_lt_irrefl : forall a, ~ lex_lt a a.
Proof.
  induction a as [|x a IH]; intro H; inversion H; subst.
  - lia.
  - auto.
Qed.

Lemma lex_lt_trans : forall a b c, lex_lt a b -> lex_lt b c -> lex_lt a c.
Proof.
  intros a b c Hab. revert c.
  induction Hab as [y b|x y a b Hxy|x a b Hab IH]; intros c Hbc; inversion Hbc; subst;
    (constructor; solve [auto | lia]).
Qed.

Lemma lex_lt_asym : forall a b, lex_lt a b -> ~ lex_lt b a.
Proof. intros a b H1 H2. exact (lex_lt_irrefl a (lex_lt_trans _ _ _ H1 H2)). Qed.

Lemma bytes_ltb_spec : forall a b, bytes_ltb a b = true <-> lex_lt a b.
Proof.
  induction a as [|x a IH]; intros [|y b]; cbn [bytes_ltb]; split; intro H.
  - discriminate.
  - inversion H.
  - constructor.
  - reflexivity.
  - discriminate.
  - inversion H.
  - destruct (N.ltb_spec x y) as [Hxy|Hxy]; [now apply lex_head|].
    destruct (N.ltb_spec y x) as [Hyx|Hyx]; [discriminate|].
    assert (x = y) by lia. subst y. apply lex_tail. apply IH. assumption.
  - inversion H; subst.
    + destruct (N.ltb_spec x y); [reflexivity|lia].
    + rewrite N.ltb_irrefl. apply IH. assumption.
Qed.

Lemma lex_lt_app_l : forall a b b', lex_lt b b' -> lex_lt (a ++ b) (a ++ b').
Proof. induction a as [|x a IH]; intros b b' H; cbn [app]; [assumption|]. apply lex_tail. auto. Qed.

Lemma lex_lt_app_len : forall a a' b b',
  length a = length a' -> lex_lt a a' -> lex_lt (a ++ b) (a' ++ b').
Proof.
  intros a a' b b' Hlen H. revert Hlen.
  induction H as [y c|x y c d Hxy|x c d Hcd IH]; intro Hlen; cbn [app].
  - discriminate.
  - apply lex_head. assumption.
  - apply lex_tail. apply IH. cbn [length] in Hlen. lia.
Qed.

(* a strictly monotone map into strings reflects the order it preserves *)
Lemma lex_lt_reflects : forall (A : Type) (lt : A -> A -> Prop) (P : A -> Prop) (f : A -> bytes),
  (forall x y, lt x y \/ x = y \/ lt y x) ->
  (forall x y, P x -> P y -> lt x y -> lex_lt (f x) (f y)) ->
  forall x y, P x -> P y -> (lex_lt (f x) (f y) <-> lt x y).
Proof.
  intros A lt P f Htri Hmono x y Hx Hy. split; [|apply Hmono; assumption].
  intro H. destruct (Htri x y) as [?|[->|Hgt]]; [assumption| |]; exfalso.
  - exact (lex_lt_irrefl _ H).
  - exact (lex_lt_asym _ _ H (Hmono y x Hy Hx Hgt)).
Qed.

Lemma pow10_nz : forall w : nat, (10 ^ N.of_nat w <> 0)%N.
Proof. intro w. apply N.pow_nonzero. discriminate. Qed.

Lemma pow10_succ : forall w : nat, (10 ^ N.of_nat (S w) = 10 * 10 ^ N.of_nat w)%N.
Proof. intro w. rewrite Nat2N.inj_succ. apply N.pow_succ_r'. Qed.

Lemma fixed_dec_length : forall w n, length (fixed_dec w n) = w.
Proof. induction w as [|w IH]; intro n; cbn [fixed_dec length]; [reflexivity|]. rewrite IH. reflexivity. Qed.

Lemma lead_digit_lt10 : forall (w : nat) n, (n < 10 ^ N.of_nat (S w))%N -> (n / 10 ^ N.of_nat w < 10)%N.
Proof.
  intros w n H. rewrite pow10_succ in H.
  apply N.div_lt_upper_bound; [apply pow10_nz|]. rewrite N.mul_comm. exact H.
Qed.

Lemma rest_lt_pow : forall (w : nat) n, (n mod 10 ^ N.of_nat w < 10 ^ N.of_nat w)%N.
Proof. intros w n. apply N.mod_lt, pow10_nz. Qed.

(* the digits really are the number: reading them back gives n *)
Lemma fixed_dec_value_acc : forall w n acc,
  (n < 10 ^ N.of_nat w)%N ->
  N_of_dec_acc (fixed_dec w n) acc = Some (acc * 10 ^ N.of_nat w + n)%N.
Proof.
  induction w as [|w IH]; intros n acc H; cbn [fixed_dec N_of_dec_acc].
  - f_equal. change (10 ^ N.of_nat 0)%N with 1%N in H. lia.
  - rewrite (is_digit_digit_char _ (lead_digit_lt10 w n H)), IH by apply rest_lt_pow.
    f_equal. unfold digit_char. rewrite pow10_succ, (N.add_comm 48), N.add_sub.
    rewrite (N.div_mod' n (10 ^ N.of_nat w)) at 3. ring.
Qed.

Lemma fixed_dec_value : forall w n, (n < 10 ^ N.of_nat w)%N -> dec_value (fixed_dec w n) = Some n.
Proof. intros w n H. unfold dec_value. rewrite fixed_dec_value_acc by assumption. f_equal. Qed.

Lemma fixed_dec_all_digits : forall w n, (n < 10 ^ N.of_nat w)%N -> all_digits (fixed_dec w n) = true.
Proof.
  induction w as [|w IH]; intros n H; cbn [fixed_dec all_digits]; [reflexivity|].
  rewrite (is_digit_digit_char _ (lead_digit_lt10 w n H)).
  rewrite IH by apply rest_lt_pow. reflexivity.
Qed.

(* on numbers below 10^w, fixed-width decimal formatting is strictly monotone from < on numbers to byte-wise <
   on strings *)
Lemma fixed_dec_lt : forall w n m,
  (n < 10 ^ N.of_nat w)%N -> (m < 10 ^ N.of_nat w)%N -> (n < m)%N ->
  lex_lt (fixed_dec w n) (fixed_dec w m).
Proof.
  induction w as [|w IH]; intros n m Hn Hm Hnm.
  - change (10 ^ N.of_nat 0)%N with 1%N in *. lia.
  - cbn [fixed_dec].
    pose proof (pow10_nz w) as Hp.
    set (p := (10 ^ N.of_nat w)%N) in *.
    assert (Hle : (n / p <= m / p)%N) by (apply N.div_le_mono; [assumption|lia]).
    destruct (N.eq_dec (n / p) (m / p)) as [Heq|Hne].
    + rewrite Heq. apply lex_tail. apply IH; try (apply N.mod_lt; assumption).
      pose proof (N.div_mod' n p) as En. pose proof (N.div_mod' m p). rewrite Heq in En. lia.
    + apply lex_head. unfold digit_char. lia.
Qed.

Lemma fixed_dec_inj : forall w n m,
  (n < 10 ^ N.of_nat w)%N -> (m < 10 ^ N.of_nat w)%N -> fixed_dec w n = fixed_dec w m -> n = m.
Proof.
  intros w n m Hn Hm H.
  pose proof (fixed_dec_value w n Hn) as H1. pose proof (fixed_dec_value w m Hm) as H2.
  rewrite H in H1. congruence.
Qed.

Lemma div_mod_10 : forall r x, (r < 10 -> (r + 10 * x) / 10 = x /\ (r + 10 * x) mod 10 = r)%N.
Proof. lia. Qed.

Lemma fixed_dec_snoc : forall w m, (m < 10 ^ N.of_nat (S w))%N ->
  fixed_dec (S w) m = fixed_dec w (m / 10) ++ [digit_char (m mod 10)].
Proof.
  assert (HS : forall w n, fixed_dec (S w) n = digit_char (n / 10 ^ N.of_nat w) :: fixed_dec w (n mod 10 ^ N.of_nat w))
    by reflexivity.
  induction w as [|w IH]; intros m Hm.
  - cbn [fixed_dec app]. change (10 ^ N.of_nat 0)%N with 1%N. rewrite N.div_1_r, (N.mod_small m 10) by exact Hm.
    reflexivity.
  - pose proof (pow10_nz w) as Hp. rewrite (HS (S w)), IH, (HS w), pow10_succ by apply rest_lt_pow.
    set (p := (10 ^ N.of_nat w)%N) in *.
    (* m mod (10 * p) = m mod 10 + 10 * ((m / 10) mod p) *)
    rewrite N.div_div, (N.mod_mul_r m 10 p) by (discriminate || assumption).
    destruct (div_mod_10 (m mod 10) ((m / 10) mod p)) as [-> ->]; [apply N.mod_lt; discriminate|reflexivity].
Qed.

(* the least-significant-digit-first computation used by the model gives the same digits *)
Lemma dec_lsb_fixed : forall w n acc, (n < 10 ^ N.of_nat w)%N -> dec_lsb w n acc = fixed_dec w n ++ acc.
Proof.
  induction w as [|w IH]; intros n acc Hn; [reflexivity|].
  change (dec_lsb (S w) n acc) with (let (q, r) := N.div_eucl n 10 in dec_lsb w q (digit_char r :: acc)).
  rewrite (surjective_pairing (N.div_eucl n 10)).
  change (dec_lsb w (n / 10) (digit_char (n mod 10) :: acc) = fixed_dec (S w) n ++ acc).
  rewrite IH; [rewrite fixed_dec_snoc, <- app_assoc by assumption; reflexivity|].
  apply N.div_lt_upper_bound; [discriminate|]. rewrite <- pow10_succ. assumption.
Qed.

Lemma to_N_lt_pow : forall (w : nat) z, (0 <= z < 10 ^ Z.of_nat w)%Z -> (Z.to_N z < 10 ^ N.of_nat w)%N.
Proof.
  intros w z [H0 H1]. apply N2Z.inj_lt. rewrite Z2N.id by assumption. rewrite N2Z.inj_pow.
  rewrite nat_N_Z. assumption.
Qed.

Lemma pad_dec_fixed : forall (w : nat) z,
  (0 <= z < 10 ^ Z.of_nat w)%Z -> pad_dec w z = fixed_dec w (Z.to_N z).
Proof.
  intros w z H. pose proof (to_N_lt_pow w z H) as Hlt. unfold pad_dec, pad_unsigned.
  destruct (Z.ltb_spec z 0) as [Hneg|_]; [lia|].
  destruct (N.ltb_spec (Z.to_N z) (10 ^ N.of_nat w)) as [_|Hge]; [|lia].
  rewrite dec_lsb_fixed by assumption. apply app_nil_r.
Qed.

(* a (timestamp, sequence) pair that "%019d-%08d" prints without overflowing either field *)
Definition pair_ok (p : Z * Z) : Prop := (0 <= fst p < 10 ^ 19 /\ 0 <= snd p < 10 ^ 8)%Z.

Lemma pair_ok_N : forall p, pair_ok p ->
  (Z.to_N (fst p) < 10 ^ N.of_nat 19)%N /\ (Z.to_N (snd p) < 10 ^ N.of_nat 8)%N.
Proof. intros p [Ht Hs]. split; apply to_N_lt_pow; assumption. Qed.

Lemma format_id_fixed : forall suffix p, pair_ok p ->
  format_id suffix p =
  fixed_dec 19 (Z.to_N (fst p)) ++ dash :: fixed_dec 8 (Z.to_N (snd p)) ++ suffix.
Proof.
  intros suffix p [Ht Hs]. unfold format_id. rewrite (pad_dec_fixed 19), (pad_dec_fixed 8) by assumption. reflexivity.
Qed.

Lemma format_id_lt : forall suffix p q, pair_ok p -> pair_ok q -> pair_lt p q ->
  lex_lt (format_id suffix p) (format_id suffix q).
Proof.
  intros suffix p q Hp Hq Hlt.
  rewrite (format_id_fixed suffix p Hp), (format_id_fixed suffix q Hq).
  destruct (pair_ok_N p Hp) as [Nt1 Ns1], (pair_ok_N q Hq) as [Nt2 Ns2].
  destruct Hp as [Ht1 Hs1], Hq as [Ht2 Hs2].
  destruct Hlt as [Hlt|[Heq Hlt]]; [|rewrite Heq; apply lex_lt_app_l, lex_tail];
    (apply lex_lt_app_len; [rewrite !fixed_dec_length; reflexivity|apply fixed_dec_lt; try assumption; lia]).
Qed.

Lemma pair_lt_trichotomy : forall p q, pair_lt p q \/ p = q \/ pair_lt q p.
Proof.
  intros [a b] [c d]. unfold pair_lt. cbn [fst snd].
  assert (H : (a < c \/ (a = c /\ b < d) \/ (a = c /\ b = d) \/ c < a \/ (c = a /\ d < b))%Z) by lia.
  destruct H as [?|[?|[[-> ->]|[?|?]]]]; auto.
Qed.

Lemma format_id_lt_iff : forall suffix p q, pair_ok p -> pair_ok q ->
  (lex_lt (format_id suffix p) (format_id suffix q) <-> pair_lt p q).
Proof.
  intro suffix. exact (lex_lt_reflects _ pair_lt pair_ok (format_id suffix) pair_lt_trichotomy (format_id_lt suffix)).
Qed.

(* shape: 19 digits, '-', 8 digits, suffix *)
Lemma format_id_shape : forall suffix p, pair_ok p -> id_shape_ok suffix (format_id suffix p) = true.
Proof.
  intros suffix p Hp. rewrite (format_id_fixed suffix p Hp). destruct (pair_ok_N p Hp) as [Nt Ns].
  pose proof (fixed_dec_all_digits 19 _ Nt) as DA. pose proof (fixed_dec_all_digits 8 _ Ns) as DB.
  revert DA DB. generalize (fixed_dec_length 19 (Z.to_N (fst p))), (fixed_dec_length 8 (Z.to_N (snd p))).
  generalize (fixed_dec 19 (Z.to_N (fst p))) as A, (fixed_dec 8 (Z.to_N (snd p))) as B. intros A B HA HB DA DB.
  do 19 (destruct A as [|? A]; [discriminate HA|]). destruct A; [|discriminate HA].
  do 8 (destruct B as [|? B]; [discriminate HB|]). destruct B; [|discriminate HB].
  unfold id_shape_ok. cbn [app firstn skipn length Nat.eqb]. rewrite DA, DB, !bytes_eqb_refl. reflexivity.
Qed.

Local Open Scope Z_scope.

Definition int32_range (z : Z) : Prop := (- 2 ^ 31 <= z < 2 ^ 31)%Z.

Lemma wrap32_id : forall z, int32_range z -> wrap32 z = z.
Proof. intros z H. unfold wrap32, int32_range in *. lia. Qed.

Lemma wrap32_range : forall z, int32_range (wrap32 z).
Proof. intro z. unfold wrap32, int32_range. lia. Qed.

Lemma wrap32_overflow : wrap32 (2 ^ 31 - 1 + 1) = (- 2 ^ 31)%Z.
Proof. reflexivity. Qed.

(* one Generate when the clock has not gone back; a sequence number that comes out non-negative has not wrapped *)
Lemma generate_step : forall now g g' p,
  generate now g = (g', p) -> (g_epoch g <= now)%Z -> int32_range (g_seq g) -> (0 <= snd p)%Z ->
  pair_lt (g_epoch g, g_seq g) p /\ (g_epoch g', g_seq g') = p /\ fst p = now /\ int32_range (g_seq g').
Proof.
  intros now g g' p H Hle Hr Hp. unfold generate in H.
  destruct (Z.gtb_spec now (g_epoch g)); inversion H; subst; clear H;
    unfold pair_lt, wrap32, int32_range in *; cbn [g_epoch g_seq fst snd] in *.
  - repeat split; lia.
  - replace (g_epoch g) with now by lia. repeat split; lia.
Qed.

(* every pair generated under a clock that does not go back is larger than everything before *)
Lemma gen_pairs_sorted : forall nows g,
  nondecreasing (g_epoch g) nows -> int32_range (g_seq g) ->
  Forall (fun p => 0 <= snd p) (gen_pairs g nows) ->
  StronglySorted pair_lt (gen_pairs g nows) /\
  Forall (pair_lt (g_epoch g, g_seq g)) (gen_pairs g nows).
Proof.
  induction nows as [|now rest IH]; intros g Hmono Hr Hnn; cbn [gen_pairs].
  - split; constructor.
  - cbn [gen_pairs] in Hnn. destruct (generate now g) as [g' p] eqn:Hg.
    cbn [nondecreasing] in Hmono. destruct Hmono as [Hle Hmono].
    inversion Hnn as [|? ? Hp Hrest]; subst.
    destruct (generate_step now g g' p Hg Hle Hr Hp) as [Hlt [Hst [Hfst Hr']]].
    assert (He : g_epoch g' = now) by (rewrite <- Hfst, <- Hst; reflexivity).
    destruct (IH g') as [Hs Hall]; [rewrite He; assumption|assumption|assumption|].
    rewrite Hst in Hall.
    split.
    + constructor; assumption.
    + constructor; [assumption|].
      eapply Forall_impl; [|exact Hall]. intros q Hq.
      unfold pair_lt in *. cbn [fst snd] in *. lia.
Qed.

Lemma gen_pairs_fst : forall nows g, map fst (gen_pairs g nows) = nows.
Proof.
  induction nows as [|now rest IH]; intro g; cbn [gen_pairs map]; [reflexivity|].
  destruct (generate now g) as [g' p] eqn:Hg. cbn [map]. rewrite IH. f_equal.
  unfold generate in Hg. destruct (now >? g_epoch g)%Z; inversion Hg; reflexivity.
Qed.

(* the sequence number never exceeds the number of ids generated so far (plus where it started) *)
Lemma gen_pairs_seq_bound : forall nows g,
  (0 <= g_seq g)%Z -> (g_seq g + Z.of_nat (length nows) < 2 ^ 31)%Z ->
  Forall (fun p => 0 <= snd p <= g_seq g + Z.of_nat (length nows))%Z (gen_pairs g nows).
Proof.
  induction nows as [|now rest IH]; intros g H0 Hb; cbn [gen_pairs]; [constructor|].
  destruct (generate now g) as [g' p] eqn:Hg. unfold generate in Hg.
  assert (Hs : wrap32 (g_seq g + 1) = g_seq g + 1) by (apply wrap32_id; unfold int32_range; cbn [length] in Hb; lia).
  rewrite Hs in Hg. cbn [length] in *.
  destruct (now >? g_epoch g)%Z; inversion Hg; subst; clear Hg; (constructor; [cbn [snd]; lia|]);
    (eapply Forall_impl; [|apply IH]); cbn [g_seq]; lia.
Qed.

Lemma StronglySorted_map : forall (A B : Type) (RA : A -> A -> Prop) (RB : B -> B -> Prop) (f : A -> B) (P : A -> Prop) l,
  (forall x y, P x -> P y -> RA x y -> RB (f x) (f y)) ->
  Forall P l -> StronglySorted RA l -> StronglySorted RB (map f l).
Proof.
  intros A B RA RB f P l Hf HP Hs. induction Hs as [|a l Hs IH Hall]; cbn [map]; [constructor|].
  inversion HP as [|? ? Pa Pl]; subst.
  constructor; [auto|].
  rewrite Forall_forall in *. intros y Hy. apply in_map_iff in Hy. destruct Hy as [x [Hx Hin]]. subst y.
  apply Hf; auto.
Qed.

(* ids_unique_ordered, generator level, from any state whose epoch is not ahead of the clock *)
Lemma gen_ids_ordered_from : forall suffix g nows,
  nondecreasing (g_epoch g) nows -> int32_range (g_seq g) ->
  Forall pair_ok (gen_pairs g nows) ->
  ids_ordered (gen_ids suffix g nows).
Proof.
  intros suffix g nows Hmono Hr Hok. unfold ids_ordered, gen_ids.
  destruct (gen_pairs_sorted nows g Hmono Hr) as [Hs _].
  { eapply Forall_impl; [|exact Hok]. intros p [_ Hp]. apply Hp. }
  exact (StronglySorted_map _ _ pair_lt lex_lt (format_id suffix) pair_ok _ (format_id_lt suffix) Hok Hs).
Qed.

Lemma nondecreasing_lower : forall l lo, nondecreasing lo l -> Forall (fun t => lo <= t)%Z l.
Proof.
  induction l as [|x l IH]; intros lo H; [constructor|].
  cbn [nondecreasing] in H. destruct H as [Hle H].
  constructor; [assumption|].
  eapply Forall_impl; [|apply (IH x H)]. intros t Ht. cbn beta in *. lia.
Qed.

Lemma nondecreasing_weaken : forall l lo lo', (lo' <= lo)%Z -> nondecreasing lo l -> nondecreasing lo' l.
Proof. destruct l as [|x l]; intros lo lo' Hle H; [exact I|]. cbn [nondecreasing] in *. split; [lia|tauto]. Qed.

(* the pairs generated from readings in range are in range as soon as the sequence numbers are *)
Lemma gen_pairs_ok : forall nows g,
  nondecreasing 0 nows -> Forall (fun t => t < 10 ^ 19)%Z nows ->
  Forall (fun p => 0 <= snd p < 10 ^ 8)%Z (gen_pairs g nows) -> Forall pair_ok (gen_pairs g nows).
Proof.
  intros nows g Hm Hb Hseq. pose proof (nondecreasing_lower nows 0%Z Hm) as Hl.
  rewrite Forall_forall in *. intros p Hp. split; [|apply Hseq; assumption].
  assert (Hin : In (fst p) nows) by (rewrite <- (gen_pairs_fst nows g); apply in_map; assumption).
  split; [apply Hl|apply Hb]; assumption.
Qed.

Lemma ids_unique_ordered_lemma : forall suffix nows,
  nondecreasing 0 nows ->
  Forall (fun t => t < 10 ^ 19)%Z nows ->
  Forall (fun p => 0 <= snd p < 10 ^ 8)%Z (gen_pairs idgen_init nows) ->
  ids_ordered (gen_ids suffix idgen_init nows) /\ NoDup (gen_ids suffix idgen_init nows).
Proof.
  intros suffix nows Hmono Hts Hseq.
  assert (Hord : ids_ordered (gen_ids suffix idgen_init nows)).
  { apply gen_ids_ordered_from; [exact Hmono|unfold int32_range; cbn; lia|apply gen_pairs_ok; assumption]. }
  split; [assumption|exact (StronglySorted_NoDup _ _ lex_lt_irrefl Hord)].
Qed.

(* the same with a hypothesis on the inputs only, and the shape of the ids *)
Lemma ids_unique_ordered_count_lemma : forall suffix nows,
  nondecreasing 0 nows ->
  Forall (fun t => t < 10 ^ 19)%Z nows ->
  (Z.of_nat (length nows) < 10 ^ 8)%Z ->
  ids_ordered (gen_ids suffix idgen_init nows) /\ NoDup (gen_ids suffix idgen_init nows) /\
  Forall (fun id => id_shape_ok suffix id = true) (gen_ids suffix idgen_init nows).
Proof.
  intros suffix nows Hmono Hts Hlen.
  assert (Hseq : Forall (fun p => 0 <= snd p < 10 ^ 8) (gen_pairs idgen_init nows))
    by (eapply Forall_impl; [|apply gen_pairs_seq_bound]; cbn [idgen_init g_seq]; lia).
  split; [|split]; try apply ids_unique_ordered_lemma; try assumption.
  unfold gen_ids. rewrite Forall_map.
  exact (Forall_impl _ (format_id_shape suffix) (gen_pairs_ok nows idgen_init Hmono Hts Hseq)).
Qed.

Lemma StronglySorted_nth : forall (A : Type) (Rel : A -> A -> Prop) (l : list A) (d : A),
  StronglySorted Rel l -> forall i j, (i < j < length l)%nat -> Rel (nth i l d) (nth j l d).
Proof.
  intros A Rel l d Hs. induction Hs as [|a l Hs IH Hall]; intros i j Hij; cbn [length] in *; [lia|].
  destruct j as [|j]; [lia|]. destruct i as [|i]; cbn [nth].
  - rewrite Forall_forall in Hall. apply Hall. apply nth_In. lia.
  - apply IH. lia.
Qed.

(* the order of the ids IS the generation order: id i sorts before id j exactly when i < j *)
Lemma ids_order_is_generation_order_lemma : forall suffix nows i j,
  nondecreasing 0 nows ->
  Forall (fun t => t < 10 ^ 19)%Z nows ->
  (Z.of_nat (length nows) < 10 ^ 8)%Z ->
  (i < length nows)%nat -> (j < length nows)%nat ->
  (lex_lt (nth i (gen_ids suffix idgen_init nows) []) (nth j (gen_ids suffix idgen_init nows) []) <-> (i < j)%nat).
Proof.
  intros suffix nows i j Hm Ht Hl.
  destruct (ids_unique_ordered_count_lemma suffix nows Hm Ht Hl) as [Hord _].
  assert (Hlen : length (gen_ids suffix idgen_init nows) = length nows).
  { unfold gen_ids. rewrite map_length. rewrite <- (gen_pairs_fst nows idgen_init) at 2. rewrite map_length. reflexivity. }
  apply (lex_lt_reflects nat lt (fun i => i < length nows)%nat (fun i => nth i (gen_ids suffix idgen_init nows) []));
    [apply Nat.lt_trichotomy|].
  intros x y _ Hy Hxy. apply StronglySorted_nth; [assumption|lia].
Qed.

(* the assumption is needed: a clock that steps back repeats an id *)

Definition backwards_readings : list Z := [100; 100; 101; 100]%Z.

Lemma clock_backwards_refuted_lemma :
  exists nows, ~ nondecreasing 0 nows /\ Forall (fun t => 0 <= t < 10 ^ 19)%Z nows /\ ~ NoDup (gen_ids suffix_ff idgen_init nows).
Proof.
  exists backwards_readings. split; [|split].
  - unfold backwards_readings. cbn [nondecreasing]. lia.
  - unfold backwards_readings. repeat constructor; lia.
  - intro H.
    assert (Hc : gen_ids suffix_ff idgen_init backwards_readings =
                 [ format_id suffix_ff (100, 0); format_id suffix_ff (100, 1);
                   format_id suffix_ff (101, 0); format_id suffix_ff (100, 1) ]%Z) by (vm_compute; reflexivity).
    rewrite Hc in H. inversion H as [|? ? _ H1]; subst. inversion H1 as [|? ? Hnotin _]; subst.
    apply Hnotin. right. left. reflexivity.
Qed.

(* the 8-digit bound on the sequence is needed for the ORDER (not for uniqueness): with a 9-digit sequence
   number the byte-wise order no longer follows the generation order *)
Lemma sequence_width_refuted_lemma :
  exists t s1 s2 : Z, (0 <= t < 10 ^ 19 /\ 0 <= s1 < s2 /\ s2 = 10 ^ 8)%Z /\
    ~ lex_lt (format_id suffix_ff (t, s1)) (format_id suffix_ff (t, s2)) /\
    lex_lt (format_id suffix_ff (t, s2)) (format_id suffix_ff (t, s1)).
Proof.
  exists 100%Z, 99999999%Z, 100000000%Z. split; [|split].
  - lia.
  - intro H. apply bytes_ltb_spec in H. vm_compute in H. discriminate.
  - apply bytes_ltb_spec. vm_compute. reflexivity.
Qed.
