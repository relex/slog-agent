(* C02 — safety invariants of the client LTS, proved by induction over arbitrary event lists:
   structure of the control state, confirm-after-ack, the flags of a session, conservation of chunks. *)
From SV Require Import Model.Common Model.Client Spec.ClientSpec Proofs.ClientBase.
From Coq Require Import Lia Permutation.

Definition between (p : mpc) : bool :=
  match p with MStart | MConnecting | MRetryWait | MFinal | MDone => true | _ => false end.

Definition ackd (k : nat) (c : chunk) (acks : list (nat * ackres * chunk)) : Prop :=
  exists a nx, In (k, a, nx) acks /\ (a = AId c \/ (a = AEmpty /\ nx = c)).

Record ctl_inv (s : state) : Prop := {
  i_between : between (pc s) = true -> cur s = None /\ last s = None;
  i_insess : between (pc s) = false -> exists ss, cur s = Some ss;
  i_last : match pc s with
           | MSend _ c | MEnqueue _ c => last s = Some c
           | MResend | MInput | MSoftWait _ => last s = None
           | _ => True end;
  i_lo : match pc s with
         | MInput | MSend FInput _ | MEnqueue FInput _ | MSoftWait _ | MHardWait false _ => lo s = []
         | _ => True end;
  i_sess : forall ss, cur s = Some ss ->
     (s_ended ss = true -> s_unacked ss = Some (s_pending ss) /\ s_apc ss = AEnded) /\
     (s_apc ss = AEnded -> s_ended ss = true) /\
     (match s_apc ss with AReading c | AAcked c => In c (s_pending ss) | _ => True end) /\
     (forall c, In c (s_achan ss ++ s_pending ss) -> In (s_id ss, c) (h_sent s)) /\
     (match pc s with MEnqueue _ c => In (s_id ss, c) (h_sent s) | _ => True end) /\
     (match s_apc ss with AAcked c => ackd (s_id ss) c (h_acks s) | _ => True end)
}.

Lemma ctl_inv_init : ctl_inv init.
Proof. constructor; simpl; intros; try tauto; try discriminate. Qed.

(* computes the fields of an updated state and of an updated session, everywhere *)
Ltac st_simpl :=
  cbn [pc cur last lo inq h_sent h_acks h_consumed h_handed h_taken h_offered h_finished h_los
       st_main st_sess st_env st_misc st_inq st_opener st_hist h_add_sent h_add_ack h_add_consumed
       h_add_handed h_set_finished h_add_los collect_hard collect_soft after_session between
       s_id s_creq s_achan s_aclosed s_abort s_ended s_unacked s_pending s_apc
       sess_creq sess_set_achan sess_soft sess_abort sess_acker sess_end new_sess] in *.

Lemma ctl_inv_step : forall P s e s', ctl_inv s -> Step P s e s' -> ctl_inv s'.
Proof.
  intros P s e s' [Hb Hin Hl Hlo Hss] Hs. destruct Hs.
  (* what the guard of the step says of the control state and the session, put into the invariant of [s] *)
  all: try match goal with H : pc _ = _ |- _ => rewrite H in Hb, Hin, Hl, Hlo, Hss end.
  all: try match goal with H : cur _ = Some _ |- _ =>
         rewrite H in Hb, Hin; destruct (Hss _ H) as (He1 & He2 & Hpend & Hsent & Henq & Hack) end.
  all: try match goal with H : s_apc _ = _ |- _ => rewrite H in He1, He2, Hpend, Hack end.
  all: constructor; st_simpl; try assumption.
  all: try match goal with H : pc _ = _ |- _ => rewrite H end.
  all: try match goal with H : cur _ = Some _ |- _ => rewrite ?H end.
  all: try (intros ? [= <-]; st_simpl).
  (* the field is untouched, or follows from the shape of the new control state alone *)
  all: try solve [repeat split; assumption | intros _; eexists; reflexivity
                 | destruct f; simpl; auto; discriminate | destruct p; simpl; auto; discriminate].
  all: try solve [intuition (try congruence; try discriminate)].
  - (* a fresh session holds nothing *)
    repeat split; try discriminate. intros c [].
  - (* transmission completed: the chunk is now in the history of the connection *)
    refine (conj He1 (conj He2 (conj Hpend (conj _ (conj _ Hack))))); auto using in_cons, in_eq.
  - (* enqueued: the chunk was transmitted just before *)
    refine (conj He1 (conj He2 (conj Hpend (conj _ (conj _ Hack))))); [|destruct f; exact I].
    intros c0 Hc0. rewrite <- app_assoc in Hc0.
    apply in_app_or in Hc0. destruct Hc0 as [Hc0|[<-|Hc0]]; auto using in_or_app.
  - (* the acknowledger takes a chunk: it moves from the channel to the pending map *)
    split; [intros E; destruct (He1 E); discriminate|]. split; [discriminate|]. split; [apply padd_In; auto|].
    split; [|auto]. intros c0 Hc0. apply Hsent.
    rewrite H1. apply in_app_or in Hc0. destruct Hc0 as [Hc0|Hc0]; [right; auto using in_or_app|].
    apply padd_In in Hc0. destruct Hc0 as [->|Hc0]; [left; reflexivity|right; auto using in_or_app].
  - split; [intros E; destruct (He1 E); discriminate|]. split; [discriminate|].
    refine (conj Hpend (conj Hsent (conj Henq _))). exists AEmpty, nx. split; [left; reflexivity|auto].
  - split; [intros E; destruct (He1 E); discriminate|]. split; [discriminate|].
    refine (conj _ (conj Hsent (conj Henq _))); [assumption|]. exists (AId i), nx. split; [left; reflexivity|auto].
  - (* confirmation: the chunk leaves the pending map *)
    split; [intros E; destruct (He1 E); discriminate|]. split; [discriminate|].
    refine (conj I (conj _ (conj Henq I))). intros c0 Hc0. apply Hsent. apply in_app_or in Hc0.
    destruct Hc0 as [Hc0|Hc0]; [|apply pdel_In in Hc0]; apply in_or_app; tauto.
Qed.

Lemma ctl_inv_reach : forall P s, reach P s -> ctl_inv s.
Proof. intros P. apply reach_ind; [exact ctl_inv_init|exact (ctl_inv_step P)]. Qed.


(* what the control state says about the flags of the session and about the end of the run: ackerChan is closed and
   ackerAbort signalled only by collectLeftovers; an acknowledger that ended before that has closed the connection;
   run() leaves its loop for good only when told to stop; chunks are handed back only in its final loop *)
Record flags (s : state) : Prop := {
  f_sess : forall ss, cur s = Some ss ->
     match pc s with
     | MHardWait _ _ => s_abort ss = true
     | MSoftWait _ => s_abort ss = false
     | _ => s_aclosed ss = false /\ s_abort ss = false
     end /\
     (s_ended ss = true -> s_creq ss = true \/ s_aclosed ss = true \/ s_abort ss = true);
  f_none : match pc s with
           | MHardWait _ PNone | MSoftWait PNone | MFinal | MDone => stop_sig s || in_closed s = true
           | _ => True end;
  f_opener : match pc s with MConnecting => opener s <> ONone | _ => True end;
  f_handed : match pc s with MFinal | MDone => True | _ => h_handed s = [] end;
  f_finished : match pc s with MDone => lo s = [] | _ => h_finished s = false end
}.

Lemma flags_reach : forall P s, reach P s -> flags s.
Proof.
  intros P. apply reach_ind.
  - constructor; simpl; intros; try discriminate; try congruence; auto.
  - intros s e s' [Fs Fn Fo Fh Ff] Hs. destruct Hs.
    all: try match goal with H : pc _ = _ |- _ => rewrite H in Fs, Fn, Fo, Fh, Ff end.
    all: try match goal with H : cur _ = Some _ |- _ => destruct (Fs _ H) as [Fs1 Fs2] end.
    all: try match goal with H : in_closed _ = false |- _ => rewrite H in Fn end.
    all: constructor; st_simpl;
         cbn [stop_sig in_closed opener st_env st_misc st_opener st_main st_inq collect_hard collect_soft]; try assumption.
    all: try match goal with H : pc _ = _ |- _ => rewrite ?H end.
    all: try (intros ? [= <-]; st_simpl).
    (* the flags are untouched, or the step sets exactly what its new control state asks for *)
    all: try solve [intuition (try congruence; try discriminate)].
    all: try solve [destruct f; simpl; auto; discriminate].
    all: try solve [destruct p; simpl; try discriminate; assumption || exact I].
    (* the stop signal or the close of the input was seen *)
    all: try solve [repeat match goal with H : stop_sig _ = true |- _ => rewrite H | H : in_closed _ = true |- _ => rewrite H end;
                    auto using orb_true_r].
    all: try solve [destruct (pc s) as [| | | | | |[]|? []| | |]; try exact I; rewrite ?orb_true_r; auto].
    (* the opener goes on: it is not ONone *)
    all: destruct (pc s); solve [exact I | discriminate].
Qed.

Local Open Scope nat_scope.
Definition cnt (x : chunk) (l : list chunk) : nat := count_occ N.eq_dec l x.
Definition one (c x : chunk) : nat := if N.eq_dec c x then 1 else 0.

Lemma cnt_app : forall x l m, cnt x (l ++ m) = cnt x l + cnt x m.
Proof. intros. apply count_occ_app. Qed.
Lemma cnt_cons : forall x c l, cnt x (c :: l) = one c x + cnt x l.
Proof. intros. unfold cnt, one. simpl. destruct (N.eq_dec c x); reflexivity. Qed.
Lemma cnt_nil : forall x, cnt x [] = 0.
Proof. reflexivity. Qed.
Lemma perm_cnt : forall l m, Permutation l m <-> forall x, cnt x l = cnt x m.
Proof. intros. apply (Permutation_count_occ N.eq_dec). Qed.
Lemma nodup_cnt : forall l, NoDup l <-> forall x, cnt x l <= 1.
Proof. intros. apply (NoDup_count_occ N.eq_dec). Qed.
Lemma cnt_In : forall x l, In x l <-> cnt x l > 0.
Proof. intros. apply (count_occ_In N.eq_dec). Qed.

Lemma cnt_padd : forall x c l, cnt c l = 0 -> cnt x (padd c l) = one c x + cnt x l.
Proof.
  intros x c l H. unfold padd. destruct (mem c l) eqn:E.
  - apply mem_In in E. apply cnt_In in E. lia.
  - apply cnt_cons.
Qed.

Lemma cnt_pdel : forall x c l, cnt x (pdel c l) = if N.eq_dec c x then 0 else cnt x l.
Proof.
  intros x c l. unfold cnt, pdel. induction l as [|a l IH]; simpl.
  - destruct (N.eq_dec c x); reflexivity.
  - destruct (N.eqb_spec c a); simpl.
    + subst a. rewrite IH. destruct (N.eq_dec c x); reflexivity.
    + rewrite IH. destruct (N.eq_dec a x); destruct (N.eq_dec c x); try reflexivity. congruence.
Qed.

Lemma cnt_rev : forall x l, cnt x (rev l) = cnt x l.
Proof. intros. apply perm_cnt. symmetry. apply Permutation_rev. Qed.

Lemma cnt_new_leftovers : forall l, (forall x, cnt x l <= 1) -> forall x, cnt x (new_leftovers l) = cnt x l.
Proof. intros l H. apply perm_cnt. apply new_leftovers_perm. apply nodup_cnt. exact H. Qed.

Lemma one_le : forall c x, one c x <= 1.
Proof. intros. unfold one. destruct (N.eq_dec c x); lia. Qed.
Lemma one_refl : forall c, one c c = 1.
Proof. intros. unfold one. destruct (N.eq_dec c c); congruence. Qed.


Lemma offered_split : forall P s, reach P s -> h_offered s = rev (inq s) ++ h_taken s.
Proof.
  intros P. apply (reach_ind P (fun s => h_offered s = rev (inq s) ++ h_taken s)); [reflexivity|].
  intros s e s' IH Hs. destruct Hs; st_simpl; try assumption.
  - rewrite IH, rev_app_distr. reflexivity.
  - rewrite IH, H0. simpl. rewrite <- app_assoc. reflexivity.
Qed.

Definition conserved (s : state) : Prop :=
  forall x, cnt x (h_taken s) = cnt x (h_consumed s) + cnt x (h_handed s) + cnt x (holdings s).

Ltac cnt_norm := repeat (rewrite cnt_app in * || rewrite cnt_cons in * || rewrite cnt_nil in * || rewrite one_refl in * ).

(* each step only moves chunks between the queue, the client's holdings and the two callbacks; the pending map and
   the merged leftovers drop duplicates, of which there are none while no chunk was taken twice *)
Lemma conserved_step : forall P s e s',
  ctl_inv s -> Step P s e s' -> e <> EBugTimeout -> (forall x, cnt x (h_taken s') <= 1) -> conserved s -> conserved s'.
Proof.
  intros P s e s' [Hb _ Hl Hlo Hss] Hs Hne Ht Jc. destruct Hs; try congruence; clear Hne.
  all: unfold conserved, holdings, sess_holdings in *; st_simpl.
  all: try match goal with H : pc _ = _ |- _ => rewrite H in Hb, Hl, Hlo end.
  all: try match goal with H : cur _ = Some _ |- _ => rewrite H in Jc; rewrite ?H; specialize (Hss _ H) end.
  all: st_simpl; try match goal with H : lo _ = _ |- _ => rewrite H in Jc; rewrite ?H end; try assumption.
  - (* a session starts *) destruct (Hb eq_refl) as [Hcur Hla]. rewrite Hcur, Hla in Jc. exact Jc.
  - (* EResendTake: from the leftovers to lastChunk *)
    intro x. specialize (Jc x). rewrite Hl in Jc. cbn [opt_list] in *. cnt_norm. lia.
  - (* EEnqueue: from lastChunk to ackerChan *)
    intro x. specialize (Jc x). rewrite Hl in Jc. cbn [opt_list] in *. cnt_norm. lia.
  - (* ETake: from the queue to lastChunk *)
    intro x. specialize (Jc x). rewrite Hl in Jc. cbn [opt_list] in *. cnt_norm. lia.
  - (* the merge of collectLeftovers *)
    destruct Hss as (Hend & _). destruct (Hend H1) as [Hu _]. rewrite H2 in Hu. injection Hu as ->.
    assert (J : forall x, cnt x (h_taken s) = cnt x (h_consumed s) + cnt x (h_handed s) +
                          cnt x ((if prev then lo s else []) ++ s_achan ss ++ s_pending ss ++ opt_list (last s))).
    { intro x. specialize (Jc x). destruct prev; [|rewrite Hlo in Jc]; cnt_norm; simpl in *; lia. }
    intro x. unfold merged. cnt_norm. rewrite cnt_new_leftovers; [rewrite (J x); lia|].
    intro y. specialize (J y). specialize (Ht y). lia.
  - (* ELeftover: from the leftovers to the callback *) intro x. specialize (Jc x). cnt_norm. lia.
  - (* the acknowledger takes c: it is not yet pending, since it was taken only once *)
    rewrite H1 in Jc. intro x. pose proof (Jc x) as J. cnt_norm. rewrite cnt_padd; [lia|].
    specialize (Jc c). specialize (Ht c). cnt_norm. lia.
  - (* confirmation of c, which is pending exactly once *)
    destruct Hss as (_ & _ & Hin & _). rewrite H0 in Hin. apply cnt_In in Hin.
    intro x. specialize (Jc x). specialize (Ht x). cnt_norm. rewrite cnt_pdel.
    unfold one in *. destruct (N.eq_dec c x); [subst x|]; lia.
Qed.

Lemma conserved_reach : forall P tr s, reach_by P tr s -> in_contract tr -> NoDup (h_offered s) -> conserved s.
Proof.
  intros P tr s Hr. revert tr s Hr.
  apply (reach_by_ind P (fun tr s => in_contract tr -> NoDup (h_offered s) -> conserved s)).
  - intros _ _ x. reflexivity.
  - intros tr s e s' Hr IH Hs Hc Hn.
    assert (Hr' : reach P s') by (exists (tr ++ [e]); exact (reach_by_snoc P tr e s s' Hr (Step_step P s e s' Hs))).
    assert (Ht : forall x, cnt x (h_taken s') <= 1).
    { intro x. rewrite (offered_split P s' Hr') in Hn. apply nodup_cnt with (x := x) in Hn. rewrite cnt_app in Hn. lia. }
    eapply conserved_step; eauto.
    + eapply ctl_inv_reach. exists tr. exact Hr.
    + intros ->. apply Hc, in_or_app. right. left. reflexivity.
    + apply IH; [intro H; apply Hc, in_or_app; left; exact H|].
      destruct Hs; st_simpl; try exact Hn. inversion Hn; assumption.
Qed.
