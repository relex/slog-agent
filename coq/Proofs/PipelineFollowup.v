(* C07: three mechanisms the totality theorems take for granted, each stated on its own, and for each the variant
   (Model/PipelineVariants.v) that one of the trial changes to /repo puts in its place, refuted.  The trial changes are
   the patches seeded/C07/4, 5 and 7; DESIGN.md section 10.3 lists them all.
   A. Record starts: what a client SENDS ([sent_line], stated without the reader's predicate) is a record start for the
      reader, so every sent record reaches the parser and is counted; the variant of TestRecordStart that also wants a
      digit after the header (seeded/C07/4) is refuted.
   B. Label values are valid UTF-8 for every list of key values; the variant with a byte cap after the clean-up
      (seeded/C07/5: 200 bytes) is refuted FOR EVERY cap n >= 1.
   C. The parseTime step never panics; the variant of parseFractionNanos that scales by a ten-entry table
      (seeded/C07/7) panics for exactly one fraction length. *)
From SV Require Import Model.Common.
From SV Require Model.Utf8 Model.Parser Model.Transforms Model.Routing Model.Framing.
From SV Require Import Model.Pipeline Model.PipelineVariants.
From SV Require Spec.Utf8Spec Spec.SyslogSpec Spec.FramingSpec.
From SV Require Proofs.Utf8Proofs Proofs.ParserProofs.
From SV Require Import Proofs.PipelineProofs Proofs.PipelineWitnesses.
From SV Require Props.C08 Props.C09.
From Coq Require Import Lia ZifyBool.

(* A. record starts *)

(* a record as a client sends it: header "<PRI>1 " (PRI = 1 to 3 digits) followed by anything, at least 32 bytes, no
   newline inside, at most b bytes.  Nothing is said about the timestamp or any later byte. *)
Definition sent_line (b : nat) (l : bytes) : Prop :=
  FramingSpec.nonl l /\ FramingSpec.start_shape l /\ (length l <= b)%nat.

Lemma header_line_is_start : forall l, FramingSpec.start_shape l -> F.trs l = true.
Proof.
  intros l H. apply C08.C08_test_record_start_shape in H. unfold F.trs. rewrite H. reflexivity.
Qed.

(* the same, spelled out: "<" ds ">1 " c rest, whatever the byte c and the rest are *)
Lemma header_any_byte_is_start : forall (ds : bytes) (c : N) (rest : bytes),
  (1 <= length ds <= 3)%nat -> Forall (fun d => is_digit d = true) ds ->
  (32 <= length (60%N :: ds ++ 62%N :: 49%N :: 32%N :: c :: rest))%nat ->
  F.trs (60%N :: ds ++ 62%N :: 49%N :: 32%N :: c :: rest) = true.
Proof.
  intros ds c rest Hl Hd H32. apply header_line_is_start. split; [exact H32|].
  exists ds, (c :: rest). split; [reflexivity|]. split; assumption.
Qed.

Lemma sent_line_valid : forall b l, sent_line b l -> FramingSpec.valid_line F.trs b l.
Proof.
  intros b l (Hn & Hs & Hb). split.
  - intros ->. destruct Hs as [H32 _]. cbn in H32. lia.
  - split; [exact Hn|]. split; [apply header_line_is_start; exact Hs|exact Hb].
Qed.

Section Accounting.
Variable O : T.oracles.

(* counters after a sequence: every record is in exactly one of passed / dropped *)
Lemma process_records_sum : forall cfg inputs g c now clk g' c' rs,
  config_ok O cfg -> ginv O cfg g -> cinv O cfg g c ->
  process_records O cfg g c now clk inputs = Ok (g', c', rs) ->
  (Ps.passed_n (cs_input c') + Ps.dropped_n (cs_input c') =
   Ps.passed_n (cs_input c) + Ps.dropped_n (cs_input c) + N.of_nat (length inputs))%N.
Proof.
  intros cfg inputs. induction inputs as [|x inputs IH]; intros g c now clk g' c' rs H Hg Hc E.
  - cbn in E. injection E as <- <- <-. cbn [length]. lia.
  - cbn [process_records] in E.
    destruct (process_record_total O cfg g c now clk x H Hg Hc) as (g1 & c1 & res & E1 & Hg1 & Hc1 & _ & Hres).
    rewrite E1 in E. cbn [pbind] in E.
    apply pbind_inv in E as ([[g2 c2] rs2] & E2 & E). injection E as <- <- <-. rewrite (IH g1 c1 now clk g2 c2 rs2 H Hg1 Hc1 E2). cbn [length].
    unfold SyslogSpec.counted_dropped, counted_dropped_instead, SyslogSpec.counted_passed in Hres. destruct res; lia.
Qed.

(* Every record SENT is accounted for.  [ls]: the lines of the connection's text, each of the header shape and of
   at most b bytes (cap >= 2b+1+limit: C08's side condition; production 4 x limit), in ANY fragmentation and read
   timing.  Then the parser is handed exactly these lines, in order and unaltered (no line glued to its neighbour,
   none lost); there is one result per line; exactly the malformed ones are rejected; and the input counters of the
   connection add up to the number of lines sent. *)
Theorem every_sent_record_accounted : forall cfg g now clk b (ls : list bytes) evs,
  config_ok O cfg -> ginv O cfg g ->
  (1 <= record_limit cfg)%nat ->
  (2 * b + 1 + record_limit cfg <= Nat.max (c_linebuf cfg) (record_limit cfg * 3))%nat ->
  Forall (sent_line b) ls ->
  FramingSpec.ops_text (F.conn_ops evs) = FramingSpec.unlines ls ->
  conn_records cfg evs = Ok ls /\
  exists g' c rs,
    conn_run O cfg g now clk evs = Ok (g', c, rs) /\
    ginv O cfg g' /\
    length rs = length ls /\
    map is_drop_parse rs = map (malformed cfg) ls /\
    (Ps.passed_n (cs_input c) + Ps.dropped_n (cs_input c) = N.of_nat (length ls))%N /\
    (N.of_nat (length (filter (malformed cfg) ls)) <= Ps.dropped_n (cs_input c))%N.
Proof.
  intros cfg g now clk b ls evs H Hg Hl Hcap Hs T.
  assert (Hv : Forall (FramingSpec.valid_line F.trs b) ls).
  { eapply Forall_impl; [|exact Hs]. intros l. apply sent_line_valid. }
  pose proof (conn_records_lines cfg b ls evs Hl Hcap Hv T) as Ecr.
  split; [exact Ecr|].
  unfold conn_run. rewrite Ecr. cbn [pbind].
  destruct (process_records_total O cfg ls g (new_conn cfg) now clk H Hg (cinv_new_conn O cfg g H))
    as (g' & c1 & rs & E1 & Hg' & _ & Hlen & _).
  destruct (process_records_filter O cfg ls g (new_conn cfg) now clk g' c1 rs Ps.counters_zero 0%N 0%N (ok_parser O cfg H) E1)
    as (cnt' & _ & Em & Hr).
  { repeat split; reflexivity. }
  pose proof (process_records_sum cfg ls g (new_conn cfg) now clk g' c1 rs H Hg (cinv_new_conn O cfg g H) E1) as Hsum.
  exists g', c1, rs. split; [exact E1|]. split; [exact Hg'|]. split; [exact Hlen|]. split; [exact Em|].
  cbn [new_conn cs_input Ps.counters_zero Ps.passed_n Ps.dropped_n] in Hsum.
  split; [lia|].
  destruct Hr as (_ & _ & _ & _ & Hd & _). lia.
Qed.

End Accounting.

(* the variant with "&& isDigit(s[i+3])" ([trs_digit]) *)

(* rec_good2 = "<14>1 - hostA appC 78 src - second record, NIL timestamp": a record as a client may send it ... *)
Lemma nil_record_is_sent_line : sent_line 96 rec_good2.
Proof.
  split; [|split].
  - apply nonl_by_eval. reflexivity.
  - split; [cbn; lia|]. exists [49; 52]%N. eexists. split; [reflexivity|]. split; [cbn; lia|repeat constructor].
  - cbn. lia.
Qed.

Lemma trs_digit_variant_refuted :
  sent_line 96 rec_good2 /\
  F.trs rec_good2 = true /\ trs_digit rec_good2 = false /\
  (* the real reader: three records, each on its own; the NIL record alone on a connection reaches the parser *)
  conn_records_with F.trs (ex_cfg true true) [F.EvData (FramingSpec.unlines [rec_good1; rec_good2; rec_good1]) false; F.EvClose]
  = Ok [rec_good1; rec_good2; rec_good1] /\
  conn_records_with F.trs (ex_cfg true true) [F.EvData (FramingSpec.unlines [rec_good2]) false; F.EvClose] = Ok [rec_good2] /\
  (* the variant: the NIL record is glued onto its well-formed neighbour, and vanishes when it is alone *)
  conn_records_with trs_digit (ex_cfg true true) [F.EvData (FramingSpec.unlines [rec_good1; rec_good2; rec_good1]) false; F.EvClose]
  = Ok [rec_good1 ++ F.NL :: rec_good2; rec_good1] /\
  conn_records_with trs_digit (ex_cfg true true) [F.EvData (FramingSpec.unlines [rec_good2]) false; F.EvClose] = Ok [].
Proof.
  split; [exact nil_record_is_sent_line|].
  repeat split; vm_compute; reflexivity.
Qed.

(* B. label values *)

Lemma label_values_spec : forall vs,
  Forall Utf8Spec.valid_utf8 (metric_label_values true vs) /\
  length (metric_label_values true vs) = length vs /\
  (Forall Utf8Spec.valid_utf8 vs -> metric_label_values true vs = vs) /\
  with_label_values (metric_label_values true vs) = Ok tt.
Proof.
  intros vs. unfold metric_label_values. split; [|split; [|split]].
  - apply Forall_forall. intros x Hx. apply in_map_iff in Hx. destruct Hx as (v & <- & _).
    apply C09.C09_to_valid_utf8_valid.
  - apply map_length.
  - intros Hv. induction Hv as [|v vs Hv _ IH]; [reflexivity|]. cbn [map]. rewrite IH.
    rewrite (C09.C09_to_valid_utf8_id v Hv). reflexivity.
  - unfold with_label_values. change (map Utf8.to_valid_utf8 vs) with (metric_label_values true vs).
    rewrite labels_ok_fixed. reflexivity.
Qed.

(* [Utf8.valid] steps over the ASCII byte "h" by computation *)
Lemma valid_repeat_h_app : forall k s, Utf8.valid (repeat 104%N k ++ s) = Utf8.valid s.
Proof. induction k as [|k IH]; intros s; [reflexivity|exact (IH s)]. Qed.

(* for EVERY cap n >= 1 there is a VALID value that the capped variant turns into an invalid label value *)
Lemma label_cut_variant_refuted : forall n, (1 <= n)%nat ->
  Utf8.valid (straddling_value n) = true /\
  metric_label_values true [straddling_value n] = [straddling_value n] /\
  with_label_values (metric_label_values true [straddling_value n]) = Ok tt /\
  with_label_values (metric_label_values_cut n [straddling_value n]) = Panic site_label.
Proof.
  intros n Hn. unfold straddling_value.
  assert (Hvalid : Utf8.valid (repeat 104%N (n - 1) ++ [195; 164]%N) = true).
  { rewrite valid_repeat_h_app. reflexivity. }
  assert (Hid : Utf8.to_valid_utf8 (repeat 104%N (n - 1) ++ [195; 164]%N) = repeat 104%N (n - 1) ++ [195; 164]%N).
  { apply C09.C09_to_valid_utf8_id. apply C09.C09_utf8_valid_iff. exact Hvalid. }
  split; [exact Hvalid|]. split; [|split].
  - unfold metric_label_values. cbn [map]. rewrite Hid. reflexivity.
  - apply label_values_spec.
  - unfold metric_label_values_cut, cut_label_value. cbn [map]. rewrite Hid.
    rewrite app_length, repeat_length. cbn [length].
    replace (n <? n - 1 + 2)%nat with true by lia.
    replace n with (length (repeat 104%N (n - 1)) + 1)%nat at 1 by (rewrite repeat_length; lia).
    rewrite firstn_app_2. cbn [firstn].
    unfold with_label_values. cbn [forallb]. unfold label_ok. rewrite valid_repeat_h_app.
    reflexivity.
Qed.

(* the cap of seeded/C07/5, spelled out: a 201-byte host name that is valid UTF-8 *)
Lemma label_cut_200_refuted :
  Utf8.valid (straddling_value 200) = true /\ length (straddling_value 200) = 201%nat /\
  with_label_values (metric_label_values_cut 200 [straddling_value 200]) = Panic site_label.
Proof.
  destruct (label_cut_variant_refuted 200 ltac:(lia)) as (H1 & _ & _ & H4).
  split; [exact H1|]. split; [reflexivity|exact H4].
Qed.

(* C. the parseTime step and parseFractionNanos *)

(* The pipeline model runs ParseTime.transform_parse_time (C13's model, imported) in [run_parse_time]; the model of
   parseFractionNanos is a fixed nine-iteration loop without any indexing.  Stated explicitly: for EVERY content of the
   time field - every fraction length - the step is not a panic (the transform alone: [parse_time_value_total] in
   PipelineProofs.v). *)
Lemma parse_fraction_total : forall frac,
  match ParseTime.parse_fraction_nanos frac with Panic _ => False | _ => True end.
Proof. intros [|c [|d ds]]; exact I. Qed.

(* the transform step on a record: whatever bytes the time field holds, with the key inside the field array *)
Lemma parse_time_step_total : forall local_off loc label cs (p : prec),
  (loc < length (T.r_fields (fst p)))%nat ->
  exists cs' p', run_parse_time local_off loc label cs p = Ok (cs', p') /\
                 length (T.r_fields (fst p')) = length (T.r_fields (fst p)).
Proof.
  intros local_off loc label cs p Hl.
  destruct (parse_time_ok local_off _ loc label cs p Hl eq_refl) as ([cs' p'] & E & H). exists cs', p'. split; assumption.
Qed.

Lemma parse_rfc3339_with_real : forall off t,
  parse_rfc3339_with ParseTime.parse_fraction_nanos off t = ParseTime.parse_rfc3339 off t.
Proof. reflexivity. Qed.

(* the table variant [parse_fraction_nanos_table] *)

Ltac frac_case :=
  cbn [parse_fraction_nanos_table ParseTime.parse_fraction_nanos frac_value fold_left ParseTime.frac_loop length nth_error
       fraction_digit_nanos Nat.ltb Nat.leb firstn Nat.sub];
  try reflexivity; try (f_equal; ring).

(* it panics for EVERY fraction of exactly ten characters after the dot ... *)
Lemma table_variant_panics_at_10 : forall c ds, length ds = 10%nat ->
  parse_fraction_nanos_table (c :: ds) = Panic site_frac_table.
Proof.
  intros c ds H.
  do 10 (destruct ds as [|? ds]; [discriminate H|]). destruct ds; [|discriminate H].
  reflexivity.
Qed.

(* ... and is the real function for every other length (0-9 digits scaled by the table, 11 and more cut to nine) *)
Lemma table_variant_agrees_elsewhere : forall c ds, length ds <> 10%nat ->
  parse_fraction_nanos_table (c :: ds) = ParseTime.parse_fraction_nanos (c :: ds).
Proof.
  intros c ds H.
  do 10 (destruct ds as [|? ds]; [frac_case|]).
  destruct ds as [|? ds]; [exfalso; apply H; reflexivity|].
  frac_case.
Qed.

Definition ten_digits : bytes := [49;50;51;52;53;54;55;56;57;49]%N.       (* "1234567891" *)

(* "<13>1 2019-08-15T15:50:49.1234567891+03:00 hostA appB 77 src - hello" *)
Definition rec_ten_digit_fraction : bytes :=
  [60;49;51;62;49;32]%N ++ ts_with_fraction ten_digits ++
  [32; 104;111;115;116;65;32; 97;112;112;66;32; 55;55;32; 115;114;99;32; 45;32; 104;101;108;108;111]%N.

Lemma fraction_table_variant_refuted :
  (* the real transform: parsed, digits beyond the ninth ignored *)
  ParseTime.transform_parse_time 0 (ts_with_fraction ten_digits) = ParseTime.TpSet 1565873449 123456789 /\
  (* the real pipeline delivers the record *)
  match process_record O (ex_cfg true true) g_init (new_conn (ex_cfg true true)) (1600000000, 0)%Z 0%Z rec_ten_digit_fraction with
  | Ok (_, _, RPassed 0 [s] _) => s <> []
  | _ => False
  end /\
  (* the variant: index out of range inside the transform *)
  transform_parse_time_with parse_fraction_nanos_table 0 (ts_with_fraction ten_digits) = ParseTime.TpPanic site_frac_table /\
  (* nine and eleven digits are fine in the variant: only the length class 10 is affected *)
  transform_parse_time_with parse_fraction_nanos_table 0 (ts_with_fraction (firstn 9 ten_digits)) = ParseTime.TpSet 1565873449 123456789 /\
  transform_parse_time_with parse_fraction_nanos_table 0 (ts_with_fraction (ten_digits ++ [50]%N)) = ParseTime.TpSet 1565873449 123456789.
Proof.
  split; [vm_compute; reflexivity|]. split; [vm_compute; discriminate|].
  repeat split; vm_compute; reflexivity.
Qed.
