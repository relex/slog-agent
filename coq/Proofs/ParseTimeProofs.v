(* Proofs about the RFC 3339 parser (Model/ParseTime.v) against Spec/TimeSpec.v.  The file leads up to two results:
   [parse_render_exact_lemma], for which the digits, the fraction, the zone and the calendar are shown, in this order,
   to be read back as rendered, and [parse_total_lemma], no panic on any byte string; the shape condition, the
   transform and the example come after them. *)
From SV Require Import Model.Common Model.ParseTime Spec.TimeSpec Proofs.CommonFacts Proofs.GoSemFacts.
From Coq Require Import Lia ZifyBool ZifyN ZifyNat.
Ltac Zify.zify_post_hook ::= Z.div_mod_to_equations.
Open Scope Z_scope.

Lemma idx_ok : forall t i, (i < length t)%nat -> exists c, idx t i = Ok c.
Proof.
  intros t i H. unfold idx. destruct (nth_lt t i H) as [c ->]. eauto.
Qed.

Lemma bsub0_digit : forall q, (q < 10)%N -> bsub0 (48 + q) = Z.of_N q.
Proof. intros q H. unfold bsub0. f_equal. lia. Qed.

Lemma bsub0_range : forall c, 0 <= bsub0 c <= 255.
Proof. intros c. unfold bsub0. lia. Qed.

Lemma atoi_d2 : forall x, (x <= 99)%N ->
  bsub0 (48 + x / 10) * 10 + bsub0 (48 + x mod 10) = Z.of_N x.
Proof. intros x H. rewrite !bsub0_digit by lia. lia. Qed.

Lemma atoi_d4 : forall x, (x <= 9999)%N ->
  bsub0 (48 + x / 1000) * 1000 + bsub0 (48 + (x / 100) mod 10) * 100 +
  bsub0 (48 + (x / 10) mod 10) * 10 + bsub0 (48 + x mod 10) = Z.of_N x.
Proof. intros x H. rewrite !bsub0_digit by lia. lia. Qed.

Lemma span_digits_app : forall f rest,
  Forall (fun d => (d < 10)%N) f ->
  (match rest with [] => True | c :: _ => is_digit c = false end) ->
  span_digits (map digit_char f ++ rest) = (map digit_char f, rest).
Proof.
  induction f as [|d f IH]; intros rest Hf Hr.
  - simpl. destruct rest as [|c r]; [reflexivity|]. simpl. rewrite Hr. reflexivity.
  - inversion Hf as [|? ? Hd Hf']; subst. simpl.
    rewrite is_digit_digit_char by assumption. rewrite IH by assumption. reflexivity.
Qed.

Lemma frac_loop_spec : forall n f acc,
  Forall (fun d => (d < 10)%N) f -> (length f <= n)%nat ->
  frac_loop n (map digit_char f) acc =
  fold_left (fun a d => a * 10 + Z.of_N d) f acc * 10 ^ (Z.of_nat n - Z.of_nat (length f)).
Proof.
  induction n as [|n IH]; intros f acc Hf Hl.
  - destruct f; simpl in *; lia.
  - destruct f as [|d f].
    + simpl map. cbn [frac_loop].
      pose proof (IH [] (acc * 10) ltac:(constructor) ltac:(simpl; lia)) as E. simpl map in E. rewrite E.
      simpl fold_left. simpl length.
      replace (Z.of_nat (S n) - Z.of_nat 0) with (Z.succ (Z.of_nat n - Z.of_nat 0)) by lia.
      rewrite Z.pow_succ_r by lia. lia.
    + inversion Hf as [|? ? Hd Hf']; subst. simpl map. cbn [frac_loop].
      unfold digit_char at 1. rewrite bsub0_digit by assumption.
      rewrite IH by (auto; simpl in Hl; lia). simpl fold_left. simpl length.
      f_equal. f_equal. lia.
Qed.

Lemma zone_head_not_digit : forall z,
  match render_zone z with [] => True | c :: _ => is_digit c = false end.
Proof. intros [|[] oh om colon]; reflexivity. Qed.

Lemma zone_nonempty : forall z, render_zone z <> [].
Proof. intros [|neg oh om colon]; simpl; discriminate. Qed.

Lemma split_frac_render : forall f z,
  Forall (fun d => (d < 10)%N) f ->
  split_frac_tz (render_frac f ++ render_zone z) = (render_frac f, render_zone z).
Proof.
  intros f z Hf. destruct f as [|d f].
  - destruct z as [|[] oh om colon]; reflexivity.
  - unfold render_frac. cbn [app]. unfold split_frac_tz.
    rewrite (span_digits_app (d :: f)); [reflexivity|assumption|apply zone_head_not_digit].
Qed.

Lemma parse_fraction_render : forall f,
  Forall (fun d => (d < 10)%N) f -> (length f <= 9)%nat ->
  parse_fraction_nanos (render_frac f) = Ok (frac_nanos f).
Proof.
  intros f Hf Hl. destruct f as [|d f]; [reflexivity|].
  unfold render_frac, parse_fraction_nanos. cbn [map].
  rewrite (frac_loop_spec 9 (d :: f)) by assumption. reflexivity.
Qed.

Lemma getnum2_d2 : forall x, (x <= 99)%N ->
  getnum2 (48 + x / 10) (48 + x mod 10) = Some (Z.of_N x).
Proof.
  intros x H. unfold getnum2.
  replace (is_digit (48 + x / 10)) with true by (unfold is_digit; lia).
  replace (is_digit (48 + x mod 10)) with true by (unfold is_digit; lia).
  cbn [andb]. f_equal. lia.
Qed.

Lemma parse_tz_render : forall z, zone_ok z -> parse_tz (render_zone z) = Ok (zone_offset z).
Proof.
  intros [|neg oh om colon] Hz; [reflexivity|]. destruct Hz as [Hh Hm].
  assert (Hneq : forall q, (q < 10)%N -> ((48 + q =? 58)%N = false)) by (intros; lia).
  unfold render_zone, d2, parse_tz, has_colon.
  destruct colon, neg; cbn [app existsb N.eqb Pos.eqb orb]; rewrite ?Hneq by lia; cbn [orb N.eqb Pos.eqb];
    rewrite !getnum2_d2 by lia; unfold tz_finish;
    (replace (Z.of_N oh >? 24) with false by lia); (replace (Z.of_N om >? 60) with false by lia); reflexivity.
Qed.

(* calendar: the era formula of days_from_civil agrees with the plain sum over years and months; both are
   [leap_days], the days up to the end of year y counted from the end of year 0, plus what the months add *)
Definition leap_days (y : Z) : Z := 365 * y + y / 4 - y / 100 + y / 400.

Lemma days_before_year_closed : forall n, days_before_year n = leap_days (Z.of_nat n - 1) + 366.
Proof.
  induction n as [|n IH]; [reflexivity|].
  cbn [days_before_year]. rewrite IH. unfold leap_days, year_len, leap.
  destruct (_ && _)%bool eqn:E; lia.
Qed.

(* days_from_civil counts in years that begin on 1 March, so that the leap day comes last *)
Lemma days_from_civil_closed : forall y m d,
  days_from_civil y m d =
  leap_days (if m <=? 2 then y - 1 else y) + (153 * (if m >? 2 then m - 3 else m + 9) + 2) / 5 + d - 719469.
Proof.
  intros y m d. unfold days_from_civil, leap_days. cbv zeta.
  generalize (if m <=? 2 then y - 1 else y). lia.
Qed.

Lemma dby_1970 : days_before_year 1970 = 719528.
Proof. rewrite days_before_year_closed. reflexivity. Qed.

Lemma days_from_civil_spec : forall y m, (1 <= m <= 12)%N ->
  days_from_civil (Z.of_N y) (Z.of_N m) 1 = epoch_days y m 1.
Proof.
  intros y m Hm. unfold epoch_days. rewrite dby_1970, days_from_civil_closed.
  (* the days before year y, counted to the end of year y - 1 and to the end of year y: January and February belong
     to the March year y - 1; from March on, the days left in year y do not depend on whether it is a leap year *)
  assert (E1 : days_before_year (N.to_nat y) = leap_days (Z.of_N y - 1) + 366)
    by (rewrite days_before_year_closed, N_nat_Z; reflexivity).
  assert (E2 : days_before_year (N.to_nat y) = leap_days (Z.of_N y) + 366 - year_len y).
  { pose proof (days_before_year_closed (S (N.to_nat y))) as E. cbn [days_before_year] in E.
    rewrite Nnat.N2Nat.id in E. replace (Z.of_nat (S (N.to_nat y)) - 1) with (Z.of_N y) in E by lia. lia. }
  unfold year_len in E2.
  assert (m = 1 \/ m = 2 \/ m = 3 \/ m = 4 \/ m = 5 \/ m = 6 \/ m = 7 \/ m = 8 \/ m = 9 \/ m = 10 \/ m = 11 \/ m = 12)%N
    as Hc by lia.
  repeat destruct Hc as [->|Hc]; try subst m; simpl (N.to_nat _ - 1)%nat;
    cbn [days_first_months N.of_nat Pos.of_succ_nat Pos.succ days_in_month Z.of_N Z.leb Z.gtb Z.compare Pos.compare
         Pos.compare_cont].
  1, 2: rewrite E1; lia.
  all: rewrite E2; destruct (leap y); lia.
Qed.

Lemma days_from_civil_day : forall y m d, days_from_civil y m d = days_from_civil y m 1 + (d - 1).
Proof. intros. unfold days_from_civil. lia. Qed.

Lemma go_date_unix_valid : forall y m d h i s, (1 <= m <= 12)%N ->
  go_date_unix (Z.of_N y) (Z.of_N m) (Z.of_N d) h i s =
  epoch_days y m d * 86400 + h * 3600 + i * 60 + s.
Proof.
  intros y m d h i s Hm. unfold go_date_unix.
  replace ((Z.of_N m - 1) / 12) with 0 by lia.
  replace ((Z.of_N m - 1) mod 12 + 1) with (Z.of_N m) by lia.
  replace (Z.of_N y + 0) with (Z.of_N y) by lia.
  rewrite days_from_civil_spec by assumption. unfold epoch_days. lia.
Qed.

(* the parser checks no ranges: any two-digit day, hour, minute and second is read as written, and counted on
   from the first of the month the way time.Date normalises *)
Lemma parse_render_exact_wide : forall lo c,
  (yr c <= 9999)%N -> (1 <= mo c <= 12)%N -> (dy c <= 99)%N -> (hh c <= 99)%N -> (mi c <= 99)%N -> (ss c <= 99)%N ->
  Forall (fun d => (d < 10)%N) (frac c) -> (length (frac c) <= 9)%nat -> zone_ok (zone c) ->
  parse_rfc3339 lo (render c) = Ok (instant c).
Proof.
  intros lo c Hy Hmo Hd Hh Hmi Hs Hf Hfl Hz.
  unfold render, d4, d2, parse_rfc3339. cbn [app].
  cbn [length Nat.ltb Nat.leb idx nth_error bind atoi2 atoi4 Nat.add skipn N.eqb Pos.eqb andb negb].
  rewrite atoi_d4, !atoi_d2, split_frac_render by (assumption || lia).
  rewrite parse_fraction_render by assumption. cbn [bind].
  pose proof (zone_nonempty (zone c)) as Hne.
  destruct (render_zone (zone c)) as [|z0 zr] eqn:Ez; [congruence|].
  rewrite <- Ez. rewrite parse_tz_render by assumption. cbn [bind].
  rewrite go_date_unix_valid by assumption. reflexivity.
Qed.

Lemma parse_render_exact_lemma : forall lo c, valid c -> parse_rfc3339 lo (render c) = Ok (instant c).
Proof.
  intros lo c (Hy & Hmo & Hd & Hh & Hmi & Hs & Hf & Hfl & Hz).
  assert (Hdm : (days_in_month (yr c) (mo c) <= 31)%N).
  { unfold days_in_month. destruct (leap (yr c)), (mo c) as [|p]; try discriminate; do 4 (try destruct p as [p|p|]); discriminate. }
  apply parse_render_exact_wide; try assumption; lia.
Qed.

Lemma parse_tz_no_panic : forall s, is_panic (parse_tz s) = false.
Proof.
  intros s. unfold parse_tz, tz_finish.
  (* every leaf of the two functions is [Ok] or [Err]; the case analysis only has to reach the leaves *)
  repeat match goal with
         | |- context [match ?x with _ => _ end] => destruct x; try reflexivity
         end.
Qed.

Lemma parse_fraction_no_panic : forall f, is_panic (parse_fraction_nanos f) = false.
Proof. intros [|a [|b f]]; reflexivity. Qed.

Lemma parse_total_lemma : forall lo t, is_panic (parse_rfc3339 lo t) = false.
Proof.
  intros lo t. unfold parse_rfc3339.
  destruct (length t <? 19)%nat eqn:El; [reflexivity|].
  do 19 (destruct t as [|? t]; [discriminate El|]).
  cbn [idx nth_error bind atoi2 atoi4 Nat.add].
  match goal with |- context [negb ?b] => destruct (negb b); [reflexivity|] end.
  cbn [skipn]. destruct (split_frac_tz t) as [f tz].
  pose proof (parse_fraction_no_panic f) as Hf.
  destruct (parse_fraction_nanos f); try reflexivity; try discriminate.
  cbn [bind].
  destruct tz as [|z0 zr]; [reflexivity|].
  pose proof (parse_tz_no_panic (z0 :: zr)) as Hz.
  destruct (parse_tz (z0 :: zr)); try reflexivity; try discriminate.
Qed.

Definition shaped (t : bytes) : Prop :=
  (19 <= length t)%nat /\ nth_error t 4 = Some 45%N /\ nth_error t 7 = Some 45%N /\
  nth_error t 10 = Some 84%N /\ nth_error t 13 = Some 58%N /\ nth_error t 16 = Some 58%N.

Lemma unshaped_is_error_lemma : forall lo t, ~ shaped t -> exists e, parse_rfc3339 lo t = Err e.
Proof.
  intros lo t H. unfold parse_rfc3339.
  destruct (length t <? 19)%nat eqn:El; [eauto|].
  do 19 (destruct t as [|? t]; [discriminate El|]). apply Nat.ltb_ge in El.
  cbn [idx nth_error bind].
  match goal with |- context [negb ?b] => destruct b eqn:Eb end; cbn [negb]; [|eauto].
  exfalso. apply H. unfold shaped. cbn [nth_error length].
  repeat (apply andb_true_iff in Eb; destruct Eb as [Eb ?]).
  repeat match goal with E : (_ =? _)%N = true |- _ => apply N.eqb_eq in E; subst end.
  repeat split; try reflexivity. lia.
Qed.

(* the transform: an unparsable value is counted once and leaves the timestamp alone;
   an empty value is skipped (field absent); nothing panics *)
Lemma transform_cases_lemma : forall lo v,
  match transform_parse_time lo v with
  | TpSkip => v = []
  | TpSet u n => parse_rfc3339 lo v = Ok (u, n)
  | TpError => v <> [] /\ exists e, parse_rfc3339 lo v = Err e
  | TpPanic _ => False
  end.
Proof.
  intros lo v. unfold transform_parse_time. destruct v as [|a v]; [reflexivity|].
  pose proof (parse_total_lemma lo (a :: v)) as Hp.
  destruct (parse_rfc3339 lo (a :: v)) as [[u n]|e|s]; simpl in Hp; try discriminate.
  - reflexivity.
  - split; [discriminate|eauto].
Qed.

(* non-vacuity: a concrete valid civil time and its rendering *)
Definition example_civil : civil :=
  {| yr := 2019; mo := 8; dy := 15; hh := 15; mi := 50; ss := 46;
     frac := [0;0;0;1;2;9]%N; zone := TzOff false 3 0 true |}.

Lemma example_valid : valid example_civil.
Proof.
  unfold valid, example_civil; simpl. repeat split; try lia.
  repeat constructor.
Qed.

Lemma example_value : parse_rfc3339 0 (render example_civil) = Ok (1565873446, 129000).
Proof. vm_compute. reflexivity. Qed.
