(* Soundness of the trace acceptor of Model/SystemAccept.v: an accepted trace is the projection of a run
   of the LTS, and the printed at-least-once flag of an accepted Stopped state is the theorem's conclusion. *)
From Coq Require Import List Arith Bool Lia PeanoNat NArith ZArith.
From SV Require Import Model.Common Model.System Model.SystemAccept Proofs.SystemLists Proofs.SystemProofs Proofs.SystemAlo.
Import ListNotations.
Open Scope nat_scope.

(* what the boolean comparison of observations means *)
Definition entries_incl (a b : list (nat * nat * list tok)) : Prop := forall x, In x a -> In x b.

Inductive obs_equiv : obs -> obs -> Prop :=
| OeIngest t : obs_equiv (OIngest t) (OIngest t)
| OeConnect p : obs_equiv (OConnect p) (OConnect p)
| OeRecv p i ts : obs_equiv (ORecv p i ts) (ORecv p i ts)
| OeAck p i : obs_equiv (OAck p i) (OAck p i)
| OeStopped : obs_equiv OStopped OStopped
| OeDisk l m : length l = length m -> entries_incl l m -> entries_incl m l -> obs_equiv (ODisk l) (ODisk m)
| OeDrops n : obs_equiv (ODrops n) (ODrops n)
| OeRestart : obs_equiv ORestart ORestart.

Lemma entry_eqb_eq : forall a b, entry_eqb a b = true -> a = b.
Proof.
  intros [[a1 a2] a3] [[b1 b2] b3] H. unfold entry_eqb in H. cbn in H.
  rewrite !andb_true_iff, !Nat.eqb_eq, toks_eqb_eq in H. destruct H as [[-> ->] ->]. reflexivity.
Qed.

Lemma entries_sub_incl : forall a b, entries_sub a b = true -> entries_incl a b.
Proof.
  intros a b H x Hx. unfold entries_sub in H. rewrite forallb_forall in H. specialize (H x Hx).
  apply existsb_exists in H. destruct H as [y [Hy E]]. apply entry_eqb_eq in E. subst. assumption.
Qed.

Lemma obs_eqb_sound : forall a b, obs_eqb a b = true -> obs_equiv a b.
Proof.
  intros a b H. destruct a, b; cbn in H; try discriminate H.
  - apply tok_eqb_eq in H. subst. constructor.
  - apply Nat.eqb_eq in H. subst. constructor.
  - rewrite !andb_true_iff, !Nat.eqb_eq, toks_eqb_eq in H. destruct H as [[-> ->] ->]. constructor.
  - rewrite !andb_true_iff, !Nat.eqb_eq in H. destruct H as [-> ->]. constructor.
  - constructor.
  - rewrite !andb_true_iff, Nat.eqb_eq in H. destruct H as [[H1 H2] H3]. constructor; auto using entries_sub_incl.
  - apply Nat.eqb_eq in H. subst. constructor.
  - constructor.
Qed.

Lemma obs_list_eqb_sound : forall a b, obs_list_eqb a b = true -> Forall2 obs_equiv a b.
Proof.
  induction a as [|x a IH]; intros [|y b] H; cbn in H; try discriminate H; [constructor|].
  apply andb_true_iff in H. destruct H as [H1 H2]. constructor; [apply obs_eqb_sound; assumption|apply IH; assumption].
Qed.

(* accepted => there is a run of the LTS (without the channel-timeout branch) whose projection is the observed trace *)
Lemma accept_sound_lemma : forall tr s, accept tr = Some s ->
  exists es os, steps init es = Some s /\ no_timeout es = true /\ order_safe es = true /\
               trace_obs tr = Some os /\ Forall2 obs_equiv (proj_run init es) os.
Proof.
  intros tr s H. unfold accept in H. destruct (synth tr) as [es|]; [|discriminate].
  unfold accept_with in H. destruct (steps init es) as [s1|] eqn:E1; [|discriminate].
  destruct (trace_obs tr) as [os|] eqn:E2; [|discriminate].
  destruct (obs_list_eqb (proj_run init es) os && no_timeout es && order_safe es) eqn:E3; [|discriminate].
  inversion H; subst. apply andb_true_iff in E3. destruct E3 as [E3 E5]. apply andb_true_iff in E3. destruct E3 as [E3 E4].
  exists es, os. split; [exact E1|]. split; [exact E4|]. split; [exact E5|]. split; [reflexivity|]. apply obs_list_eqb_sound. exact E3.
Qed.

Lemma in_toks_spec : forall t l, in_toks t l = true <-> In t l.
Proof.
  intros. unfold in_toks. rewrite existsb_exists. split.
  - intros [x [Hx E]]. apply tok_eqb_eq in E. subst. assumption.
  - intros H. exists t. split; [assumption|apply tok_eqb_eq; reflexivity].
Qed.

(* the flag "alo=1" printed for an accepted trace that ends in a Stopped state is not a test: it follows from
   the theorem *)
Lemma accepted_stopped_alo_lemma : forall tr s, accept tr = Some s -> phase s = Stopped -> alo_check s = true.
Proof.
  intros tr s H Hp. destruct (accept_sound_lemma tr s H) as [es [os [H1 [H2 _]]]].
  unfold alo_check. apply forallb_forall. intros t Ht.
  destruct (t_keep t) eqn:K; [|reflexivity]. cbn.
  destruct (at_least_once_lemma es s H1 H2 Hp t Ht K) as [X|[X|X]]; apply in_toks_spec in X; rewrite X;
    rewrite ?orb_true_r; reflexivity.
Qed.


Definition tw_tok : tok := mkTok 0 0 1 true 7%N.
Definition tw_run : list event :=
  [EConnOpen 0; EIngest tw_tok; EFrame 0; ESinkSend 0; EFlushTimeout 0 1; EStopReq; EConnEnd 0; EInputsStopped;
   EWorkerStop 1 1 AMem; EDestroy 1; EFeederBreak 1; EClientStop 1; EClientDone 1; EFeederEnd 1; EStopped].

Definition tw_check : bool :=
  match steps init tw_run with
  | Some s => gphase_eqb (phase s) Stopped && in_toks tw_tok (ingested s) && negb (in_toks tw_tok (safe s))
  | None => false
  end.

Lemma tw_check_true : tw_check = true.
Proof. vm_compute. reflexivity. Qed.

Lemma timeout_witness :
  exists es s t, steps init es = Some s /\ phase s = Stopped /\ In t (ingested s) /\ t_keep t = true /\ ~ In t (safe s).
Proof.
  pose proof tw_check_true as H. unfold tw_check in H.
  destruct (steps init tw_run) as [s|] eqn:E; [|discriminate H].
  apply andb_true_iff in H. destruct H as [H H3]. apply andb_true_iff in H. destruct H as [H1 H2].
  exists tw_run, s, tw_tok. split; [exact E|]. split; [apply gphase_eqb_eq; exact H1|].
  split; [apply in_toks_spec; exact H2|]. split; [reflexivity|].
  intros X. apply in_toks_spec in X. rewrite X in H3. discriminate H3.
Qed.

Definition ex_trace_z : list Z :=
 [0; 2;
  5; 1;0; 3; 0;0;1;1;77; 0;1;1;1;78; 0;2;1;0;79;
     1; 1; 1; 4;2; 0;0;0;1;  2; 1; 1;4;  0;
     1; 1; 1;4; 0;
  9; 1;1; 1; 1;0;1;1;80;
     1; 1; 1; 8;1; 1;0;  1; 4; 1;4; 2;4; 1;8; 2;8;
     1; 0; 0]%Z.

Definition ex_events : list event := Eval vm_compute in
  match decode_trace ex_trace_z with
  | Some tr => match synth tr with Some es => es | None => [] end
  | None => []
  end.

Definition ex_check : bool :=
  match steps init ex_events with
  | Some s => no_timeout ex_events && gphase_eqb (phase s) Stopped && Nat.eqb (length (ingested s)) 4
              && Nat.eqb (length (toks_of_chunks (acked s))) 3 && Nat.eqb (length (files s)) 0 && Nat.eqb (length (filtered s)) 1
  | None => false
  end.

Lemma ex_check_true : ex_check = true.
Proof. vm_compute. reflexivity. Qed.

Lemma example_run :
  exists es s, steps init es = Some s /\ no_timeout es = true /\ phase s = Stopped /\
    length (ingested s) = 4 /\ length (toks_of_chunks (acked s)) = 3 /\ files s = [] /\ length (filtered s) = 1.
Proof.
  pose proof ex_check_true as H. unfold ex_check in H.
  destruct (steps init ex_events) as [s|] eqn:E; [|discriminate H].
  rewrite !andb_true_iff in H. destruct H as [[[[[N Ph] Ni] Na] Nf] Nx].
  exists ex_events, s. split; [exact E|]. split; [exact N|]. split; [apply gphase_eqb_eq; exact Ph|].
  split; [apply Nat.eqb_eq; exact Ni|]. split; [apply Nat.eqb_eq; exact Na|].
  split; [destruct (files s); [reflexivity|discriminate Nf]|apply Nat.eqb_eq; exact Nx].
Qed.
