(* Proofs about Model/SystemQuota.v: on the guarded agent a chunk is discarded only when the queue directory of its
   pipeline, AS IT IS AT THAT MOMENT, cannot take it, or the queue is full; the runs of the guarded agent are runs of
   Model/System.v (conservation, at-least-once); the agent whose space check reads an only-growing counter discards a
   chunk at an EMPTY directory (witness history). *)
From Coq Require Import List Arith Bool Lia PeanoNat NArith.
From SV Require Import Model.Common Model.System Model.SystemAccept Model.SystemQuota
  Proofs.SystemLists Proofs.SystemProofs Proofs.SystemAlo.
Import ListNotations.
Open Scope nat_scope.

Section QuotaProofs.
Variable sz : chunk -> nat.
Variable lim qmax : nat.

Notation dir_full := (dir_full sz lim).
Notation queue_full := (queue_full qmax).
Notation qstep := (qstep sz lim qmax).
Notation qsteps := (qsteps sz lim qmax).

(* the overflow condition, evaluated in state s for chunk c *)
Definition overflow (s : state) (c : chunk) : Prop := dir_full s c = true \/ queue_full s (c_pipe c) = true.

Definition drop_effect (s s' : state) : Prop :=
  dropped s' = dropped s \/ exists c, dropped s' = dropped s ++ [c] /\ overflow s c.

Lemma close_chunk_drop : forall s p id o mine others,
  partition (on_pipe p) (cur s) = (mine, others) -> mine <> [] ->
  outcome_ok sz lim qmax s (closing_chunk s p id) o = true ->
  drop_effect s (do_accept (cut_chunk s others id) (mkChunk id p mine) o).
Proof.
  intros s p id o mine others Pt Ne J. unfold outcome_ok, closing_chunk in J. rewrite Pt in J. cbn [fst c_toks c_pipe] in J.
  destruct mine as [|t mine]; [congruence|]. unfold drop_effect, overflow.
  destruct o; cbn [do_accept cut_chunk dropped].
  - left. reflexivity.
  - left. reflexivity.
  - right. eexists. split; [reflexivity|]. left. exact J.
  - right. eexists. split; [reflexivity|]. right. exact J.
  - right. eexists. split; [reflexivity|]. right. apply andb_true_iff in J. tauto.
Qed.

Lemma persist_drop : forall s src p ok q rest fl dr,
  take_first (item_on p) src = Some (q, rest) -> persist_ok sz lim s src p ok = true ->
  persist q ok (files s) (dropped s) = (fl, dr) ->
  dr = dropped s \/ (dr = dropped s ++ [q_chunk q] /\ dir_full s (q_chunk q) = true).
Proof.
  intros s src p ok q rest fl dr T J P. unfold persist_ok in J. rewrite T in J. unfold persist in P.
  destruct (q_saved q); [inversion P; left; reflexivity|].
  destruct ok; inversion P; subst; [left; reflexivity|]. right. split; [reflexivity|exact J].
Qed.

(* ONE STEP: the dropped-chunk history grows by at most one chunk, and only under the overflow condition evaluated
   on the state in which the step is taken *)
Lemma qstep_drop_only_when_full : forall s e s', qstep s e = Some s' -> drop_effect s s'.
Proof.
  intros s e s' H. unfold SystemQuota.qstep in H. destruct (justified sz lim qmax s e) eqn:J; [|discriminate].
  destruct (step_Step _ _ _ H); cbn [justified] in J; try discriminate J; try (left; reflexivity).
  1,2: eapply close_chunk_drop; eassumption.
  all: destruct (persist_drop _ _ _ _ _ _ _ _ Tf J Pe) as [E|[E O]];
    [left; exact E|right; exists (q_chunk q); split; [exact E|left; exact O]].
Qed.

(* runs of the guarded agent are runs of Model/System.v *)
Lemma qsteps_steps : forall es s s', qsteps s es = Some s' -> steps s es = Some s'.
Proof.
  induction es as [|e es IH]; intros s s' H; cbn in *; [assumption|].
  unfold SystemQuota.qstep in H. destruct (justified sz lim qmax s e); [|discriminate].
  destruct (step s e) as [s1|]; [|discriminate]. apply IH. assumption.
Qed.

(* ALL RUNS: every chunk in the dropped history was discarded by a step taken in a state — reached by a prefix of the
   run — in which the overflow condition held for it: the directory of its pipeline, with the files it contained AT
   THAT MOMENT, could not take it, or its queue was full *)
Lemma qsteps_drop_only_when_full : forall es s0 s, qsteps s0 es = Some s ->
  forall c, In c (dropped s) -> In c (dropped s0) \/
    exists es1 e es2 s1, es = es1 ++ e :: es2 /\ qsteps s0 es1 = Some s1 /\ overflow s1 c.
Proof.
  induction es as [|e es IH]; intros s0 s H c Hc; cbn in H.
  - inversion H; subst. left. assumption.
  - destruct (qstep s0 e) as [s1|] eqn:E; [|discriminate].
    destruct (IH _ _ H c Hc) as [Hin|[es1 [e1 [es2 [s2 [-> [R O]]]]]]].
    + destruct (qstep_drop_only_when_full _ _ _ E) as [D|[c' [D O]]]; rewrite D in Hin.
      * left. assumption.
      * apply in_app_iff in Hin. destruct Hin as [Hin|[<-|[]]]; [left; assumption|].
        right. exists [], e, es, s0. repeat split; assumption.
    + right. exists (e :: es1), e1, es2, s2. split; [reflexivity|]. split; [|assumption]. cbn. rewrite E. assumption.
Qed.

Lemma quota_at_least_once : forall es s, qsteps init es = Some s -> no_timeout es = true -> phase s = Stopped ->
  forall t, In t (ingested s) -> t_keep t = true ->
    In t (toks_of_chunks (acked s)) \/ In t (toks_of_chunks (files s)) \/
    (exists c, In c (dropped s) /\ In t (c_toks c) /\
               exists es1 e es2 s1, es = es1 ++ e :: es2 /\ qsteps init es1 = Some s1 /\ overflow s1 c).
Proof.
  intros es s H N HP t Ht Hk.
  destruct (at_least_once_lemma es s (qsteps_steps _ _ _ H) N HP t Ht Hk) as [A|[F|D]]; [tauto|tauto|].
  right. right. unfold toks_of_chunks in D. apply in_flat_map in D. destruct D as [c [Hc Hin]].
  exists c. split; [assumption|]. split; [assumption|].
  destruct (qsteps_drop_only_when_full _ _ _ H c Hc) as [[]|X]. exact X.
Qed.

End QuotaProofs.

(* the only-growing counter (seeded change C01/7) *)
Definition wt1 : tok := mkTok 0 0 1 true 1%N.
Definition wt2 : tok := mkTok 0 1 1 true 2%N.

(* limit 1, a chunk of one record has size 1.  Outage: the first chunk is spilled (directory 1 = full).  Healthy: it
   is loaded, sent, acknowledged, its file removed (directory EMPTY).  Second outage: the next chunk must be spilled. *)
Definition cumulative_history : list event :=
  [EConnOpen 0; EIngest wt1; EFrame 0; ESinkSend 0; EKeyFlush 0 1; EWorkerTake 1; EWorkerStep 1; EChunkClose 1 1 ADisk;
   EFeederTake 1; EFeederLoad 1 true; EFeederPush 1; EConnect 1; ESendNew 1; ESrvAck 1 1; EAckRead 1 1;
   EIngest wt2; EFrame 0; ESinkSend 0; EKeyFlush 0 1; EWorkerTake 1; EWorkerStep 1].

Definition cumulative_drop : event := EChunkClose 1 2 ADropQuota.

Definition force_c (o : option cstate) : cstate := match o with Some x => x | None => (init, fun _ => 0) end.
Definition w1 : cstate := force_c (csteps qsz 1 64 (init, fun _ => 0) cumulative_history).
Definition w2 : cstate := force_c (cstep qsz 1 64 w1 cumulative_drop).

Lemma cumulative_counter_witness :
  exists s1 u1 s2 u2 c,
    csteps qsz 1 64 (init, fun _ => 0) cumulative_history = Some (s1, u1) /\
    qsteps qsz 1 64 init cumulative_history = Some s1 /\
    files s1 = [] /\ queue s1 = [] /\                                   (* the directory and the queue are EMPTY *)
    cstep qsz 1 64 (s1, u1) cumulative_drop = Some (s2, u2) /\         (* the variant discards the chunk ... *)
    dropped s2 = [c] /\ c_toks c = [wt2] /\
    dir_full qsz 1 s1 c = false /\ queue_full 64 s1 (c_pipe c) = false /\ (* ... although neither limit is reached *)
    qstep qsz 1 64 s1 cumulative_drop = None /\                        (* the guarded agent cannot take this step *)
    exists s3, qstep qsz 1 64 s1 (EChunkClose 1 2 ADisk) = Some s3 /\ In wt2 (toks_of_chunks (files s3)).
Proof.
  exists (fst w1), (snd w1), (fst w2), (snd w2), (mkChunk 2 1 [wt2]).
  split; [vm_compute; reflexivity|].
  split; [vm_compute; reflexivity|].
  split; [vm_compute; reflexivity|].
  split; [vm_compute; reflexivity|].
  split; [vm_compute; reflexivity|].
  split; [vm_compute; reflexivity|].
  split; [reflexivity|].
  split; [vm_compute; reflexivity|].
  split; [vm_compute; reflexivity|].
  split; [vm_compute; reflexivity|].
  eexists. split; [vm_compute; reflexivity|]. cbn. left. reflexivity.
Qed.
