(* C16 - proofs about the model of ConfigHolder.UnmarshalYAML (Model/ConfigHolder.v): the holder with a guard never
   panics exactly when the guard is safe ([holder_with_safe_total], [holder_with_total_safe]), the guard of the code
   is safe ([code_guard_safe], [holder_total], [every_site_total]), and the holder accepts what
   Spec/ConfigHolderSpec.v says ([holder_spec], [holder_rejects_cleanly]).  Three weaker guards are refuted, each by
   a YAML node on which the holder panics: [kind_guard_refuted], [len1_guard_refuted], [no_guard_refuted]. *)
From Coq Require Import Lia.
From SV Require Import Model.Common Model.ConfigTemplate Model.ConfigHolder Spec.ConfigHolderSpec Proofs.CommonFacts.

Lemma memb_In : forall x l, memb x l = true <-> In x l.
Proof.
  intros x l. unfold memb. rewrite existsb_exists. split.
  - intros [y [Hin Heq]]. apply bytes_eqb_eq in Heq. subst. exact Hin.
  - intros Hin. exists x. split; [exact Hin | apply bytes_eqb_refl].
Qed.

Lemma ykind_eqb_eq : forall a b, ykind_eqb a b = true <-> a = b.
Proof. intros a b. destruct a, b; cbn; split; intros H; try reflexivity; try discriminate. Qed.

Lemma is_type_key_spec : forall k, is_type_key k = true <-> (y_kind k = KScalar /\ y_value k = s_type).
Proof.
  intros k. unfold is_type_key. rewrite andb_true_iff, ykind_eqb_eq, bytes_eqb_eq. reflexivity.
Qed.

Lemma holder_with_safe_total :
  forall guard, guard_safe guard ->
  forall table dec n, is_panic (holder_with guard table dec n) = false.
Proof.
  intros guard Hsafe table dec n. unfold holder_with.
  destruct (guard n) eqn:Hg; cbn [check obind]; [| reflexivity].
  specialize (Hsafe n Hg).
  destruct (y_content n) as [| k [| v rest]] eqn:Hc.
  - contradiction.
  - cbn [ynth nth_error obind]. rewrite Hsafe. reflexivity.
  - cbn [ynth nth_error obind].
    destruct (is_type_key k); cbn [check obind]; [| reflexivity].
    destruct (memb (y_value v) table); cbn [check obind]; [| reflexivity].
    destruct (dec (y_value v) n); reflexivity.
Qed.

Lemma holder_with_total_safe :
  forall guard,
  (forall table dec n, is_panic (holder_with guard table dec n) = false) -> guard_safe guard.
Proof.
  intros guard Htot n Hg. specialize (Htot [] (fun _ _ => true) n).
  unfold holder_with in Htot. rewrite Hg in Htot. cbn [check obind] in Htot.
  destruct (y_content n) as [| k [| v rest]].
  - discriminate.
  - cbn [ynth nth_error obind] in Htot.
    destruct (is_type_key k); [cbn in Htot; discriminate | reflexivity].
  - exact I.
Qed.

Lemma guard_exact :
  forall guard,
  (forall table dec n, is_panic (holder_with guard table dec n) = false) <-> guard_safe guard.
Proof. intros guard. split; [apply holder_with_total_safe | apply holder_with_safe_total]. Qed.

Lemma code_guard_safe : guard_safe code_guard.
Proof.
  intros n Hg. unfold code_guard in Hg. apply Nat.leb_le in Hg.
  destruct (y_content n) as [| k [| v rest]]; cbn in Hg; [lia | lia | exact I].
Qed.

Lemma holder_total : forall table dec n, is_panic (holder_unmarshal table dec n) = false.
Proof. exact (holder_with_safe_total code_guard code_guard_safe). Qed.

Lemma site_decode_total : forall table dec n, is_panic (site_decode table dec n) = false.
Proof.
  intros table dec n. unfold site_decode, site_decode_with.
  destruct (bytes_eqb (y_tag (resolve_alias n)) s_null_tag); [reflexivity |].
  pose proof (holder_total table dec (resolve_alias n)) as H. unfold holder_unmarshal in H.
  destruct (holder_with code_guard table dec (resolve_alias n)); cbn in *; congruence.
Qed.

(* every node of a document - whichever of them yaml.v3 hands to a holder - decodes without a panic *)
Lemma every_site_total :
  forall table dec d, Forall (fun s => is_panic (site_decode table dec s) = false) (subnodes d).
Proof. intros table dec d. apply Forall_forall. intros s _. apply site_decode_total. Qed.

Lemma holder_spec :
  forall table dec n ty, holder_unmarshal table dec n = Ok ty <-> holder_accepts table dec n ty.
Proof.
  intros table dec n ty. unfold holder_unmarshal, holder_with, holder_accepts, code_guard. split.
  - intros H.
    destruct (y_content n) as [| k [| v rest]] eqn:Hc; cbn in H; try discriminate.
    destruct (is_type_key k) eqn:Hk; cbn in H; [| discriminate].
    destruct (memb (y_value v) table) eqn:Hm; cbn in H; [| discriminate].
    destruct (dec (y_value v) n) eqn:Hd; cbn in H; [| discriminate].
    injection H as H. subst ty.
    apply is_type_key_spec in Hk. destruct Hk as [Hk1 Hk2].
    exists k, v, rest. repeat split; try assumption. apply memb_In. exact Hm.
  - intros [k [v [rest [Hc [Hk1 [Hk2 [Hv [Hin Hd]]]]]]]].
    rewrite Hc. cbn.
    assert (Hk : is_type_key k = true) by (apply is_type_key_spec; split; assumption).
    rewrite Hk. cbn. subst ty.
    apply memb_In in Hin. rewrite Hin. cbn. rewrite Hd. reflexivity.
Qed.

(* rejected = an error value: the three outcomes are exhaustive and exclusive *)
Lemma holder_rejects_cleanly :
  forall table dec n, (forall ty, ~ holder_accepts table dec n ty) -> exists e, holder_unmarshal table dec n = Err e.
Proof.
  intros table dec n Hno.
  pose proof (holder_total table dec n) as Ht.
  destruct (holder_unmarshal table dec n) as [ty | e | s] eqn:H.
  - exfalso. apply (Hno ty). apply holder_spec. exact H.
  - exists e. reflexivity.
  - discriminate.
Qed.

Definition y_empty_mapping : ynode := YNode KMapping [33;33;109;97;112]%N [] [].            (* {} *)
Definition y_type_scalar : ynode := YNode KScalar [33;33;115;116;114]%N s_type [].          (* type *)
Definition y_seq_type : ynode := YNode KSequence [33;33;115;101;113]%N [] [y_type_scalar].  (* [type] *)
Definition y_alias_empty : ynode := YNode KAlias [33;33;109;97;112]%N [101]%N [y_empty_mapping]. (* *e with &e {} *)

(* "must be a mapping" instead of the length check: the empty mapping passes and Content[0] panics - directly,
   through an alias, for every table and decoder *)
Lemma kind_guard_refuted :
  ~ guard_safe kind_guard /\
  forall table dec,
    holder_with kind_guard table dec y_empty_mapping = Panic site_holder_index /\
    site_decode_with kind_guard table dec y_alias_empty = Panic site_holder_index /\
    (exists e, holder_unmarshal table dec y_empty_mapping = Err e) /\
    (exists e, site_decode table dec y_alias_empty = Err e).
Proof.
  split.
  - intros H. exact (H y_empty_mapping eq_refl).
  - intros table dec. repeat split; try reflexivity; eexists; reflexivity.
Qed.

(* "must not be empty" (len < 1): the one-element sequence [type] passes both checks and Content[1] panics *)
Lemma len1_guard_refuted :
  ~ guard_safe len1_guard /\
  forall table dec,
    holder_with len1_guard table dec y_seq_type = Panic site_holder_index /\
    (exists e, holder_unmarshal table dec y_seq_type = Err e).
Proof.
  split.
  - intros H. specialize (H y_seq_type eq_refl). discriminate.
  - intros table dec. split; [reflexivity | eexists; reflexivity].
Qed.

Lemma no_guard_refuted :
  ~ guard_safe no_guard /\
  forall table dec, holder_with no_guard table dec (YNode KScalar [33;33;115;116;114]%N [120]%N []) = Panic site_holder_index.
Proof.
  split.
  - intros H. exact (H y_empty_mapping eq_refl).
  - intros table dec. reflexivity.
Qed.

(* non-vacuity: a mapping {type: unescape, key: log} is accepted, its alias too, null leaves the holder alone *)
Definition s_unescape_ty : bytes := [117;110;101;115;99;97;112;101]%N.
Definition y_str (v : bytes) : ynode := YNode KScalar [33;33;115;116;114]%N v [].
Definition y_unescape : ynode :=
  YNode KMapping [33;33;109;97;112]%N []
    [y_type_scalar; y_str s_unescape_ty; y_str [107;101;121]%N; y_str [108;111;103]%N].
Definition y_null : ynode := YNode KScalar s_null_tag [126]%N [].

Lemma holder_example :
  holder_unmarshal [s_unescape_ty] (fun _ _ => true) y_unescape = Ok s_unescape_ty /\
  holder_accepts [s_unescape_ty] (fun _ _ => true) y_unescape s_unescape_ty /\
  site_decode [s_unescape_ty] (fun _ _ => true) (YNode KAlias [] [117]%N [y_unescape]) = Ok (HType s_unescape_ty) /\
  site_decode [s_unescape_ty] (fun _ _ => true) y_null = Ok HNil /\
  (exists e, holder_unmarshal [s_unescape_ty] (fun _ _ => false) y_unescape = Err e) /\
  (exists e, holder_unmarshal [] (fun _ _ => true) y_unescape = Err e).
Proof.
  assert (H : holder_unmarshal [s_unescape_ty] (fun _ _ => true) y_unescape = Ok s_unescape_ty) by reflexivity.
  repeat split; try reflexivity.
  - apply holder_spec. exact H.
  - eexists; reflexivity.
  - eexists; reflexivity.
Qed.
