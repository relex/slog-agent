(* Completeness of the redaction depends on the backward scan of the local part (redactFindEmailStart) having no
   bound: the property allows a local part of any length.  Established here, over Model/RedactBounded.v (the loop
   with the start scan as a parameter, and the scan that gives up after [cap] address characters):
   - the parametric loop, instantiated with the faithful scan, IS the model (every text);
   - addresses with a local part of ANY length n+1 are addresses of the specification and are covered;
   - the capped scan gives up on every local part longer than cap (for all cap, n), so the capped variant is not
     complete: with cap 64 (a limit one might take from RFC 5321; the trial change seeded/C14/8 is an example)
     the whole redaction leaves an address with a 65-byte local part untouched. *)
From SV Require Import Model.Common Model.Redact Model.RedactBounded Spec.RedactSpec Proofs.CommonFacts Proofs.RedactProofs.
From Coq Require Import Lia ZifyBool ZifyN ZifyNat.
Local Open Scope nat_scope.

Lemma redact_step_v_faithful : forall t st, redact_step_v find_start t st = redact_step t st.
Proof. reflexivity. Qed.

Lemma redact_loop_v_faithful : forall fuel t st, redact_loop_v find_start fuel t st = redact_loop fuel t st.
Proof.
  induction fuel as [|f IH]; intros t st; [reflexivity|].
  cbn [redact_loop_v redact_loop]. rewrite redact_step_v_faithful.
  destruct (S (r_at st) <? length t); [|reflexivity].
  destruct (redact_step t st) as [[st'|st']|e|p]; cbn [rbind]; auto.
Qed.

Lemma redact_email_v_faithful : forall t, redact_email_v find_start t = redact_email t.
Proof.
  intros t. unfold redact_email_v, redact_email, redact1_v, redact1.
  destruct (find_first t) as [[first|]|e|p]; cbn [rbind]; auto using redact_loop_v_faithful.
Qed.

Lemma repeat_a_addr : forall n, Forall addr_ch (repeat 97%N n).
Proof. induction n as [|n IH]; cbn [repeat]; constructor; auto. unfold addr_ch, word_ch, digit_ch. lia. Qed.

(* "aaa...a@b.c" with n+1 letters is an address at [0, n+5), its '@' at n+1 - whatever n *)
Lemma long_local_email_at : forall n, email_at (long_local n) 0 (S n) (n + 5).
Proof.
  intros n. exists [], (repeat 97%N (S n)), [98;46;99]%N, [].
  split; [unfold long_local; cbn [app]; reflexivity|].
  split; [reflexivity|]. split; [rewrite repeat_length; reflexivity|].
  split; [cbn [length]; lia|].
  split; [left; reflexivity|].
  split.
  { exists (repeat 97%N n), 97%N. split; [apply repeat_cons|]. split; [apply repeat_a_addr|ch]. }
  split.
  - apply (dom_dotted [98%N] 99%N [] []).
    + exists 98%N, []. split; [reflexivity|]. split; [ch | constructor].
    + ch.
    + constructor.
    + exact I.
  - intros [_ [HF _]]. inversion HF as [|? ? H1 _]; subst. destruct H1 as [H|H]; revert H; ch.
Qed.

(* ... and the model redacts it entirely: every position of the text lies inside a span *)
Lemma long_local_covered : forall n, exists out spans,
  redact_email (long_local n) = Ok (out, spans) /\ forall i, i < n + 5 -> covered spans i.
Proof.
  intros n. destruct (redact_email_total (long_local n)) as [out [spans H]].
  exists out, spans. split; [exact H|]. intros i Hi.
  apply (complete_lemma _ _ _ 0 (S n) (n + 5) H (long_local_email_at n)). lia.
Qed.

(* the backward loop over n letters stops only at its limit *)
Lemma find_start_loop_letters : forall n rest limit, limit <= n ->
  find_start_loop (repeat 97%N n ++ 64%N :: rest) limit n = Ok limit.
Proof.
  intros n rest limit H.
  pose proof (find_start_loop_run (repeat 97%N n) [] (64%N :: rest) limit (repeat_a_addr n) (or_introl eq_refl)) as E.
  cbn [app length Nat.add] in E. rewrite repeat_length in E. exact (E H).
Qed.

(* the faithful scan walks back over a local part of any length n ... *)
Lemma find_start_any_length : forall n rest,
  find_start (repeat 97%N n ++ 64%N :: rest) n 0 = Ok (Some 0).
Proof. intros n rest. unfold find_start. rewrite find_start_loop_letters by lia. reflexivity. Qed.

(* ... the capped scan rejects every local part longer than the cap: for all caps, all lengths *)
Lemma find_start_capped_gives_up : forall cap n rest, cap < n ->
  find_start_capped cap (repeat 97%N n ++ 64%N :: rest) n 0 = Ok None.
Proof.
  intros cap n rest Hlt. unfold find_start_capped.
  replace (cap + 1 + 0 <=? n) with true by lia. rewrite find_start_loop_letters by lia. cbn [rbind].
  destruct (n - cap - 1) as [|i] eqn:E.
  - replace (cap <? n) with true by lia. reflexivity.
  - assert (Hn : nth_error (repeat 97%N n ++ 64%N :: rest) i = Some 97%N).
    { rewrite nth_error_app1 by (rewrite repeat_length; lia). apply nth_error_repeat. lia. }
    rewrite (get_some _ _ _ Hn). cbn [rbind].
    replace (97 =? ch_slash)%N with false by reflexivity.
    replace (cap <? n - S i) with true by lia. reflexivity.
Qed.

(* ... and accepts exactly like the faithful one up to the cap *)
Lemma find_start_capped_within : forall cap n rest, n <= cap ->
  find_start_capped cap (repeat 97%N n ++ 64%N :: rest) n 0 = Ok (Some 0).
Proof.
  intros cap n rest Hle. unfold find_start_capped.
  replace (cap + 1 + 0 <=? n) with false by lia. rewrite find_start_loop_letters by lia.
  cbn [rbind]. replace (cap <? n) with false by lia. reflexivity.
Qed.

(* The seeded variant (cap 64): "a"*65 ++ "@b.c" is an address, the variant returns the text unchanged with no
   span - the start of the address is not covered - while the model redacts it; with 64 letters both redact. *)
Lemma bounded_scan_variant_witness :
  redact_email_v (find_start_capped 64) (long_local 64) = Ok (long_local 64, []) /\
  redact_email (long_local 64) = Ok (marker, [(0, 69)]) /\
  redact_email_v (find_start_capped 64) (long_local 63) = Ok (marker, [(0, 68)]).
Proof. split; [|split]; vm_compute; reflexivity. Qed.

Lemma bounded_scan_variant_refuted :
  exists t s a e, email_at t s a e /\
    exists out spans, redact_email_v (find_start_capped 64) t = Ok (out, spans) /\ out = t /\ ~ covered spans s.
Proof.
  exists (long_local 64), 0, 65, 69. split; [exact (long_local_email_at 64)|].
  exists (long_local 64), []. split; [exact (proj1 bounded_scan_variant_witness)|].
  split; [reflexivity|]. intros [s [e [[] _]]].
Qed.
