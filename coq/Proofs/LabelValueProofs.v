(* C06 - the metric label values of a pipeline / a metric key set (base.MetricLabelValues, fix b1856f7) as a
   function of the key values: always valid UTF-8, a subsequence of the key value, idempotent; exactly the key
   values when these are valid UTF-8 - hence injective there - and NOT injective on arbitrary byte strings.
   The facts about strings.ToValidUTF8 itself come from Proofs/Utf8Proofs.v (property C09's development). *)
From SV Require Import Model.Common Model.Routing Spec.RoutingSpec Proofs.CommonFacts Proofs.RoutingProofs.
From SV Require Model.Utf8 Spec.Utf8Spec Proofs.Utf8Proofs.
From Coq Require Import Lia.
Open Scope N_scope.

Lemma subseq_refl : forall (A : Type) (l : list A), subseq l l.
Proof. induction l; constructor; assumption. Qed.

(* ToValidUTF8(s, "") only leaves bytes out *)
Lemma to_valid_aux_subseq : forall s skip, subseq (Utf8.to_valid_aux s skip) s.
Proof.
  induction s as [|b s IH]; intros skip; [constructor|].
  destruct skip as [|k]; cbn [Utf8.to_valid_aux].
  - destruct (Utf8.rune_width (b :: s)); [apply subseq_drop|apply subseq_keep]; apply IH.
  - apply subseq_keep. apply IH.
Qed.

Lemma label_value_spec : forall s,
  Utf8Spec.valid_utf8 (Utf8.to_valid_utf8 s) /\ subseq (Utf8.to_valid_utf8 s) s /\
  Utf8.to_valid_utf8 (Utf8.to_valid_utf8 s) = Utf8.to_valid_utf8 s.
Proof.
  intros s. split; [apply Utf8Proofs.to_valid_utf8_valid_lemma|]. split; [apply to_valid_aux_subseq|].
  apply Utf8Proofs.to_valid_id. apply Utf8Proofs.to_valid_utf8_valid_lemma.
Qed.

Lemma labels_exact_valid : forall ks, Forall Utf8Spec.valid_utf8 ks -> metric_label_values ks = ks.
Proof.
  intros ks H. unfold metric_label_values. induction H as [|k ks Hk _ IH]; [reflexivity|].
  cbn [map]. rewrite IH, (Utf8Proofs.to_valid_id _ Hk). reflexivity.
Qed.

(* the positive counterpart of the collision witness: on valid UTF-8 tuples the labels identify the tuple *)
Lemma labels_injective_valid : forall ks ks',
  Forall Utf8Spec.valid_utf8 ks -> Forall Utf8Spec.valid_utf8 ks' ->
  metric_label_values ks = metric_label_values ks' -> ks = ks'.
Proof. intros ks ks' H H' E. rewrite !labels_exact_valid in E by assumption. exact E. Qed.

Lemma labels_values_shape : forall ks,
  length (metric_label_values ks) = length ks /\
  Forall Utf8Spec.valid_utf8 (metric_label_values ks) /\
  Forall2 (fun l k => subseq l k) (metric_label_values ks) ks /\
  metric_label_values (metric_label_values ks) = metric_label_values ks.
Proof.
  intros ks. unfold metric_label_values. split; [apply map_length|]. split; [|split].
  - induction ks; cbn [map]; constructor; [apply Utf8Proofs.to_valid_utf8_valid_lemma|assumption].
  - induction ks; cbn [map]; constructor; [apply to_valid_aux_subseq|assumption].
  - rewrite map_map. apply map_ext. intros s. apply (label_value_spec s).
Qed.

(* a record whose key values are valid UTF-8 is served by a pipeline whose labels are exactly its key values *)
Lemma labels_exact_for_valid_lemma :
  forall parts n ids nsinks ops g0 g lms is,
    orch_init parts n ids = Ok g0 ->
    run_ops parts g0 (repeat [] nsinks) ops = Ok (g, lms, is) ->
    Forall2 (fun o i => Forall Utf8Spec.valid_utf8 (snd o) ->
                        exists p, nth_error (g_pipes g) i = Some p /\ p_labels p = snd o) ops is.
Proof.
  intros parts n ids nsinks ops g0 g lms is Hinit Hrun.
  eapply Forall2_weaken; [|exact (routing_own_keys_lemma _ _ _ _ _ _ _ _ _ Hinit Hrun)].
  intros o i [p [Hn [_ [_ [_ Hl]]]]] Hv. exists p. split; [exact Hn|]. rewrite Hl. apply labels_exact_valid. exact Hv.
Qed.

Lemma metric_labels_exact_for_valid_lemma : forall recs m is,
  metric_run m_init recs = (m, is) ->
  Forall2 (fun ks i => Forall Utf8Spec.valid_utf8 ks -> nth_error (m_labels m) i = Some ks) recs is.
Proof.
  intros recs m is H. destruct (metric_own_keys_lemma _ _ _ H) as [Hall _].
  eapply Forall2_weaken; [|exact Hall]. intros ks i [_ Hl] Hv. rewrite Hl, labels_exact_valid by exact Hv. reflexivity.
Qed.

(* template "$k0", records (0xFF) and (0xFE): two pipelines with different ids and tags whose label values coincide
   (both empty) - and, for the metric key sets, two counter sets with the same label values *)
Definition collide_parts : list tpart := [TVar 0].
Definition collide_ops : list op := [(O, [[255]]); (O, [[254]])].

Lemma labels_collide_witness :
  (exists ks ks' : list bytes, length ks = length ks' /\ ks <> ks' /\
     metric_label_values ks = metric_label_values ks') /\
  (exists g lms p q,
     run_ops collide_parts g_init [[]] collide_ops = Ok (g, lms, [0; 1]%nat) /\
     g_pipes g = [p; q] /\ p_keys p <> p_keys q /\ p_id p <> p_id q /\ p_tag p <> p_tag q /\
     p_labels p = p_labels q) /\
  (exists m, metric_run m_init [[[255]]; [[254]]] = (m, [0; 1]%nat) /\
     nth_error (m_labels m) 0 = nth_error (m_labels m) 1).
Proof.
  split; [|split].
  - exists [[255]], [[254]]. split; [reflexivity|]. split; [discriminate|vm_compute; reflexivity].
  - eexists. eexists. eexists. eexists. split; [vm_compute; reflexivity|]. split; [reflexivity|].
    cbn [p_keys p_id p_tag p_labels]. repeat split; try discriminate.
  - eexists. split; [vm_compute; reflexivity|]. reflexivity.
Qed.

(* the valid encoding of U+FFFD itself (EF BF BD) is kept: only ill-formed bytes are removed *)
Lemma label_keeps_replacement_char : Utf8.to_valid_utf8 [97; 239; 191; 189; 255; 98] = [97; 239; 191; 189; 98].
Proof. vm_compute. reflexivity. Qed.
