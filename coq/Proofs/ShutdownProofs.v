(* Proofs about Model/Shutdown.v (C18): the bound [bnd] of a wait graph holds for every run of it (bnd_sound); the
   bounds of the agent's shutdown graph, for every phase the client can be in. *)
From SV Require Import Model.Common Model.Shutdown.
From Coq Require Import Lia ZifyBool ZifyN ZifyNat.
Ltac Zify.zify_post_hook ::= Z.div_mod_to_equations.
Local Open Scope Z_scope.

Lemma runs_ge : forall g s t, wf g = true -> runs g s t -> forall z, t = Some z -> s <= z.
Proof.
  intros g s t Hwf Hr. induction Hr; intros z Hz; try discriminate.
  1-3: inversion Hz; subst; lia.
  all: simpl in Hwf; apply andb_true_iff in Hwf; destruct Hwf as [Ha Hb].
  - specialize (IHHr1 Ha t1 eq_refl). specialize (IHHr2 Hb z Hz). lia.
  - destruct ta as [xa|], tb as [xb|]; simpl in Hz; try discriminate. inversion Hz; subst.
    specialize (IHHr1 Ha xa eq_refl). lia.
Qed.

(* a wait graph whose bound is b completes, in EVERY run, no later than b ticks after it was started *)
Lemma bnd_sound : forall g s t, wf g = true -> runs g s t ->
  forall bd, bnd g = Some bd -> exists z, t = Some z /\ s <= z <= s + bd.
Proof.
  intros g s t Hwf Hr.
  induction Hr; intros bd Hb; simpl in Hb, Hwf; try (apply andb_true_iff in Hwf; destruct Hwf as [Ha Hbb]).
  - (* Op *) inversion Hb; subst. exists t. split; [reflexivity|lia].
  - (* Wait *)
    exists t. split; [reflexivity|]. split; [lia|].
    destruct stop, dl as [c|]; simpl in *; inversion Hb; subst; try (specialize (H0 eq_refl)); lia.
  - (* Wait never *) discriminate.
  - (* WaitPeer *)
    exists t. split; [reflexivity|]. split; [lia|].
    destruct (bnd p) as [bp|] eqn:Ebp; [destruct (IHHr Hbb bp eq_refl) as (zp & Hzp & Hle); subst tp; simpl in H2|];
      destruct stop, dl as [c|]; simpl in *; inversion Hb; subst; try (specialize (H0 eq_refl)); lia.
  - (* WaitPeer never *)
    destruct (bnd p) as [bp|] eqn:Ebp.
    + destruct (IHHr Hwf bp eq_refl) as (zp & Hzp & _). discriminate.
    + discriminate.
  - (* Seq *)
    destruct (bnd a) as [ba|] eqn:Ea, (bnd b) as [bb|] eqn:Eb; simpl in Hb; try discriminate. inversion Hb; subst.
    destruct (IHHr1 Ha ba eq_refl) as (z1 & Hz1 & Hl1). inversion Hz1; subst z1.
    destruct (IHHr2 Hbb bb eq_refl) as (z2 & Hz2 & Hl2). exists z2. split; [exact Hz2|lia].
  - (* Seq never *)
    destruct (bnd a) as [ba|] eqn:Ea; simpl in Hb; [|destruct (bnd b); discriminate].
    destruct (IHHr Ha ba eq_refl) as (z1 & Hz1 & _). discriminate.
  - (* Join *)
    destruct (bnd a) as [ba|] eqn:Ea, (bnd b) as [bb|] eqn:Eb; simpl in Hb; try discriminate. inversion Hb; subst.
    destruct (IHHr1 Ha ba eq_refl) as (z1 & Hz1 & Hl1). destruct (IHHr2 Hbb bb eq_refl) as (z2 & Hz2 & Hl2).
    subst. simpl. exists (Z.max z1 z2). split; [reflexivity|lia].
Qed.

Lemma bnd_nonneg : forall g b, wf g = true -> bnd g = Some b -> 0 <= b.
Proof.
  induction g as [d|stop dl|stop dl p IHp|a IHa b0 IHb|a IHa b0 IHb]; intros b Hwf Hb; simpl in Hwf, Hb;
    try (apply andb_true_iff in Hwf; destruct Hwf as [H1 H2]).
  - inversion Hb; subst. lia.
  - destruct stop, dl as [c|]; simpl in Hb; inversion Hb; subst; lia.
  - destruct (bnd p) as [bp|] eqn:Ep; [specialize (IHp bp H2 eq_refl)|];
      destruct stop, dl as [c|]; simpl in Hb; inversion Hb; subst; lia.
  - destruct (bnd a) as [x|], (bnd b0) as [y|]; simpl in Hb; try discriminate. inversion Hb; subst.
    specialize (IHa x H1 eq_refl). specialize (IHb y H2 eq_refl). lia.
  - destruct (bnd a) as [x|], (bnd b0) as [y|]; simpl in Hb; try discriminate. inversion Hb; subst.
    specialize (IHa x H1 eq_refl). lia.
Qed.

Lemma wf_seqn : forall n g, wf g = true -> wf (seqn n g) = true.
Proof. induction n as [|n IH]; intros g H; cbn [seqn wf]; [reflexivity|]. rewrite H, (IH g H). reflexivity. Qed.
Lemma wf_joinn : forall n g, wf g = true -> wf (joinn n g) = true.
Proof. induction n as [|n IH]; intros g H; cbn [joinn wf]; [reflexivity|]. rewrite H, (IH g H). reflexivity. Qed.

Lemma bnd_seqn : forall n g b, bnd g = Some b -> bnd (seqn n g) = Some (Z.of_nat n * b).
Proof.
  induction n as [|n IH]; intros g b H; cbn [seqn bnd].
  - f_equal; lia.
  - rewrite H, (IH g b H). cbn [oadd]. f_equal; lia.
Qed.

Lemma bnd_joinn : forall n g b, bnd g = Some b -> 0 <= b ->
  bnd (joinn n g) = Some (match n with O => 0 | S _ => b end).
Proof.
  induction n as [|n IH]; intros g b H Hb; cbn [joinn bnd]; [reflexivity|].
  rewrite H, (IH g b H Hb). cbn [omax]. f_equal; destruct n; lia.
Qed.

Section Agent.
Variable p : params.
Variable sh : shape.
Hypothesis Hp : params_ok p = true.

Lemma params_nonneg :
  0 <= t_in p /\ 0 <= t_ch p /\ 0 <= t_bs p /\ 0 <= t_conn p /\ 0 <= t_send p /\ 0 <= t_ack p /\ 0 <= t_ackstop p /\ 0 <= t_retry p.
Proof.
  pose proof Hp as H. unfold params_ok in H.
  repeat (apply andb_true_iff in H; destruct H as [H ?]).
  repeat match goal with H : (_ <=? _) = true |- _ => apply Z.leb_le in H end. repeat split; assumption.
Qed.

Lemma bnd_collect : bnd (collect p) = Some 0.
Proof.
  pose proof params_nonneg as Hn.
  unfold collect, acker_end. cbn [bnd omin oadd]. f_equal; lia.
Qed.

Lemma bnd_final : bnd (final sh) = Some 0.
Proof. unfold final. cbn [bnd]. rewrite (bnd_seqn _ (Op 0) 0 eq_refl). cbn [oadd]. f_equal; lia. Qed.

Lemma bnd_after_failed_send : bnd (after_failed_send p sh) = Some 0.
Proof.
  pose proof params_nonneg as Hn.
  unfold after_failed_send. cbn [bnd]. rewrite bnd_collect, bnd_final. cbn [omin oadd]. f_equal; lia.
Qed.

Definition aborted_phase (ph : cphase18) : bool :=
  match ph with
  | PIdle | PWaitAck | PSending | PConnecting | PRecovery | PRetryWait | PHandOver => true
  | PSendingLate | PConnectingLate => late_abort sh
  | PStuck => false
  end.

(* every wait the client passes after the stop - on the session the stop signal aborts, in the retry wait, while
   connecting - has a stop edge: the client finishes without waiting for any deadline *)
Lemma client_instant_lemma : forall ph, aborted_phase ph = true -> bnd (client p sh ph) = Some 0.
Proof.
  pose proof params_nonneg as Hn.
  intros ph Ha. destruct ph; cbn [aborted_phase] in Ha; try discriminate; unfold client, send_aborted; try rewrite Ha; cbn [bnd omin oadd].
  all: try (destruct (n_win sh); cbn [bnd omin oadd]).
  all: rewrite ?bnd_collect, ?bnd_final, ?bnd_after_failed_send; simpl; f_equal; lia.
Qed.

(* a session opened after the abort-on-stop callback has run is not aborted: its sends are bounded by their
   deadline only *)
Lemma client_late_lemma : late_abort sh = false ->
  bnd (client p sh PSendingLate) = Some (t_send p) /\
  bnd (client p sh PConnectingLate) = Some (Z.of_nat (n_left sh) * t_send p).
Proof.
  intros Hl.
  pose proof params_nonneg as Hn.
  unfold client, send_live. rewrite Hl. cbn [bnd omin oadd]. rewrite bnd_collect, bnd_final.
  assert (Hs : bnd (Seq (Wait false (Some (t_send p))) (Wait true None)) = Some (t_send p)) by (simpl; f_equal; lia).
  rewrite (bnd_seqn _ _ _ Hs). simpl. split; f_equal; lia.
Qed.

Lemma client_stuck_lemma : bnd (client p sh PStuck) = None.
Proof. reflexivity. Qed.

Lemma wf_client : forall ph, wf (client p sh ph) = true.
Proof.
  pose proof params_nonneg as Hn.
  assert (Hc : wf (collect p) = true) by (unfold collect, acker_end; simpl; lia).
  assert (Hf : wf (final sh) = true) by (unfold final; cbn [wf]; rewrite wf_seqn by reflexivity; reflexivity).
  assert (Ha : wf (after_failed_send p sh) = true) by (unfold after_failed_send; cbn [wf]; rewrite Hc, Hf; simpl; lia).
  intros ph. destruct ph; unfold client, send_aborted, send_live; cbn [wf].
  all: try (destruct (late_abort sh); cbn [wf]).
  all: try (destruct (n_win sh); cbn [wf]).
  all: rewrite ?Hc, ?Hf, ?Ha, ?wf_seqn; simpl; try lia.
  all: cbn [wf]; simpl; lia.
Qed.

Lemma bnd_feeder : forall ph, bnd (feeder p sh ph) = bnd (client p sh ph).
Proof.
  intros ph. unfold feeder. cbn [bnd omin oadd].
  destruct (bnd (client p sh ph)) as [c|]; simpl; [f_equal; lia|reflexivity].
Qed.

Lemma run_timeout_nonneg : 0 <= run_timeout p sh.
Proof. pose proof params_nonneg as Hn. unfold run_timeout. destruct (has_dir sh); lia. Qed.

(* Destroy never waits longer than its own deadline, whatever the consumer does *)
Lemma bnd_destroy : forall ph,
  exists d, bnd (destroy p sh ph) = Some d /\ 0 <= d <= B_destroy p sh /\
            (forall c, bnd (client p sh ph) = Some c -> d = (if has_dir sh then 0 else t_bs p) + Z.min (run_timeout p sh) c).
Proof.
  pose proof params_nonneg as Hn. pose proof run_timeout_nonneg as Hr.
  intros ph. unfold destroy, B_destroy. cbn [bnd omin oadd]. rewrite bnd_feeder.
  destruct (bnd (client p sh ph)) as [c|] eqn:Ec.
  - pose proof (bnd_nonneg _ _ (wf_client ph) Ec) as Hc.
    destruct (has_dir sh); cbn [bnd omin oadd]; eexists; (split; [reflexivity|]); (split; [lia|]);
      intros c0 Hc0; inversion Hc0; subst; lia.
  - destruct (has_dir sh); cbn [bnd omin oadd]; eexists; (split; [reflexivity|]); (split; [lia|]);
      intros c0 Hc0; discriminate.
Qed.

Lemma bnd_pipeline : forall ph,
  exists d, bnd (pipeline p sh ph) = Some d /\ 0 <= d <= Z.of_nat (n_out sh) * B_destroy p sh.
Proof.
  intros ph. destruct (bnd_destroy ph) as (d & Hd & Hle & _).
  unfold pipeline. cbn [bnd oadd]. rewrite (bnd_seqn _ _ _ Hd). simpl.
  eexists. split; [reflexivity|]. nia.
Qed.

Lemma bnd_orchestrator : forall ph,
  exists d, bnd (orchestrator p sh ph) = Some d /\ 0 <= d <= B_orch p sh.
Proof.
  intros ph. destruct (bnd_pipeline ph) as (d & Hd & Hle).
  unfold orchestrator, B_orch. cbn [bnd oadd]. rewrite (bnd_joinn _ _ _ Hd) by lia. simpl.
  eexists. split; [reflexivity|]. destruct (n_pipe sh); lia.
Qed.

Lemma bnd_connection :
  exists d, bnd (connection p sh) = Some d /\ 0 <= d <= (if worker_live sh then 0 else Z.of_nat (n_flush sh) * t_ch p).
Proof.
  pose proof params_nonneg as Hn.
  unfold connection, worker_receive. cbn [bnd omin oadd].
  destruct (worker_live sh).
  - assert (Hs : bnd (WaitPeer false (Some (t_ch p)) (Op 0)) = Some 0) by (simpl; f_equal; lia).
    rewrite (bnd_seqn _ _ _ Hs). simpl. eexists. split; [reflexivity|]. lia.
  - assert (Hs : bnd (WaitPeer false (Some (t_ch p)) (Wait false None)) = Some (t_ch p)) by reflexivity.
    rewrite (bnd_seqn _ _ _ Hs). simpl. eexists. split; [reflexivity|]. lia.
Qed.

Lemma bnd_inputs : exists d, bnd (inputs p sh) = Some d /\ 0 <= d <= B_inputs p sh.
Proof.
  destruct bnd_connection as (d & Hd & Hle).
  unfold inputs, B_inputs. cbn [bnd omin oadd omax]. rewrite (bnd_joinn _ _ _ Hd) by lia. simpl.
  eexists. split; [reflexivity|]. destruct (n_conn sh); destruct (worker_live sh); lia.
Qed.

Lemma wf_agent : forall ph, wf (agent p sh ph) = true.
Proof.
  pose proof params_nonneg as Hn. pose proof run_timeout_nonneg as Hr.
  intros ph. unfold agent, inputs, orchestrator, pipeline, destroy, feeder, connection, worker_receive. cbn [wf].
  rewrite !wf_joinn, ?wf_seqn; cbn [wf]; rewrite ?wf_client, ?wf_seqn; cbn [wf]; try reflexivity.
  all: repeat match goal with
       | |- context [if ?c then _ else _] => destruct c
       end; cbn [wf]; rewrite ?wf_client; simpl; lia.
Qed.

(* stop_terminates + stop_bound: whatever the client and the upstream do (any phase, including a consumer that
   never finishes), every run of the agent's shutdown completes, within B ticks *)
Lemma stop_bound_lemma : forall ph t,
  runs (agent p sh ph) 0 t -> exists z, t = Some z /\ 0 <= z <= B p sh.
Proof.
  intros ph t Hr.
  destruct bnd_inputs as (di & Hdi & Hli). destruct (bnd_orchestrator ph) as (d0 & Hd0 & Hl0).
  assert (Hb : bnd (agent p sh ph) = Some (di + d0)) by (unfold agent; cbn [bnd]; rewrite Hdi, Hd0; reflexivity).
  destruct (bnd_sound _ _ _ (wf_agent ph) Hr _ Hb) as (z & Hz & Hle).
  exists z. split; [exact Hz|]. unfold B. lia.
Qed.

(* when the client is on a path where every wait has a stop edge (and the directory is usable, the workers
   live), the shutdown needs no tick at all: nothing but scheduler latency and I/O, and Destroy returns through
   the feeder, not through its deadline *)
Lemma stop_instant_lemma : forall ph t,
  aborted_phase ph = true -> worker_live sh = true -> has_dir sh = true ->
  runs (agent p sh ph) 0 t -> t = Some 0.
Proof.
  intros ph t Ha Hw Hdir Hr.
  destruct bnd_inputs as (di & Hdi & Hli). unfold B_inputs in Hli. rewrite Hw in Hli.
  assert (di = 0) by (destruct (n_conn sh); lia). subst di.
  destruct (bnd_destroy ph) as (d & Hd & Hle & Heq).
  specialize (Heq 0 (client_instant_lemma ph Ha)).
  pose proof run_timeout_nonneg as Hr0. rewrite Hdir in Heq.
  assert (d = 0) by lia. subst d.
  assert (Hb : bnd (agent p sh ph) = Some 0).
  { unfold agent, orchestrator, pipeline. cbn [bnd oadd]. rewrite Hdi.
    assert (Hpl : bnd (Seq (Op 0) (Seq (seqn (n_out sh) (destroy p sh ph)) (Op 0))) = Some 0).
    { cbn [bnd oadd]. rewrite (bnd_seqn _ _ _ Hd). simpl. f_equal. lia. }
    rewrite (bnd_joinn _ _ _ Hpl) by lia. simpl. destruct (n_pipe sh); reflexivity. }
  destruct (bnd_sound _ _ _ (wf_agent ph) Hr _ Hb) as (z & Hz & Hzle).
  subst t. f_equal. lia.
Qed.

(* the feeder - which waits for the consumers WITHOUT a deadline - stops before Destroy's deadline whenever the
   client's own bound is below it: then Destroy returns because the feeder has stopped (every pending chunk saved
   or handed back), not through the "BUG: couldn't stop feeder in time" branch *)
Lemma feeder_in_time_lemma : forall ph c s t,
  bnd (client p sh ph) = Some c -> 0 <= c ->
  runs (feeder p sh ph) s t -> exists z, t = Some z /\ s <= z <= s + c.
Proof.
  intros ph c s t Hc Hc0 Hr.
  assert (Hwf : wf (feeder p sh ph) = true) by (unfold feeder; cbn [wf]; rewrite wf_client; reflexivity).
  apply (bnd_sound _ _ _ Hwf Hr). rewrite bnd_feeder. exact Hc.
Qed.

End Agent.

(* production values of defs/params.go in seconds, a 1 MiB chunk (90 s + 1 MiB / 10 KiB/s = 192 s to send) *)
Definition prod_params : params := PR 1 60 240 60 192 120 180 10.
(* prod_shape: the original code (late_abort = false); prod_shape_repaired: with the repair *)
Definition prod_shape : shape := SH 100 4 50 2 4 250 true true false.
Definition prod_shape_repaired : shape := SH 100 4 50 2 4 250 true true true.

Lemma prod_example_lemma :
  params_ok prod_params = true /\ B prod_params prod_shape_repaired = 600 /\
  bnd (agent prod_params prod_shape_repaired PSending) = Some 0 /\
  bnd (agent prod_params prod_shape_repaired PConnectingLate) = Some 0 /\
  bnd (agent prod_params prod_shape_repaired PStuck) = Some 600.
Proof. vm_compute. repeat split; reflexivity. Qed.

(* the observation of the design: a session opened after the abort-on-stop callback ran is not aborted; with
   leftovers and an upstream that stops reading, the client alone can need longer than Destroy's deadline, and
   Destroy then returns through the "BUG: couldn't stop feeder in time" branch with chunks still held in memory *)
Lemma late_session_exceeds_destroy_deadline_lemma :
  exists c, bnd (client prod_params prod_shape PConnectingLate) = Some c /\ run_timeout prod_params prod_shape < c.
Proof. eexists. split; [vm_compute; reflexivity|]. vm_compute. reflexivity. Qed.

Lemma feeder_at_once_lemma : forall (p : params) (sh : shape), params_ok p = true ->
  forall ph s t, aborted_phase sh ph = true -> runs (feeder p sh ph) s t -> t = Some s.
Proof.
  intros p sh Hp ph s t Ha Hr.
  destruct (feeder_in_time_lemma p sh Hp ph 0 s t (client_instant_lemma p sh Hp ph Ha) (Z.le_refl 0) Hr) as (z & Hz & Hle).
  subst t. f_equal. lia.
Qed.
