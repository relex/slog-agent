(* Proofs about Model/SystemConnEnd.v: the code-order ending of a connection (FlushAll; Flush; Close) composes to
   the atomic [EConnEnd] of Model/System.v, hence every run of the agent whose connections end by the faithful
   programs — on the peer path or closed by the stop request while still open — is a run of Model/System.v and has
   conservation, empty batches at Stopped and at-least-once; the variants that skip or misplace an operation on the
   stop path lose records (witness runs), and they are indistinguishable from the faithful agent on runs in which
   no connection is open at the stop. *)
From Coq Require Import List Arith Bool Lia PeanoNat NArith.
From SV Require Import Model.Common Model.System Model.SystemAccept Model.SystemConnEnd
  Proofs.SystemLists Proofs.SystemProofs Proofs.SystemAlo Proofs.SystemAcceptProofs.
Import ListNotations.
Open Scope nat_scope.

Lemma filter_idem : forall A (f : A -> bool) l, filter f (filter f l) = filter f l.
Proof.
  induction l as [|x l IH]; cbn; [reflexivity|]. destruct (f x) eqn:E; cbn; rewrite ?E, IH; reflexivity.
Qed.

Lemma filter_neg_pos : forall A (f : A -> bool) l, filter (fun x => negb (f x)) (filter f l) = [].
Proof.
  induction l as [|x l IH]; cbn; [reflexivity|]. destruct (f x) eqn:E; cbn; rewrite ?E; cbn; exact IH.
Qed.

Lemma filter_pos_neg : forall A (f : A -> bool) l, filter f (filter (fun x => negb (f x)) l) = [].
Proof.
  induction l as [|x l IH]; cbn; [reflexivity|]. destruct (f x) eqn:E; cbn; rewrite ?E; cbn; exact IH.
Qed.

Lemma filter_neg_idem : forall A (f : A -> bool) l,
  filter (fun x => negb (f x)) (filter (fun x => negb (f x)) l) = filter (fun x => negb (f x)) l.
Proof. intros. apply (filter_idem _ (fun x => negb (f x))). Qed.

Lemma add_pipe_present : forall p l, In p l -> add_pipe p l = l.
Proof.
  intros p l H. unfold add_pipe. destruct (existsb (Nat.eqb p) l) eqn:E; [reflexivity|].
  exfalso. assert (X : existsb (Nat.eqb p) l = true); [|congruence].
  apply existsb_exists. exists p. split; [assumption|apply Nat.eqb_refl].
Qed.

Lemma add_pipe_list_present : forall ps l, (forall p, In p ps -> In p l) -> add_pipe_list ps l = l.
Proof.
  induction ps as [|p ps IH]; intros l H; [reflexivity|]. unfold add_pipe_list in *. cbn.
  rewrite add_pipe_present by (apply H; left; reflexivity). apply IH. intros q Hq. apply H. right. assumption.
Qed.

Lemma add_pipes_app : forall a b l, add_pipes (a ++ b) l = add_pipes b (add_pipes a l).
Proof. intros. unfold add_pipes, add_pipe_list. rewrite map_app, fold_left_app. reflexivity. Qed.

Lemma add_pipes_present : forall a l, (forall t, In t a -> In (t_pipe t) l) -> add_pipes a l = l.
Proof.
  intros a l H. unfold add_pipes. apply add_pipe_list_present. intros p Hp.
  apply in_map_iff in Hp. destruct Hp as [t [<- Ht]]. auto.
Qed.

Definition offc (k : nat) (t : tok) : bool := negb (on_conn k t).

Lemma op_flush_all_eq : forall k s,
  op_flush_all k s =
  set_in s (open_conns s) (ingested s) (filter (offc k) (conn_buf s)) (sink_batch s ++ filter (on_conn k) (conn_buf s))
         (key_buf s) (chans s) (pipes s) (lost s).
Proof. intros. unfold op_flush_all. rewrite partition_as_filter. reflexivity. Qed.

Lemma op_flush_eq : forall k s,
  op_flush k s =
  set_in s (open_conns s) (ingested s) (conn_buf s) (filter (offc k) (sink_batch s))
         (key_buf s ++ filter (on_conn k) (sink_batch s)) (chans s)
         (add_pipes (filter (on_conn k) (sink_batch s)) (pipes s)) (lost s).
Proof. intros. unfold op_flush. rewrite partition_as_filter. reflexivity. Qed.

Lemma op_close_eq : forall k s,
  op_close k s =
  set_in s (remove_nat k (open_conns s)) (ingested s) (filter (offc k) (conn_buf s)) (filter (offc k) (sink_batch s))
         (filter (offc k) (key_buf s)) (chans s ++ singleton_batches (filter (on_conn k) (key_buf s))) (pipes s) (lost s).
Proof. intros. unfold op_close. rewrite !partition_as_filter. reflexivity. Qed.

(* the state that [step s (EConnEnd k)] produces *)
Definition conn_end_state (k : nat) (s : state) : state :=
  let moved := filter (on_conn k) (key_buf s) ++ filter (on_conn k) (sink_batch s) ++ filter (on_conn k) (conn_buf s) in
  set_in s (remove_nat k (open_conns s)) (ingested s) (filter (offc k) (conn_buf s)) (filter (offc k) (sink_batch s))
         (filter (offc k) (key_buf s)) (chans s ++ singleton_batches moved) (add_pipes moved (pipes s)) (lost s).

Lemma step_conn_end : forall k s, mem_nat k (open_conns s) = true -> step s (EConnEnd k) = Some (conn_end_state k s).
Proof.
  intros k s H. cbn [step]. rewrite H. rewrite !partition_as_filter. reflexivity.
Qed.

(* the faithful program in closed form *)
Definition faithful_end_raw (k : nat) (s : state) : state :=
  set_in s (remove_nat k (open_conns s)) (ingested s) (filter (offc k) (conn_buf s)) (filter (offc k) (sink_batch s))
         (filter (offc k) (key_buf s))
         (chans s ++ singleton_batches (filter (on_conn k) (key_buf s) ++ filter (on_conn k) (sink_batch s)
                                        ++ filter (on_conn k) (conn_buf s)))
         (add_pipes (filter (on_conn k) (sink_batch s) ++ filter (on_conn k) (conn_buf s)) (pipes s)) (lost s).

Lemma faithful_end_closed_form : forall k s, run_end faithful_prog k s = faithful_end_raw k s.
Proof.
  intros k s. unfold run_end, faithful_prog. cbn [fold_left run_op].
  rewrite op_close_eq, op_flush_eq, op_flush_all_eq. unfold faithful_end_raw, set_in.
  cbn [phase open_conns ingested conn_buf sink_batch key_buf chans hand cur lastid pipes pph cph queue fhand window
       leftovers unacked files acked dropped filtered lost received].
  unfold offc.
  rewrite !filter_app.
  rewrite !filter_idem, !filter_neg_pos, ?filter_neg_idem, !app_nil_r.
  reflexivity.
Qed.

Lemma faithful_end_state : forall k s,
  (forall t, In t (key_buf s) -> In (t_pipe t) (pipes s)) ->
  run_end faithful_prog k s = conn_end_state k s.
Proof.
  intros k s HB. rewrite faithful_end_closed_form. unfold faithful_end_raw, conn_end_state.
  rewrite (add_pipes_app (filter (on_conn k) (key_buf s))).
  rewrite (add_pipes_present (filter (on_conn k) (key_buf s)) (pipes s))
    by (intros t Ht; apply filter_In in Ht; apply HB; tauto).
  reflexivity.
Qed.

(* REFINEMENT: FlushAll; Flush; Close in this order is the atomic ending of Model/System.v.  The only hypothesis
   is an invariant of every reachable state (aux, field aB1): the pipelines of the records in the per-key buffers
   exist already (they are created by sendBuffer, not by Close). *)
Lemma faithful_end_refines : forall k s,
  (forall t, In t (key_buf s) -> In (t_pipe t) (pipes s)) ->
  mem_nat k (open_conns s) = true ->
  step s (EConnEnd k) = Some (run_end faithful_prog k s).
Proof. intros k s HB HM. rewrite faithful_end_state by assumption. apply step_conn_end. assumption. Qed.

(* LOCAL statement, for EVERY state (no reachability needed): after the faithful ending of connection k nothing of k
   is left in the line reader, the batch or the per-key buffers; everything k held there is in the pipeline
   channels (downstream); nothing of another connection has moved. *)
Lemma faithful_end_local : forall k s,
  let s' := run_end faithful_prog k s in
  (forall t, on_conn k t = true -> ~ In t (conn_buf s') /\ ~ In t (sink_batch s') /\ ~ In t (key_buf s')) /\
  (forall t, on_conn k t = true -> In t (conn_buf s ++ sink_batch s ++ key_buf s) -> In t (toks_of_batches (chans s'))) /\
  (forall t, on_conn k t = false ->
     (In t (conn_buf s') <-> In t (conn_buf s)) /\ (In t (sink_batch s') <-> In t (sink_batch s)) /\
     (In t (key_buf s') <-> In t (key_buf s))) /\
  (forall t, In t (toks_of_batches (chans s)) -> In t (toks_of_batches (chans s'))).
Proof.
  intros k s. cbv zeta. rewrite faithful_end_closed_form. unfold faithful_end_raw, set_in.
  cbn [phase open_conns ingested conn_buf sink_batch key_buf chans hand cur lastid pipes pph cph queue fhand window
       leftovers unacked files acked dropped filtered lost received].
  unfold offc.
  rewrite toks_of_batches_app, singleton_batches_toks.
  split; [|split; [|split]].
  - intros t Ht.
    assert (N : forall l, ~ In t (filter (fun x => negb (on_conn k x)) l)).
    { intros l Hin. apply filter_In in Hin. destruct Hin as [_ Hin]. rewrite Ht in Hin. discriminate. }
    repeat split; apply N.
  - intros t Ht Hin. rewrite !in_app_iff in *. right. rewrite !filter_In. tauto.
  - intros t Ht.
    assert (N : forall l, In t (filter (fun x => negb (on_conn k x)) l) <-> In t l).
    { intros l. rewrite filter_In, Ht. cbn. tauto. }
    repeat split; apply N.
  - intros t Ht. rewrite in_app_iff. left. assumption.
Qed.

Lemma vstep_faithful_step : forall s ve s',
  aux s -> vstep faithful s ve = Some s' -> step s (erase ve) = Some s'.
Proof.
  intros s ve s' Ha H. destruct ve as [e|k]; cbn [vstep erase] in *.
  - destruct e; try exact H.
    destruct (mem_nat k (open_conns s)) eqn:M; [|discriminate].
    inversion H; subst. cbn [peer_path faithful]. apply faithful_end_refines; [apply (aB1 _ Ha)|assumption].
  - destruct (mem_nat k (open_conns s)) eqn:M; [|discriminate]. cbn [andb] in H.
    destruct (gphase_eqb (phase s) Stopping); [|discriminate].
    inversion H; subst. cbn [stop_path faithful]. apply faithful_end_refines; [apply (aB1 _ Ha)|assumption].
Qed.

Lemma vsteps_faithful_steps : forall ves s s',
  aux s -> vsteps faithful s ves = Some s' -> steps s (map erase ves) = Some s'.
Proof.
  induction ves as [|ve ves IH]; intros s s' Ha H; cbn in *; [assumption|].
  destruct (vstep faithful s ve) as [s1|] eqn:E; [|discriminate].
  pose proof (vstep_faithful_step _ _ _ Ha E) as S1. rewrite S1. apply IH; [|assumption].
  exact (aux_step _ _ _ Ha S1).
Qed.

(* ... and every run of Model/System.v is a run of the faithful agent (all its connection endings on the peer path) *)
Lemma steps_vsteps_faithful : forall es s s',
  aux s -> steps s es = Some s' -> vsteps faithful s (map VE es) = Some s'.
Proof.
  induction es as [|e es IH]; intros s s' Ha H; [cbn in *; assumption|].
  cbn [steps] in H. cbn [map vsteps].
  destruct (step s e) as [s1|] eqn:E; [|discriminate].
  assert (V : vstep faithful s (VE e) = Some s1).
  { destruct e; try exact E. cbn [vstep]. cbn [step] in E.
    destruct (mem_nat k (open_conns s)) eqn:M; [|discriminate].
    cbn [peer_path faithful]. rewrite <- (faithful_end_refines k s (aB1 _ Ha) M). cbn [step]. rewrite M. exact E. }
  rewrite V. apply IH; [eapply aux_step; eauto|assumption].
Qed.

(* the theorems of the property, for the agent with the code-order endings *)

Lemma conn_end_conservation : forall ves s, vsteps faithful init ves = Some s ->
  (forall t, In t (ingested s) -> In t (anywhere s)) /\
  (forall t, In t (anywhere s) -> In t (ingested s)) /\
  (forall t, In t (ingested s) -> t_keep t = true -> In t (live s)).
Proof. intros ves s H. eapply conservation_lemma. apply vsteps_faithful_steps; [apply aux_init|eassumption]. Qed.

(* at every Stopped state the line readers, the batches and the per-key buffers of ALL connections are empty *)
Lemma conn_end_stopped_batches_empty : forall ves s, vsteps faithful init ves = Some s -> phase s = Stopped ->
  conn_buf s = [] /\ sink_batch s = [] /\ key_buf s = [] /\ open_conns s = [].
Proof.
  intros ves s H HP. pose proof (vsteps_faithful_steps _ _ _ aux_init H) as R.
  pose proof (aux_steps _ _ _ aux_init R) as Ha.
  destruct (stopped_nil s Ha HP) as (C & B & K & _).
  repeat split; [exact C|exact B|exact K|]. apply (aD _ Ha). right. assumption.
Qed.

Lemma conn_end_at_least_once : forall ves s,
  vsteps faithful init ves = Some s -> vno_timeout ves = true -> phase s = Stopped ->
  forall t, In t (ingested s) -> t_keep t = true ->
    In t (toks_of_chunks (acked s)) \/ In t (toks_of_chunks (files s)) \/ In t (toks_of_chunks (dropped s)).
Proof.
  intros ves s H N HP. eapply at_least_once_lemma; [|exact N|exact HP].
  apply vsteps_faithful_steps; [apply aux_init|assumption].
Qed.

(* a variant whose PEER path is the faithful program behaves like Model/System.v on every run in which no
   connection is closed by the stop request — which is why scenarios whose connections have all been closed (or
   flushed) before the stop cannot see the seeded change *)
Lemma peer_faithful_blind : forall v, peer_path v = faithful_prog ->
  forall ves s s', aux s -> no_stop_end ves = true -> vsteps v s ves = Some s' -> steps s (map erase ves) = Some s'.
Proof.
  intros v HP. induction ves as [|ve ves IH]; intros s s' Ha N H; cbn in *; [assumption|].
  apply andb_true_iff in N. destruct N as [N1 N2].
  destruct (vstep v s ve) as [s1|] eqn:E; [|discriminate].
  assert (S1 : step s (erase ve) = Some s1).
  { destruct ve as [e|k]; [|discriminate N1]. cbn [erase]. cbn [vstep] in E.
    destruct e; try exact E.
    destruct (mem_nat k (open_conns s)) eqn:M; [|discriminate].
    inversion E; subst. rewrite HP. apply faithful_end_refines; [apply (aB1 _ Ha)|assumption]. }
  rewrite S1. apply IH; [eapply aux_step; eauto|assumption|assumption].
Qed.

Definition witness_tok : tok := mkTok 0 0 1 true 7%N.

(* one record read on a connection that is still open when the agent is stopped; nothing else happens *)
Definition witness_run : list vevent :=
  [VE (EConnOpen 0); VE (EIngest witness_tok); VE EStopReq; VConnEndStop 0; VE EInputsStopped; VE EStopped].

(* two records: the first one is already in the batch (the line reader has seen the start of the second) *)
Definition witness_run2 : list vevent :=
  [VE (EConnOpen 0); VE (EIngest witness_tok); VE (EIngest (mkTok 0 1 1 true 8%N)); VE (EFrame 0);
   VE EStopReq; VConnEndStop 0; VE EInputsStopped; VE EStopped].

Definition loses (v : end_variant) (ves : list vevent) : Prop :=
  exists s t, vsteps v init ves = Some s /\ vno_timeout ves = true /\ phase s = Stopped /\
              In t (ingested s) /\ t_keep t = true /\ ~ In t (safe s) /\ ~ In t (anywhere s).

(* [loses v ves], with witness record t, as a test that evaluation decides *)
Definition loses_test (v : end_variant) (ves : list vevent) (t : tok) : bool :=
  match vsteps v init ves with
  | Some s => vno_timeout ves && gphase_eqb (phase s) Stopped && in_toks t (ingested s) && t_keep t
              && negb (in_toks t (safe s)) && negb (in_toks t (anywhere s))
  | None => false
  end.

Lemma loses_test_sound : forall v ves t, loses_test v ves t = true -> loses v ves.
Proof.
  intros v ves t H. unfold loses_test in H. destruct (vsteps v init ves) as [s|] eqn:E; [|discriminate].
  rewrite !andb_true_iff, !negb_true_iff, gphase_eqb_eq in H. destruct H as [[[[[N P] I] K] S] A].
  exists s, t. rewrite <- !in_toks_spec, S, A. repeat split; auto; discriminate.
Qed.

(* the seeded change (no final Flush on the stop path): the record is read, never handed on, nowhere afterwards *)
Lemma no_flush_on_stop_loses : loses no_flush_on_stop witness_run.
Proof. apply (loses_test_sound _ _ witness_tok). vm_compute. reflexivity. Qed.

Lemma no_flush_on_stop_loses_batched : loses no_flush_on_stop witness_run2.
Proof. apply (loses_test_sound _ _ witness_tok). vm_compute. reflexivity. Qed.

Lemma no_flush_all_on_stop_loses : loses no_flush_all_on_stop witness_run.
Proof. apply (loses_test_sound _ _ witness_tok). vm_compute. reflexivity. Qed.

Lemma flush_before_flush_all_loses : loses flush_before_flush_all witness_run.
Proof. apply (loses_test_sound _ _ witness_tok). vm_compute. reflexivity. Qed.

(* the faithful agent on the same events: the final Flush has created the record's pipeline, so [EStopped] is
   refused until that pipeline has shut down; with the pipeline's shutdown events the run is accepted and the record
   is in a queue file *)
Definition witness_run_faithful : list vevent :=
  [VE (EConnOpen 0); VE (EIngest witness_tok); VE EStopReq; VConnEndStop 0; VE EInputsStopped;
   VE (EWorkerTake 1); VE (EWorkerStep 1); VE (EWorkerStop 1 1 AMem); VE (EDestroy 1); VE (EFeederBreak 1);
   VE (ESave 1 WQueue true); VE (EClientStop 1); VE (EClientDone 1); VE (EFeederEnd 1); VE EStopped].

Lemma faithful_witness : vsteps faithful init witness_run = None /\
  exists s, vsteps faithful init witness_run_faithful = Some s /\ phase s = Stopped /\
            In witness_tok (toks_of_chunks (files s)).
Proof.
  split; [vm_compute; reflexivity|].
  eexists. split; [vm_compute; reflexivity|]. split; [reflexivity|]. cbn. left. reflexivity.
Qed.

(* the executable scenario runner (kind 3) is a run of the agent *)
Lemma try_ev_sound : forall v s0 acc mk,
  vsteps v s0 (rev (snd acc)) = Some (fst acc) ->
  vsteps v s0 (rev (snd (try_ev v acc mk))) = Some (fst (try_ev v acc mk)).
Proof.
  intros v s0 [s l] mk H. unfold try_ev. cbn [fst snd] in *.
  destruct (is_flush_timeout (erase (mk s))); [assumption|].
  destruct (vstep v s (mk s)) as [s'|] eqn:E; cbn [fst snd]; [|assumption].
  cbn [rev]. clear -H E. revert s0 H. induction (rev l) as [|x r IH]; intros s0 H; cbn in *.
  - inversion H; subst. rewrite E. reflexivity.
  - destruct (vstep v s0 x) as [s1|]; [|discriminate]. apply IH. assumption.
Qed.

(* a property of (state, events taken newest first) that every attempted event keeps holds of the scenario run *)
Lemma try_all_inv : forall v (P : state * list vevent -> Prop), (forall acc mk, P acc -> P (try_ev v acc mk)) ->
  forall mks acc, P acc -> P (try_all v acc mks).
Proof. intros v P Hev. induction mks as [|mk mks IH]; intros acc H; cbn; [assumption|]. apply IH. apply Hev. assumption. Qed.

Lemma run_stop_scenario_inv : forall v (P : state * list vevent -> Prop), (forall acc mk, P acc -> P (try_ev v acc mk)) ->
  P (init, []) -> forall c, P (run_stop_scenario v c).
Proof.
  intros v P Hev H0 c. unfold run_stop_scenario.
  assert (D : forall fuel acc, P acc -> P (drain v fuel acc)).
  { induction fuel as [|f IH]; intros acc H; cbn [drain]; [assumption|].
    pose proof (try_all_inv v P Hev (drain_candidates (fst acc)) acc H) as H1.
    destruct (Nat.eqb _ _); [assumption|]. apply IH. assumption. }
  apply D. apply (try_all_inv v P Hev). exact H0.
Qed.

Lemma run_stop_scenario_sound : forall v c,
  vsteps v init (rev (snd (run_stop_scenario v c))) = Some (fst (run_stop_scenario v c)).
Proof.
  intros v. apply (run_stop_scenario_inv v (fun acc => vsteps v init (rev (snd acc)) = Some (fst acc))); [|reflexivity].
  intros acc mk. apply try_ev_sound.
Qed.

Definition ev_ok (ve : vevent) : bool := negb (is_flush_timeout (erase ve)).

Lemma vno_timeout_forallb : forall l, vno_timeout l = forallb ev_ok l.
Proof.
  unfold vno_timeout, no_timeout. induction l as [|x l IH]; cbn; [reflexivity|]. rewrite IH. reflexivity.
Qed.

Lemma try_ev_ok : forall v acc mk, forallb ev_ok (snd acc) = true -> forallb ev_ok (snd (try_ev v acc mk)) = true.
Proof.
  intros v [s l] mk H. unfold try_ev. cbn [fst snd] in *.
  destruct (is_flush_timeout (erase (mk s))) eqn:T; [assumption|].
  destruct (vstep v s (mk s)); cbn [snd]; [|assumption].
  cbn [forallb]. unfold ev_ok at 1. rewrite T, H. reflexivity.
Qed.

Lemma run_stop_scenario_no_timeout : forall v c, vno_timeout (rev (snd (run_stop_scenario v c))) = true.
Proof.
  intros. rewrite vno_timeout_forallb. apply forallb_forall. intros x Hx. apply in_rev in Hx.
  assert (A : forallb ev_ok (snd (run_stop_scenario v c)) = true).
  { apply (run_stop_scenario_inv v (fun acc => forallb ev_ok (snd acc) = true)); [|reflexivity]. intros acc mk. apply try_ev_ok. }
  rewrite forallb_forall in A. apply A. assumption.
Qed.

(* whatever the case line: if the model's scenario run reaches Stopped, every kept record it has read is in an
   acknowledged chunk, a queue file or a counted-dropped chunk — the prediction printed for kind 3 is a consequence
   of the theorem, not a separate computation to be trusted *)
Lemma stop_scenario_alo : forall c,
  let s := fst (run_stop_scenario faithful c) in
  phase s = Stopped ->
  forall t, In t (ingested s) -> t_keep t = true ->
    In t (toks_of_chunks (acked s)) \/ In t (toks_of_chunks (files s)) \/ In t (toks_of_chunks (dropped s)).
Proof.
  intros c s HP. eapply conn_end_at_least_once; [apply run_stop_scenario_sound|apply run_stop_scenario_no_timeout|exact HP].
Qed.
