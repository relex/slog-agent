(* C02 — order of transmissions per connection: leftovers first (sorted by id), then new chunks in queue order. *)
From SV Require Import Model.Common Model.Client Spec.ClientSpec Proofs.ClientBase Proofs.ClientSafety Proofs.ClientHistory.
From Coq Require Import Lia Permutation Sorted.
Local Open Scope nat_scope.

Lemma sent_on_snoc : forall k tr e,
  sent_on k (tr ++ [e]) = sent_on k tr ++ match e with
                                          | ESendRet k' c ROk => if Nat.eqb k' k then [c] else []
                                          | _ => [] end.
Proof.
  intros k tr e. unfold sent_on. destruct (projections_app tr [e]) as (_ & _ & _ & _ & ->). rewrite filter_app, map_app. f_equal.
  destruct e; try reflexivity. destruct r; [|reflexivity]. simpl. destruct (Nat.eqb k0 k); reflexivity.
Qed.

Definition dialing (o : ostate) : bool := match o with ODialing | OResult _ => true | _ => false end.

(* the transmissions of one connection: a prefix of its leftovers, then (only after all of them) chunks
   taken from the queue, consecutively and in queue order *)
Definition conn_form (L : list chunk) (sent taken : list chunk) : Prop :=
  exists m news a b, sent = firstn m L ++ news /\ (news <> [] -> firstn m L = L) /\ taken = a ++ news ++ b.

Record order_inv (tr : list event) (s : state) : Prop := {
  k_keys : forall k L, In (k, L) (h_los s) -> k <= nconn s /\ (dialing (opener s) = true -> k < nconn s);
  k_cur : forall ss, cur s = Some ss -> exists L, In (s_id ss, L) (h_los s);
  k_lo : lt_sorted (lo s);
  k_form : forall k L, In (k, L) (h_los s) -> lt_sorted L /\ conn_form L (sent_on k tr) (taken_of tr);
  k_now : forall ss L, cur s = Some ss -> In (s_id ss, L) (h_los s) ->
          match pc s with
          | MResend | MEnqueue FResend _ => sent_on (s_id ss) tr ++ lo s = L
          | MSend FResend c => sent_on (s_id ss) tr ++ c :: lo s = L
          | MInput | MEnqueue FInput _ => exists a news, sent_on (s_id ss) tr = L ++ news /\ taken_of tr = a ++ news
          | MSend FInput c => exists a news, sent_on (s_id ss) tr = L ++ news /\ taken_of tr = a ++ news ++ [c]
          | _ => True
          end;
  k_sent : forall k c, In (k, c) (sent_of tr) -> exists L, In (k, L) (h_los s)
}.

Lemma cf_resend : forall L sent c rest taken, sent ++ c :: rest = L -> conn_form L (sent ++ [c]) taken.
Proof.
  intros L sent c rest taken <-. exists (length (sent ++ [c])), [], [], taken.
  split; [|split; [congruence|reflexivity]].
  replace (sent ++ c :: rest) with ((sent ++ [c]) ++ rest) by (rewrite <- app_assoc; reflexivity).
  rewrite firstn_app, Nat.sub_diag, firstn_all, firstn_O, !app_nil_r. reflexivity.
Qed.

Lemma cf_input : forall L sent news a c taken,
  sent = L ++ news -> taken = a ++ news ++ [c] -> conn_form L (sent ++ [c]) taken.
Proof.
  intros L sent news a c taken -> ->. exists (length L), (news ++ [c]), a, [].
  rewrite firstn_all, app_nil_r, <- !app_assoc. auto.
Qed.

Lemma cf_take : forall L sent taken c, conn_form L sent taken -> conn_form L sent (taken ++ [c]).
Proof.
  intros L sent taken c (m & news & a & b & H1 & H2 & H3). exists m, news, a, (b ++ [c]).
  subst taken. rewrite <- !app_assoc. auto.
Qed.

Lemma cf_init : forall L taken, conn_form L [] taken.
Proof. intros. exists 0, [], [], taken. simpl. split; [reflexivity|split; [congruence|reflexivity]]. Qed.

Lemma los_unique : forall (l : list (nat * list chunk)) k L L',
  NoDup (map fst l) -> In (k, L) l -> In (k, L') l -> L = L'.
Proof.
  induction l as [|[k0 L0] l IH]; intros k L L' Hn H1 H2; [contradiction|].
  simpl in Hn. inversion Hn as [|? ? Hni Hn']; subst.
  destruct H1 as [E1|H1]; destruct H2 as [E2|H2].
  - congruence.
  - inversion E1; subst. exfalso. apply Hni. apply (in_map fst) in H2. exact H2.
  - inversion E2; subst. exfalso. apply Hni. apply (in_map fst) in H1. exact H1.
  - eapply IH; eauto.
Qed.

Lemma sent_on_none : forall k tr, (forall c, ~ In (k, c) (sent_of tr)) -> sent_on k tr = [].
Proof.
  intros k tr H. unfold sent_on. induction (sent_of tr) as [|[k0 c0] l IH]; [reflexivity|].
  simpl. destruct (Nat.eqb_spec k0 k).
  - subst. exfalso. apply (H c0). left. reflexivity.
  - apply IH. intros c Hc. apply (H c). right. exact Hc.
Qed.

Ltac some_inv :=
  repeat match goal with
  | H : Some _ = Some _ |- _ => inversion H; subst; clear H
  | H : None = Some _ |- _ => discriminate H
  end.

Lemma order_inv_step : forall P tr s e s', order_inv tr s -> Step P s e s' -> order_inv (tr ++ [e]) s'.
Proof.
  intros P tr s e s' [Kk Kc Kl Kf Kw Ks] Hs.
  destruct (projections_app tr [e]) as (_ & Et & _ & _ & Es).
  (* the connection being dialled has no leftovers recorded and no transmission yet *)
  assert (Hfresh : dialing (opener s) = true -> (forall L, ~ In (nconn s, L) (h_los s)) /\ sent_on (nconn s) tr = []).
  { intro Hd. assert (Hn : forall L, ~ In (nconn s, L) (h_los s)).
    { intros L HL. destruct (Kk _ _ HL) as [_ Hlt]. specialize (Hlt Hd). lia. }
    split; [exact Hn|]. apply sent_on_none. intros c Hc. destruct (Ks _ _ Hc) as (L' & HL'). exact (Hn _ HL'). }
  destruct Hs.
  all: try match goal with H : pc _ = _ |- _ => rewrite H in Kw end.
  all: try match goal with H : cur _ = Some _ |- _ => rewrite H in Kw, Kc end.
  all: try match goal with H : lo _ = _ |- _ => try rewrite H in Kw; rewrite H in Kl end.
  all: try match goal with H : opener _ = _ |- _ => rewrite H in Kk, Hfresh end.
  all: constructor; rewrite ?Et, ?Es; simpl; rewrite ?app_nil_r; intros;
       rewrite ?sent_on_snoc; simpl; rewrite ?app_nil_r; some_inv; st_simpl.
  all: try match goal with H : pc _ = _ |- _ => rewrite ?H end.
  all: try solve [eauto].
  all: try solve [eapply Kw; eauto].
  all: try solve [match goal with H : In (?k, ?L) (h_los _) |- _ => destruct (Kk _ _ H); destruct (Kf _ _ H); split; auto; simpl; intros; try discriminate; lia end].
  all: try solve [eapply StronglySorted_inv; eassumption].
  all: try solve [apply new_leftovers_sorted].
  - (* EMainConn: keys *)
    destruct H1 as [[= <- <-]|H1]; [simpl; split; [lia|discriminate]|].
    destruct (Kk _ _ H1). simpl. split; [lia|discriminate].
  - destruct H1 as [[= <- <-]|H1]; [|eauto]. split; [exact Kl|]. rewrite (proj2 (Hfresh eq_refl)). apply cf_init.
  - destruct H2 as [[= <-]|H2]; [rewrite (proj2 (Hfresh eq_refl)); reflexivity|destruct (proj1 (Hfresh eq_refl) _ H2)].
  - destruct (Ks _ _ H1) as (L' & HL'). exists L'. right. exact HL'.
  - (* EResendDone *)
    specialize (Kw _ _ H2 H3). rewrite app_nil_r in Kw. exists (taken_of tr), []. rewrite !app_nil_r. auto.
  - (* ESendRet ok *) apply Kc. congruence.
  - (* ... form of every connection *)
    destruct (Kf _ _ H1) as [Hs1 Hs2]. split; [exact Hs1|].
    destruct (Nat.eqb_spec (s_id ss) k); [subst k|rewrite app_nil_r; exact Hs2].
    specialize (Kw _ _ eq_refl H1). destruct f.
    + eapply cf_resend; eauto.
    + destruct Kw as (a & news & E1 & E2). eapply cf_input; eauto.
  - (* ... the running session *)
    rewrite H0 in H1. injection H1 as <-. specialize (Kw _ _ eq_refl H2). rewrite Nat.eqb_refl. destruct f.
    + rewrite <- app_assoc. exact Kw.
    + destruct Kw as (a & news & E1 & E2). exists a, (news ++ [c]). rewrite E1, E2, <- !app_assoc. auto.
  - apply in_app_or in H1. destruct H1 as [H1|[[= <- <-]|[]]]; [eauto|]. apply Kc. reflexivity.
  - (* EEnqueue *) specialize (Kw _ _ eq_refl H3). destruct f; exact Kw.
  - (* ETake *)
    destruct (Kf _ _ H1). split; [assumption|]. apply cf_take. assumption.
  - specialize (Kw _ _ H1 H2). destruct Kw as (a & news & E1 & E2). exists a, news. rewrite E2, <- app_assoc. auto.
  - apply Kc. congruence.
  - rewrite H0 in H1. injection H1 as <-. exact (Kw _ _ eq_refl H2).
Qed.

Lemma order_inv_init : order_inv [] init.
Proof.
  constructor; simpl; intros; try contradiction; try discriminate; try constructor.
Qed.

Lemma order_inv_reach : forall P tr s, reach_by P tr s -> order_inv tr s.
Proof.
  intros P. apply reach_by_ind; [exact order_inv_init|].
  intros tr s e s' _ Hi Hs. eapply order_inv_step; eauto.
Qed.

Lemma lt_sorted_increasing : forall l, lt_sorted l -> strictly_increasing l.
Proof.
  induction l as [|x l IH]; intros Hs i j a b Hi Hj Hij.
  - destruct i; discriminate.
  - inversion Hs as [|? ? Hs' Hall]; subst. destruct j as [|j]; [lia|]. simpl in Hj.
    destruct i as [|i].
    + simpl in Hi. inversion Hi; subst. rewrite Forall_forall in Hall. apply Hall. eapply nth_error_In; eauto.
    + simpl in Hi. eapply IH; eauto. lia.
Qed.
