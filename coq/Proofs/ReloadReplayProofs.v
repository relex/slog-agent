(* C17 - the schedule driver of Model/ReloadReplay.v only ever takes steps of the LTS: the state a replay
   ends in (whose projection is compared with the real code) is reached by a run of [step], namely by the
   list of events the driver records. *)
From SV Require Import Model.Common Model.Reload Model.ReloadReplay Proofs.ReloadProofs.
From Coq Require Import Arith Lia.
Local Open Scope nat_scope.

(* reads d_st and d_evs only: the setters of the other fields of the driver's state keep it by conversion *)
Definition consistent (lk : bool) (st0 : state) (d : dstate) : Prop :=
  run lk st0 (rev (d_evs d)) = Some (d_st d).

Lemma consistent_step : forall lk st0 d d' e,
  consistent lk st0 d -> step lk (d_st d) e = Some (d_st d') -> d_evs d' = e :: d_evs d -> consistent lk st0 d'.
Proof.
  intros lk st0 d d' e C S E. unfold consistent in *. rewrite E. simpl rev. rewrite run_app, C. simpl. rewrite S. reflexivity.
Qed.

(* the driver's state was reached from a consistent one by recorded steps: one [consistent_step] for each
   [step] equation at hand, until the consistent state is met *)
Ltac by_steps := first [ assumption | eapply consistent_step; [|eassumption|reflexivity]; by_steps ].

Lemma do_start_consistent : forall lk st0 d t op auto,
  consistent lk st0 d -> consistent lk st0 (fst (do_start lk d t op auto)).
Proof.
  intros lk st0 d t op auto C. unfold do_start.
  destruct (get_thr (d_st d) t) as [c|]; [|simpl; by_steps].
  match goal with |- context [if ?b then _ else _] => destruct b end; [|simpl; by_steps].
  match goal with |- context [step lk ?s ?e] => destruct (step lk s e) eqn:S end; simpl; by_steps.
Qed.

Lemma do_reload_consistent : forall lk st0 d ok auto,
  consistent lk st0 d -> consistent lk st0 (do_reload lk d ok auto).
Proof.
  intros lk st0 d ok auto C. unfold do_reload. destruct (step lk (d_st d) ERlBegin) eqn:S; by_steps.
Qed.

Lemma release_conn_consistent : forall lk st0 d t d',
  consistent lk st0 d -> release_conn lk d t = Some d' -> consistent lk st0 d'.
Proof.
  intros lk st0 d t d' C H. unfold release_conn in H.
  destruct (get_thr (d_st d) t) as [c|]; try discriminate.
  destruct (ct_pc c); try discriminate.
  - destruct lk.
    + destruct (step true (d_st d) (ENewEnd t)) eqn:S; inversion H; subst. by_steps.
    + destruct (rl_wants (d_st d)); try discriminate.
      destruct (step false (d_st d) (ENewMade t)) as [st1|] eqn:S1; try discriminate.
      destruct (step false st1 (ENewEnd t)) as [st2|] eqn:S2; inversion H; subst.
      * eapply (consistent_step _ _ (with_st d st1 (ENewMade t))); [|exact S2|reflexivity]. by_steps.
      * by_steps.
  - destruct (step lk (d_st d) (EAccEnd t)) eqn:S; inversion H; subst. by_steps.
  - destruct (step lk (d_st d) (ETickEnd t)) eqn:S; inversion H; subst. by_steps.
  - destruct (step lk (d_st d) (ECloseEnd t)) eqn:S; inversion H; subst. by_steps.
Qed.

Lemma release_reload_consistent : forall lk st0 d d',
  consistent lk st0 d -> release_reload lk d = Some d' -> consistent lk st0 d'.
Proof.
  intros lk st0 d d' C H. unfold release_reload in H.
  destruct (st_rl (d_st d)); try discriminate;
    match type of H with context [step lk ?s ?e] => destruct (step lk s e) eqn:S end; inversion H; subst; by_steps.
Qed.

Lemma fire_pend_consistent : forall lk st0 l d kept fired,
  consistent lk st0 d -> consistent lk st0 (fst (fire_pend lk d l kept fired)).
Proof.
  induction l as [|[t op] l IH]; intros d kept fired C; simpl.
  - by_steps.
  - destruct (step lk (d_st d) (begin_ev t op)) eqn:S; apply IH; by_steps.
Qed.

Lemma fire_store_consistent : forall lk st0 l d kept fired,
  consistent lk st0 d -> consistent lk st0 (fst (fire_store lk d l kept fired)).
Proof.
  induction l as [|t l IH]; intros d kept fired C; cbn [fire_store].
  - cbn [fst]. by_steps.
  - destruct (step lk (d_st d) (ENewEnd t)) eqn:S; apply IH; by_steps.
Qed.

Lemma release_first_auto_consistent : forall lk st0 ts d d',
  consistent lk st0 d -> release_first_auto lk d ts = Some d' -> consistent lk st0 d'.
Proof.
  induction ts as [|t ts IH]; intros d d' C H; simpl in H; try discriminate.
  destruct (nth t (d_auto d) false).
  - destruct (release_conn lk d t) eqn:R.
    + inversion H; subst. eapply release_conn_consistent; eauto.
    + eapply IH; eauto.
  - eapply IH; eauto.
Qed.

Lemma settle_once_consistent : forall lk st0 d d',
  consistent lk st0 d -> settle_once lk d = Some d' -> consistent lk st0 d'.
Proof.
  intros lk st0 d d' C H. unfold settle_once in H.
  destruct (if rl_wants (d_st d) then _ else None) as [da|] eqn:A.
  - injection H as <-. destruct (rl_wants (d_st d)); [|discriminate].
    destruct (step lk (d_st d) ERlLock) eqn:S; [|discriminate]. injection A as <-. by_steps.
  - pose proof (fire_pend_consistent lk st0 (d_pend d) d [] false C) as C1.
    destruct (fire_pend lk d (d_pend d) [] false) as [d1 f1]. cbn [fst] in C1.
    pose proof (fire_store_consistent lk st0 (d_store d1) d1 [] false C1) as C2.
    destruct (fire_store lk d1 (d_store d1) [] false) as [d2 f2]. cbn [fst] in C2.
    destruct (f1 || f2); [injection H as <-; exact C2|].
    destruct (if d_rauto d then release_reload lk d else None) as [d3|] eqn:R.
    + injection H as <-. destruct (d_rauto d); [|discriminate]. exact (release_reload_consistent lk st0 d _ C R).
    + exact (release_first_auto_consistent lk st0 _ d _ C H).
Qed.

Lemma settle_consistent : forall lk st0 fuel d, consistent lk st0 d -> consistent lk st0 (settle fuel lk d).
Proof.
  induction fuel as [|f IH]; intros d C; simpl.
  - by_steps.
  - destruct (settle_once lk d) eqn:S; auto. apply IH. eapply settle_once_consistent; eauto.
Qed.

Lemma apply_op_consistent : forall lk st0 d op, consistent lk st0 d -> consistent lk st0 (apply_op lk d op).
Proof.
  intros lk st0 d op C. destruct op; simpl.
  - apply do_start_consistent; auto.
  - pose proof (do_start_consistent lk st0 d t (SAcc (fresh_recs k (d_next d))) auto C) as C1.
    destruct (do_start lk d t (SAcc (fresh_recs k (d_next d))) auto) as [d' acc]. simpl in C1.
    destruct acc; by_steps.
  - apply do_start_consistent; auto.
  - apply do_start_consistent; auto.
  - apply do_reload_consistent; auto.
  - destruct (who =? reload_who).
    + destruct (release_reload lk d) eqn:R; [eapply release_reload_consistent; eauto|by_steps].
    + destruct (release_conn lk d who) eqn:R; [eapply release_conn_consistent; eauto|by_steps].
  - destruct (who =? reload_who); by_steps.
  - by_steps.
Qed.

Lemma apply_ops_consistent : forall lk st0 ops d, consistent lk st0 d -> consistent lk st0 (apply_ops lk d ops).
Proof.
  induction ops as [|op ops IH]; intros d C; cbn [apply_ops]; auto.
  apply IH. apply settle_consistent. apply apply_op_consistent. by_steps.
Qed.

(* the state whose projection is printed for a schedule is reached by a run of the LTS *)
Theorem replay_is_run_lemma : forall lk nthr maxn ops,
  run lk (init nthr maxn) (rev (d_evs (replay lk nthr maxn ops))) = Some (d_st (replay lk nthr maxn ops)).
Proof.
  intros. unfold replay, drain. apply settle_consistent. apply (apply_ops_consistent lk _ ops (dinit nthr maxn)). reflexivity.
Qed.
