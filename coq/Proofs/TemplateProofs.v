(* C15: the template language — slices are Python slices, expansion never panics, the
   tokenizer reads back what a template of well-formed parts renders to. *)
From SV Require Import Model.Common Model.TfUnescape Model.Template Spec.TransformsSpec Proofs.CommonFacts.
From Coq Require Import Lia ZifyBool ZifyN ZifyNat.
Ltac Zify.zify_post_hook ::= Z.div_mod_to_equations.
Open Scope Z_scope.

(* parameters createVariableExpressionSolver derives from the optional bounds *)
Definition start_param (a : option Z) : Z := match a with Some x => x | None => 0 end.
Definition end_param (b : option Z) : Z := match b with Some x => x | None => max_int32 end.

(* a slice bound as the solver reads it: counted from the end when negative, then clamped to [0, len] *)
Definition rel_index (len x : Z) : Z := Z.min (Z.max 0 (if x <? 0 then x + len else x)) len.

Lemma solve_slice_clamped : forall v ps pe,
  let lo := rel_index (Z.of_nat (length v)) ps in
  let hi := rel_index (Z.of_nat (length v)) pe in
  solve_slice v ps pe = Ok (firstn (Z.to_nat (hi - lo)) (skipn (Z.to_nat lo) v)).
Proof.
  intros v ps pe. unfold solve_slice, go_slice, rel_index. cbv zeta.
  set (len := Z.of_nat (length v)). assert (Hl0 : 0 <= len) by lia.
  set (s1 := if ps <? 0 then ps + len else ps).
  set (e1 := if pe <? 0 then pe + len else pe).
  replace (if s1 <? 0 then 0 else s1) with (Z.max 0 s1) by (destruct (s1 <? 0) eqn:E; lia).
  assert (Hempty : forall lo hi, 0 <= lo -> hi <= lo \/ len <= lo ->
            Ok [] = Ok (firstn (Z.to_nat (hi - lo)) (skipn (Z.to_nat lo) v))).
  { intros lo hi Hlo [H|H]; f_equal.
    - replace (Z.to_nat (hi - lo)) with O by lia. reflexivity.
    - rewrite skipn_all2 by lia. symmetry. apply firstn_nil. }
  clearbody s1 e1.
  destruct (Z.max 0 s1 >=? len) eqn:E3; [apply Hempty; lia|].
  destruct (e1 <? 0) eqn:E4; [apply Hempty; lia|].
  replace (if e1 >? len then len else e1) with (Z.min (Z.max 0 e1) len) by (destruct (e1 >? len) eqn:E; lia).
  replace (Z.min (Z.max 0 s1) len) with (Z.max 0 s1) by lia.
  destruct (Z.max 0 s1 <? Z.min (Z.max 0 e1) len) eqn:E6; [|apply Hempty; lia].
  replace ((0 <=? Z.max 0 s1) && (Z.max 0 s1 <=? Z.min (Z.max 0 e1) len) && (Z.min (Z.max 0 e1) len <=? len))%bool
    with true by lia.
  reflexivity.
Qed.

Lemma slice_python_lemma : forall v a b,
  Z.of_nat (length v) <= max_int32 ->
  solve_slice v (start_param a) (end_param b) = Ok (py_slice v a b).
Proof.
  intros v a b Hlen. rewrite solve_slice_clamped. unfold py_slice. cbv zeta.
  replace (rel_index (Z.of_nat (length v)) (start_param a)) with (py_index (Z.of_nat (length v)) a 0)
    by (unfold rel_index, py_index; destruct a as [x|]; cbn [start_param]; [destruct (x <? 0) eqn:E|change (0 <? 0) with false]; lia).
  replace (rel_index (Z.of_nat (length v)) (end_param b)) with (py_index (Z.of_nat (length v)) b (Z.of_nat (length v)))
    by (unfold rel_index, py_index; destruct b as [x|]; cbn [end_param]; [destruct (x <? 0) eqn:E|change (max_int32 <? 0) with false]; unfold max_int32 in *; lia).
  reflexivity.
Qed.

Open Scope N_scope.

Lemma is_word_iff : forall c, is_word c = true <-> word_char c.
Proof. intros c. unfold is_word, word_char. lia. Qed.

Lemma is_digit_iff : forall c, is_digit c = true <-> digit_byte c.
Proof. intros c. unfold is_digit, digit_byte. lia. Qed.

Definition stops (p : N -> bool) (rest : bytes) : Prop :=
  match rest with [] => True | c :: _ => p c = false end.

Lemma span_app_stop : forall p a rest, Forall (fun c => p c = true) a -> stops p rest ->
  span p (a ++ rest) = (a, rest).
Proof.
  intros p a rest Ha Hs. induction Ha as [|c a Hc Ha IH]; cbn [app].
  - destruct rest as [|c r]; [reflexivity|]. cbn in *. rewrite Hs. reflexivity.
  - cbn [span]. rewrite Hc, IH. reflexivity.
Qed.

Lemma index_byte_app_first : forall a c r, Forall (fun b => b <> c) a ->
  index_byte (a ++ c :: r) c = Some (length a).
Proof.
  intros a c r Ha. induction Ha as [|b a Hb Ha IH]; cbn [app index_byte length].
  - rewrite N.eqb_refl. reflexivity.
  - destruct (b =? c) eqn:E; [lia|]. rewrite IH. reflexivity.
Qed.

(* the text between "${" and "}" *)
Definition brace_inner (n : bytes) (sl : option (bytes * bytes)) : bytes :=
  match sl with None => n | Some (a, b) => n ++ 91 :: a ++ 58 :: b ++ [93] end.

(* what the tokenizer reads an item back as *)
Definition raw_of (i : item) : rawpart :=
  match i with
  | ILit s => RLit s
  | IVar n => RVar n
  | IBrace n sl => RBraced (brace_inner n sl)
  end.

Lemma render_brace : forall n sl, render_item (IBrace n sl) = 36 :: 123 :: brace_inner n sl ++ [125].
Proof.
  intros n [[a b]|]; cbn [render_item brace_inner]; [|reflexivity].
  do 2 f_equal. rewrite <- !app_assoc. cbn [app]. do 2 f_equal. rewrite <- !app_assoc. cbn [app]. do 2 f_equal. rewrite <- !app_assoc. reflexivity.
Qed.

Lemma bound_text_chars : forall t, bound_text t -> Forall (fun c => digit_byte c \/ c = 45) t.
Proof.
  intros t H. destruct H as [|d ds H|d ds H]; [constructor| |constructor; [right; reflexivity|]];
    (eapply Forall_impl; [|exact H]); intros; left; assumption.
Qed.

(* it contains neither '$' nor '}' and starts with a word character *)
Lemma brace_inner_chars : forall n sl, item_ok (IBrace n sl) ->
  Forall (fun c => c <> 36 /\ c <> 125) (brace_inner n sl) /\
  exists d r, brace_inner n sl = d :: r /\ word_char d.
Proof.
  intros n sl H.
  assert (Hn : name_ok n) by (destruct sl as [[a b]|]; cbn in H; tauto).
  destruct Hn as [Hne Hw].
  assert (Hnw : Forall (fun c => c <> 36 /\ c <> 125) n).
  { eapply Forall_impl; [|exact Hw]. intros c Hc. unfold word_char in Hc. lia. }
  split.
  - destruct sl as [[a b]|]; cbn [brace_inner]; [|assumption].
    cbn in H. destruct H as (_ & Ha & Hb).
    assert (Hb' : forall t, bound_text t -> Forall (fun c => c <> 36 /\ c <> 125) t).
    { intros t Ht. eapply Forall_impl; [|apply bound_text_chars; exact Ht].
      intros c [Hc|Hc]; unfold digit_byte in *; lia. }
    apply Forall_app; split; [assumption|]. constructor; [lia|].
    apply Forall_app; split; [apply Hb'; assumption|]. constructor; [lia|].
    apply Forall_app; split; [apply Hb'; assumption|]. constructor; [lia|constructor].
  - destruct n as [|d r]; [congruence|]. inversion Hw; subst.
    destruct sl as [[a b]|]; cbn [brace_inner app]; eexists; eexists; split; try reflexivity; assumption.
Qed.

Definition head_is_dollar_or_empty (s : bytes) : Prop := match s with [] => True | c :: _ => c = 36 end.

Lemma render_head : forall i l, items_ok (i :: l) ->
  match i with
  | ILit _ => True
  | _ => exists r, render_items (i :: l) = 36 :: r
  end.
Proof.
  intros i l H. destruct i as [s|n|n sl]; [exact I| |].
  - eexists. reflexivity.
  - unfold render_items. cbn [flat_map]. rewrite render_brace. eexists. reflexivity.
Qed.

Lemma tokenize_render : forall l fuel, items_ok l -> (length (render_items l) < fuel)%nat ->
  tokenize fuel (render_items l) = Some (map raw_of l, false).
Proof.
  induction l as [|i l IH]; intros fuel Hok Hf.
  - destruct fuel; [lia|]. reflexivity.
  - destruct fuel as [|f]; [lia|].
    destruct Hok as (Hi & Hfol & Hl).
    unfold render_items in *. cbn [flat_map map] in *. fold (render_items l) in *.
    set (R := render_items l) in *.
    assert (HR : forall f', (length R < f')%nat -> tokenize f' R = Some (map raw_of l, false)) by (intros; apply IH; assumption).
    destruct i as [s|n|n sl].
    + (* literal *)
      destruct Hi as [Hne Hnd]. destruct s as [|c0 s']; [congruence|].
      cbn [render_item app] in *. cbn [tokenize].
      inversion Hnd as [|? ? Hc0 Hs']; subst.
      destruct (c0 =? 36) eqn:E0; [lia|].
      change (c0 :: s' ++ R) with ((c0 :: s') ++ R).
      rewrite span_app_stop.
      * rewrite HR by (cbn [length] in Hf; rewrite app_length in Hf; lia). reflexivity.
      * eapply Forall_impl; [|exact Hnd]. intros c Hc. cbv beta in Hc. unfold not_dollar. destruct (c =? 36) eqn:Ec; [lia|reflexivity].
      * destruct l as [|j l']; [exact I|].
        destruct j as [t|m|m sl']; try (cbn in Hfol; tauto).
        -- unfold R, render_items. cbn [flat_map render_item app stops]. reflexivity.
        -- unfold R, render_items. cbn [flat_map]. rewrite render_brace. cbn [app stops]. reflexivity.
    + (* $name *)
      destruct Hi as [Hne Hw]. destruct n as [|c n']; [congruence|].
      cbn [render_item app] in *. cbn [tokenize].
      rewrite N.eqb_refl.
      inversion Hw as [|? ? Hc Hn']; subst.
      assert (Ec : is_word c = true) by (apply is_word_iff; assumption). rewrite Ec.
      change (c :: n' ++ R) with ((c :: n') ++ R).
      rewrite span_app_stop.
      * rewrite HR by (cbn [length] in Hf; rewrite app_length in Hf; cbn [length] in Hf; lia). reflexivity.
      * eapply Forall_impl; [|exact Hw]. intros x Hx. apply is_word_iff. assumption.
      * destruct l as [|j l']; [exact I|].
        destruct j as [t|m|m sl'].
        -- destruct Hl as ((Htne & _) & _). destruct t as [|c' t']; [congruence|].
           cbn in Hfol. unfold R, render_items. cbn [flat_map render_item app stops].
           destruct (is_word c') eqn:E; [|reflexivity]. exfalso. apply Hfol. apply is_word_iff. assumption.
        -- unfold R, render_items. cbn [flat_map render_item app stops]. reflexivity.
        -- unfold R, render_items. cbn [flat_map]. rewrite render_brace. cbn [app stops]. reflexivity.
    + (* ${...} *)
      destruct (brace_inner_chars n sl Hi) as (Hch & d & r & Hd & Hwd).
      rewrite render_brace in *. cbn [app] in *. rewrite <- app_assoc in *. cbn [app] in *.
      cbn [tokenize]. rewrite N.eqb_refl.
      change (is_word 123) with false. cbn [N.eqb Pos.eqb]. cbv iota.
      assert (HfR : (length R < f)%nat) by (cbn [length] in Hf; rewrite app_length in Hf; cbn [length] in Hf; lia).
      remember (brace_inner n sl ++ 125 :: R) as X eqn:HX.
      assert (HX' : X = d :: (r ++ 125 :: R)) by (rewrite HX, Hd; reflexivity).
      destruct X as [|d0 X0]; [discriminate|]. inversion HX'; subst d0.
      assert (Ed : is_word d = true) by (apply is_word_iff; assumption). rewrite Ed.
      change (d :: r ++ 125 :: R) with ((d :: r) ++ 125 :: R). rewrite <- Hd.
      rewrite index_byte_app_first by (eapply Forall_impl; [|exact Hch]; cbv beta; intros; tauto).
      rewrite firstn_app, Nat.sub_diag, firstn_all, firstn_O, app_nil_r.
      replace (skipn (S (length (brace_inner n sl))) (brace_inner n sl ++ 125 :: R)) with R.
      * rewrite HR by exact HfR. reflexivity.
      * rewrite skipn_app, skipn_all2 by lia.
        replace (S (length (brace_inner n sl)) - length (brace_inner n sl))%nat with 1%nat by lia. reflexivity.
Qed.

Definition has_dd := has_double_dollar.

Lemma N_match_36 : forall (A : Type) (x y : A) c, match c with 36 => x | _ => y end = if c =? 36 then x else y.
Proof. intros A x y [|p]; [reflexivity|]. do 6 (destruct p as [p|p|]; try reflexivity). Qed.

Lemma N_match_45 : forall (A : Type) (x y : A) c, match c with 45 => x | _ => y end = if c =? 45 then x else y.
Proof. intros A x y [|p]; [reflexivity|]. do 6 (destruct p as [p|p|]; try reflexivity). Qed.

Lemma has_dd_cons : forall c s, has_double_dollar (c :: s) =
  (c =? 36) && (match s with d :: _ => d =? 36 | [] => false end) || has_double_dollar s.
Proof.
  intros c s. unfold has_double_dollar. rewrite N_match_36.
  destruct (c =? 36); [|reflexivity]. destruct s as [|d s]; [reflexivity|].
  rewrite N_match_36. destruct (d =? 36); reflexivity.
Qed.

Lemma has_dd_dollar : forall c s, c <> 36 -> has_double_dollar (36 :: c :: s) = has_double_dollar (c :: s).
Proof. intros c s H. rewrite has_dd_cons. replace (c =? 36) with false by lia. reflexivity. Qed.

Lemma has_dd_app : forall a s, Forall (fun c => c <> 36) a -> has_double_dollar (a ++ s) = has_double_dollar s.
Proof.
  intros a s H. induction H as [|c a Hc Ha IH]; [reflexivity|].
  cbn [app]. rewrite has_dd_cons. replace (c =? 36) with false by lia. exact IH.
Qed.

Lemma no_double_dollar : forall l, items_ok l -> has_double_dollar (render_items l) = false.
Proof.
  induction l as [|i l IH]; intros Hok; [reflexivity|].
  destruct Hok as (Hi & Hfol & Hl). unfold render_items. cbn [flat_map]. fold (render_items l).
  specialize (IH Hl). destruct i as [s|n|n sl].
  - destruct Hi as [_ Hnd]. cbn [render_item]. rewrite has_dd_app by assumption. exact IH.
  - destruct Hi as [Hne Hw]. destruct n as [|c n']; [congruence|]. cbn [render_item app].
    assert (Hnw : Forall (fun c => c <> 36) (c :: n')).
    { eapply Forall_impl; [|exact Hw]. intros x Hx. unfold word_char in Hx. lia. }
    inversion Hnw; subst.
    rewrite has_dd_dollar by assumption.
    change (c :: n' ++ render_items l) with ((c :: n') ++ render_items l).
    rewrite has_dd_app by assumption. exact IH.
  - destruct (brace_inner_chars n sl Hi) as (Hch & _).
    rewrite render_brace. cbn [app]. rewrite has_dd_dollar by lia. rewrite (has_dd_cons 123).
    rewrite <- app_assoc. rewrite has_dd_app by (eapply Forall_impl; [|exact Hch]; cbv beta; intros; tauto).
    cbn [app]. rewrite (has_dd_cons 125). exact IH.
Qed.

Lemma parse_optint_cons : forall c t, parse_optint (c :: t) =
  if c =? 45
  then let (d, r) := span is_digit t in match d with [] => (None, c :: t) | _ => (Some (45 :: d), r) end
  else let (d, r) := span is_digit (c :: t) in match d with [] => (None, c :: t) | _ => (Some d, r) end.
Proof. intros c t. unfold parse_optint. rewrite N_match_45. destruct (N.eqb_spec c 45) as [->|]; reflexivity. Qed.

(* the bounds as the regexp groups deliver them *)
Lemma parse_optint_bound : forall t rest, bound_text t -> stops is_digit rest -> stops (fun c => c =? 45) rest ->
  parse_optint (t ++ rest) = (match t with [] => None | _ => Some t end, rest).
Proof.
  intros t rest Ht Hs Hm.
  assert (Hall : forall ds, Forall digit_byte ds -> Forall (fun c => is_digit c = true) ds).
  { intros ds. apply Forall_impl. intros c. apply is_digit_iff. }
  destruct Ht as [|d ds Hd|d ds Hd].
  - destruct rest as [|c r]; [reflexivity|]. cbn in Hs, Hm. cbn [app]. rewrite parse_optint_cons, Hm.
    cbn [span]. rewrite Hs. reflexivity.
  - apply Hall in Hd as Hds. inversion Hd as [|? ? Hd0 _]; subst. unfold digit_byte in Hd0.
    cbn [app]. rewrite parse_optint_cons. replace (d =? 45) with false by lia.
    change (d :: ds ++ rest) with ((d :: ds) ++ rest). rewrite span_app_stop by assumption. reflexivity.
  - apply Hall in Hd.
    cbn [app]. rewrite parse_optint_cons. cbn [N.eqb Pos.eqb].
    change (d :: ds ++ rest) with ((d :: ds) ++ rest). rewrite span_app_stop by assumption. reflexivity.
Qed.

Lemma parse_varexpr_inner : forall n sl, item_ok (IBrace n sl) ->
  parse_varexpr (brace_inner n sl) =
  Some (n, match sl with Some (a, _) => a | None => [] end, match sl with Some (_, b) => b | None => [] end).
Proof.
  intros n sl H.
  assert (Hn : name_ok n) by (destruct sl as [[a b]|]; cbn in H; tauto).
  destruct Hn as [Hne Hw].
  assert (Hww : Forall (fun c => is_word c = true) n).
  { eapply Forall_impl; [|exact Hw]. intros c Hc. apply is_word_iff. assumption. }
  unfold parse_varexpr. destruct sl as [[a b]|]; cbn [brace_inner].
  - cbn in H. destruct H as (_ & Ha & Hb).
    rewrite span_app_stop; [|assumption|reflexivity].
    destruct n as [|c n']; [congruence|].
    rewrite (parse_optint_bound a (58 :: b ++ [93]) Ha); [|reflexivity|reflexivity].
    rewrite (parse_optint_bound b [93] Hb); [|reflexivity|reflexivity].
    destruct a, b; reflexivity.
  - rewrite <- (app_nil_r n) at 1. rewrite span_app_stop; [|assumption|exact I].
    destruct n; [congruence|reflexivity].
Qed.

(* what each item compiles to *)
Definition bound_val (t : bytes) (dflt : Z) : option Z := match t with [] => Some dflt | _ => atoi t end.

Definition item_part (schema : list bytes) (i : item) : option part :=
  match i with
  | ILit s => Some (PLit s)
  | IVar n => option_map PVar (find_index schema n)
  | IBrace n sl =>
    match find_index schema n with
    | None => None
    | Some loc =>
      match bound_val (match sl with Some (a, _) => a | None => [] end) 0%Z,
            bound_val (match sl with Some (_, b) => b | None => [] end) max_int32 with
      | Some x, Some y => Some (PSlice loc x y)
      | _, _ => None
      end
    end
  end.

Lemma compile_item : forall schema i p, item_ok i -> item_part schema i = Some p ->
  compile_part schema (raw_of i) = Ok p.
Proof.
  intros schema i p Hok H. destruct i as [s|n|n sl].
  - inversion H; reflexivity.
  - cbn in *. destruct (find_index schema n); inversion H; reflexivity.
  - cbn [raw_of compile_part]. rewrite (parse_varexpr_inner n sl Hok).
    cbn [item_part] in H. destruct (find_index schema n) as [loc|]; [|discriminate].
    unfold bound_val in H.
    destruct sl as [[a b]|].
    + destruct (match a with [] => Some 0%Z | _ :: _ => atoi a end) as [x|]; [|discriminate].
      destruct (match b with [] => Some max_int32 | _ :: _ => atoi b end) as [y|]; [|discriminate].
      inversion H; reflexivity.
    + inversion H; reflexivity.
Qed.

Lemma compile_items : forall schema l ps, items_ok l -> all_some (map (item_part schema) l) = Some ps ->
  compile_parts schema (map raw_of l) = Ok ps.
Proof.
  induction l as [|i l IH]; intros ps Hok H.
  - inversion H; reflexivity.
  - destruct Hok as (Hi & _ & Hl). cbn [map all_some] in H.
    destruct (item_part schema i) as [p|] eqn:Ep; [|discriminate].
    destruct (all_some (map (item_part schema) l)) as [ps'|] eqn:El; [|discriminate].
    inversion H; subst. cbn [map compile_parts].
    rewrite (compile_item schema i p Hi Ep). rewrite (IH ps' Hl eq_refl). reflexivity.
Qed.

(* NewExpander on the rendering of well-formed items gives their parts *)
Lemma new_expander_render : forall schema l ps, items_ok l ->
  all_some (map (item_part schema) l) = Some ps ->
  new_expander schema (render_items l) = Ok ps.
Proof.
  intros schema l ps Hok H. unfold new_expander.
  rewrite no_double_dollar by assumption.
  rewrite tokenize_render by (assumption || lia).
  rewrite (compile_items schema l ps Hok H). reflexivity.
Qed.

Open Scope Z_scope.

Lemma expand_eq_all : forall fields ps, expand fields ps = expand_all fields ps.
Proof.
  intros fields ps. destruct ps as [|p [|q ps]]; try reflexivity.
  cbn [expand expand_all]. destruct (part_value fields p); try reflexivity. rewrite app_nil_r. reflexivity.
Qed.

Lemma part_value_no_panic : forall fields p, exists v, part_value fields p = Ok v.
Proof.
  intros fields p. destruct p as [s|loc|loc a b]; cbn [part_value]; try (eexists; reflexivity).
  eexists. apply solve_slice_clamped.
Qed.

Lemma expand_all_no_panic : forall fields ps, exists v, expand_all fields ps = Ok v.
Proof.
  intros fields ps. induction ps as [|p ps [v IH]]; [eexists; reflexivity|].
  cbn [expand_all]. destruct (part_value_no_panic fields p) as [x Hx]. rewrite Hx, IH. eexists; reflexivity.
Qed.

Lemma expand_no_panic : forall fields ps, exists v, expand fields ps = Ok v.
Proof. intros. rewrite expand_eq_all. apply expand_all_no_panic. Qed.

(* the documented value of an item: the field, or its Python slice *)
Definition bound_opt (t : bytes) : option (option Z) :=
  match t with [] => Some None | _ => option_map Some (atoi t) end.

Definition item_value (schema : list bytes) (fields : list bytes) (i : item) : option bytes :=
  match i with
  | ILit s => Some s
  | IVar n => option_map (get_field fields) (find_index schema n)
  | IBrace n None => option_map (get_field fields) (find_index schema n)
  | IBrace n (Some (a, b)) =>
    match find_index schema n, bound_opt a, bound_opt b with
    | Some loc, Some x, Some y => Some (py_slice (get_field fields loc) x y)
    | _, _, _ => None
    end
  end.

Definition fields_fit (fields : list bytes) : Prop :=
  forall loc, Z.of_nat (length (get_field fields loc)) <= max_int32.

Lemma py_slice_full : forall v, py_slice v None None = v.
Proof.
  intros v. unfold py_slice, py_index. cbn [Z.to_nat skipn]. rewrite Z.sub_0_r, Nat2Z.id. apply firstn_all.
Qed.

Lemma item_part_value : forall schema fields i p v, fields_fit fields ->
  item_part schema i = Some p -> item_value schema fields i = Some v -> part_value fields p = Ok v.
Proof.
  intros schema fields i p v Hfit Hp Hv. destruct i as [s|n|n sl].
  - inversion Hp; inversion Hv; subst. reflexivity.
  - cbn in Hp, Hv. destruct (find_index schema n); inversion Hp; inversion Hv; subst. reflexivity.
  - cbn [item_part] in Hp. destruct (find_index schema n) as [loc|] eqn:En; [|discriminate].
    destruct sl as [[a b]|].
    + cbn [item_value] in Hv. rewrite En in Hv. unfold bound_val in Hp. unfold bound_opt in Hv.
      destruct a as [|a0 a']; destruct b as [|b0 b'];
        repeat match type of Hp with context [atoi ?t] => destruct (atoi t) eqn:?; [|discriminate] end;
        cbn [option_map] in Hv; inversion Hp; inversion Hv; subst; cbn [part_value].
      * apply (slice_python_lemma _ None None). apply Hfit.
      * apply (slice_python_lemma _ None (Some _)). apply Hfit.
      * apply (slice_python_lemma _ (Some _) None). apply Hfit.
      * apply (slice_python_lemma _ (Some _) (Some _)). apply Hfit.
    + cbn [item_value] in Hv. rewrite En in Hv. cbn in Hp, Hv. inversion Hp; inversion Hv; subst.
      cbn [part_value]. rewrite (slice_python_lemma _ None None) by apply Hfit. rewrite py_slice_full. reflexivity.
Qed.

(* expansion of a compiled template = concatenation of the documented item values *)
Lemma expand_items : forall schema fields l ps vs, fields_fit fields ->
  all_some (map (item_part schema) l) = Some ps ->
  all_some (map (item_value schema fields) l) = Some vs ->
  expand fields ps = Ok (concat vs).
Proof.
  intros schema fields l ps vs Hfit. rewrite expand_eq_all. revert ps vs.
  induction l as [|i l IH]; intros ps vs Hp Hv.
  - inversion Hp; inversion Hv; reflexivity.
  - cbn [map all_some] in Hp, Hv.
    destruct (item_part schema i) as [p|] eqn:Ep; [|discriminate].
    destruct (all_some (map (item_part schema) l)) as [ps'|]; [|discriminate].
    destruct (item_value schema fields i) as [v|] eqn:Ev; [|discriminate].
    destruct (all_some (map (item_value schema fields) l)) as [vs'|]; [|discriminate].
    inversion Hp; inversion Hv; subst. cbn [expand_all concat].
    rewrite (item_part_value schema fields i p v Hfit Ep Ev). rewrite (IH ps' vs' eq_refl eq_refl). reflexivity.
Qed.
