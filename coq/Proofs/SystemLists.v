(* List facts used by the proofs about Model/System.v. *)
From Coq Require Import List Arith Bool Lia PeanoNat Permutation NArith.
From SV Require Import Model.Common Model.System.
Import ListNotations.
Open Scope nat_scope.

Lemma take_first_spec : forall A (f : A -> bool) l x r,
  take_first f l = Some (x, r) ->
  f x = true /\ exists a b, l = a ++ x :: b /\ r = a ++ b /\ (forall y, In y a -> f y = false).
Proof.
  induction l as [|y l IH]; intros x r H; cbn in H; [discriminate|].
  destruct (f y) eqn:Fy.
  - inversion H; subst. split; [assumption|]. exists [], r. cbn. repeat split; auto. intros ? [].
  - destruct (take_first f l) as [[z r']|] eqn:T; [|discriminate].
    inversion H; subst. destruct (IH _ _ eq_refl) as [Fx [a [b [E1 [E2 Ha]]]]].
    split; [assumption|]. exists (y :: a), b. subst. cbn. repeat split; auto.
    intros w [->|Hw]; auto.
Qed.

Lemma take_first_in : forall A (f : A -> bool) l x r,
  take_first f l = Some (x, r) -> forall y, In y l <-> x = y \/ In y r.
Proof.
  intros A f l x r H y. destruct (take_first_spec _ _ _ _ _ H) as [_ [a [b [-> [-> _]]]]].
  rewrite !in_app_iff. cbn. intuition.
Qed.

Lemma take_first_none : forall A (f : A -> bool) l, take_first f l = None -> forall y, In y l -> f y = false.
Proof.
  induction l as [|x l IH]; intros H y Hy; [destruct Hy|]. cbn in H.
  destruct (f x) eqn:Fx; [discriminate|].
  destruct (take_first f l) as [[z r']|] eqn:T; [discriminate|].
  destruct Hy as [->|Hy]; auto.
Qed.

Lemma take_first_flat : forall A B (g : A -> list B) (f : A -> bool) l x r,
  take_first f l = Some (x, r) -> forall y, In y (flat_map g l) <-> In y (g x) \/ In y (flat_map g r).
Proof.
  intros A B g f l x r H y. destruct (take_first_spec _ _ _ _ _ H) as [_ [a [b [-> [-> _]]]]].
  rewrite !flat_map_app. cbn. rewrite !in_app_iff. intuition.
Qed.

Lemma partition_in : forall A (f : A -> bool) l a b,
  partition f l = (a, b) -> forall y, In y l <-> In y a \/ In y b.
Proof. intros. eapply elements_in_partition; eauto. Qed.

Lemma partition_flat : forall A B (g : A -> list B) (f : A -> bool) l a b,
  partition f l = (a, b) -> forall y, In y (flat_map g l) <-> In y (flat_map g a) \/ In y (flat_map g b).
Proof.
  intros A B g f l a b H y. rewrite !in_flat_map. split.
  - intros [x [Hx Hy]]. apply (partition_in _ _ _ _ _ H) in Hx. destruct Hx; [left|right]; eauto.
  - intros [[x [Hx Hy]]|[x [Hx Hy]]]; exists x; split; auto; apply (partition_in _ _ _ _ _ H); auto.
Qed.

Lemma partition_as_filter : forall A (f : A -> bool) l,
  partition f l = (filter f l, filter (fun x => negb (f x)) l).
Proof.
  induction l as [|x l IH]; cbn; [reflexivity|]. rewrite IH. destruct (f x); reflexivity.
Qed.

Lemma partition_fst_true : forall A (f : A -> bool) l a b, partition f l = (a, b) -> forall y, In y a -> f y = true.
Proof. intros A f l a b H y Hy. rewrite partition_as_filter in H. inversion H; subst. apply filter_In in Hy. tauto. Qed.

Lemma partition_snd_false : forall A (f : A -> bool) l a b, partition f l = (a, b) -> forall y, In y b -> f y = false.
Proof.
  intros A f l a b H y Hy. rewrite partition_as_filter in H. inversion H; subst. apply filter_In in Hy.
  apply negb_true_iff. tauto.
Qed.

Lemma insert_item_in : forall x l y, In y (insert_item x l) <-> y = x \/ In y l.
Proof.
  induction l as [|z l IH]; intros y; cbn; [intuition|].
  destruct (Nat.leb (q_id x) (q_id z)); cbn; [intuition|]. rewrite IH. intuition.
Qed.

Lemma sort_items_in : forall l y, In y (sort_items l) <-> In y l.
Proof.
  induction l as [|x l IH]; intros y; cbn; [tauto|]. rewrite insert_item_in, IH. intuition.
Qed.

Lemma sort_items_flat : forall B (g : qitem -> list B) l y, In y (flat_map g (sort_items l)) <-> In y (flat_map g l).
Proof.
  intros. rewrite !in_flat_map. split; intros [x [Hx Hy]]; exists x; split; auto; apply sort_items_in; auto.
Qed.

Lemma none_of_spec : forall A (f : A -> bool) l, none_of f l = true <-> forall y, In y l -> f y = false.
Proof.
  intros. unfold none_of. rewrite negb_true_iff. split.
  - intros H y Hy. destruct (f y) eqn:Fy; auto.
    assert (existsb f l = true) by (apply existsb_exists; eauto). congruence.
  - intros H. destruct (existsb f l) eqn:E; auto. apply existsb_exists in E. destruct E as [y [Hy Fy]].
    rewrite (H _ Hy) in Fy. discriminate.
Qed.

Lemma mem_nat_spec : forall k l, mem_nat k l = true <-> In k l.
Proof.
  intros. unfold mem_nat. rewrite existsb_exists. split.
  - intros [x [Hx E]]. apply Nat.eqb_eq in E. subst. auto.
  - intros H. exists k. split; auto. apply Nat.eqb_refl.
Qed.

Lemma remove_nat_in : forall k l x, In x (remove_nat k l) <-> In x l /\ x <> k.
Proof.
  intros. unfold remove_nat. rewrite filter_In, negb_true_iff, Nat.eqb_neq. tauto.
Qed.

Lemma add_pipe_in : forall p l x, In x (add_pipe p l) <-> x = p \/ In x l.
Proof.
  intros. unfold add_pipe. destruct (existsb (Nat.eqb p) l) eqn:E.
  - apply existsb_exists in E. destruct E as [y [Hy E]]. apply Nat.eqb_eq in E. subst. intuition. subst. auto.
  - rewrite in_app_iff. cbn. intuition.
Qed.

Lemma add_pipe_list_in : forall ps l x, In x (add_pipe_list ps l) <-> In x ps \/ In x l.
Proof.
  unfold add_pipe_list. induction ps as [|p ps IH]; intros l x; cbn; [tauto|].
  rewrite IH, add_pipe_in. intuition.
Qed.

Lemma add_pipes_in : forall ts l x, In x (add_pipes ts l) <-> (exists t, In t ts /\ t_pipe t = x) \/ In x l.
Proof.
  intros. unfold add_pipes. rewrite add_pipe_list_in, in_map_iff. split.
  - intros [[t [E H]]|H]; [left; eauto|right; auto].
  - intros [[t [H E]]|H]; [left; eauto|right; auto].
Qed.

Lemma singleton_batches_toks : forall l, toks_of_batches (singleton_batches l) = l.
Proof. induction l as [|x l IH]; cbn; [reflexivity|]. unfold toks_of_batches, singleton_batches in *. rewrite IH. reflexivity. Qed.

Lemma singleton_batches_in : forall l b, In b (singleton_batches l) -> exists t, In t l /\ b = (t_pipe t, [t]).
Proof. intros l b H. unfold singleton_batches in H. apply in_map_iff in H. destruct H as [t [E H]]. eauto. Qed.

Lemma singleton_batches_flat : forall l, flat_map snd (singleton_batches l) = l.
Proof. exact singleton_batches_toks. Qed.

Lemma toks_of_batches_app : forall a b, toks_of_batches (a ++ b) = toks_of_batches a ++ toks_of_batches b.
Proof. intros. apply flat_map_app. Qed.
Lemma toks_of_items_app : forall a b, toks_of_items (a ++ b) = toks_of_items a ++ toks_of_items b.
Proof. intros. apply flat_map_app. Qed.
Lemma toks_of_chunks_app : forall a b, toks_of_chunks (a ++ b) = toks_of_chunks a ++ toks_of_chunks b.
Proof. intros. apply flat_map_app. Qed.

Lemma tok_eqb_eq : forall a b, tok_eqb a b = true <-> a = b.
Proof.
  intros [a1 a2 a3 a4 a5] [b1 b2 b3 b4 b5]. unfold tok_eqb. cbn.
  rewrite !andb_true_iff, !Nat.eqb_eq, Bool.eqb_true_iff, N.eqb_eq. split.
  - intros [[[[-> ->] ->] ->] ->]. reflexivity.
  - intros H. inversion H. auto.
Qed.

Lemma toks_eqb_eq : forall a b, toks_eqb a b = true <-> a = b.
Proof.
  induction a as [|x a IH]; intros [|y b]; cbn; try (split; [discriminate|discriminate]); [tauto|].
  rewrite andb_true_iff, tok_eqb_eq, IH. split; [intros [-> ->]; reflexivity|intros H; inversion H; auto].
Qed.

Lemma chunk_eqb_eq : forall a b, chunk_eqb a b = true <-> a = b.
Proof.
  intros [a1 a2 a3] [b1 b2 b3]. unfold chunk_eqb. cbn.
  rewrite !andb_true_iff, !Nat.eqb_eq, toks_eqb_eq. split.
  - intros [[-> ->] ->]. reflexivity.
  - intros H. inversion H. auto.
Qed.

Lemma remove_file_in : forall c0 l c, In c (remove_file c0 l) <-> In c l /\ c <> c0.
Proof.
  intros. unfold remove_file. rewrite filter_In, negb_true_iff. split; intros [H1 H2]; split; auto.
  - intros ->. assert (chunk_eqb c0 c0 = true) by (apply chunk_eqb_eq; reflexivity). congruence.
  - destruct (chunk_eqb c c0) eqn:E; auto. apply chunk_eqb_eq in E. contradiction.
Qed.

Lemma existsb_chunk_in : forall c l, existsb (chunk_eqb c) l = true <-> In c l.
Proof.
  intros. rewrite existsb_exists. split.
  - intros [x [Hx E]]. apply chunk_eqb_eq in E. subst. auto.
  - intros H. exists c. split; auto. apply chunk_eqb_eq. reflexivity.
Qed.

Lemma tf_head_in : forall A (f : A -> bool) l x r, take_first f l = Some (x, r) -> In x l.
Proof. intros. apply (take_first_in _ _ _ _ _ H). left. reflexivity. Qed.
Lemma tf_rest_in : forall A (f : A -> bool) l x r y, take_first f l = Some (x, r) -> In y r -> In y l.
Proof. intros. apply (take_first_in _ _ _ _ _ H). right. assumption. Qed.
Lemma part_fst_in : forall A (f : A -> bool) l a b y, partition f l = (a, b) -> In y a -> In y l.
Proof. intros. apply (partition_in _ _ _ _ _ H). left. assumption. Qed.
Lemma part_snd_in : forall A (f : A -> bool) l a b y, partition f l = (a, b) -> In y b -> In y l.
Proof. intros. apply (partition_in _ _ _ _ _ H). right. assumption. Qed.
