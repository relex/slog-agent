(* C12, Model/Memory.v.  The local operations (in-place writers, Parse, transformations) are characterised by
   postconditions in the result monad ([mem_post]); the state of the pipeline by an invariant ([mem_inv]) that ties
   every live record to the composition of the local functions on that record alone ([mem_spec_at]).  Isolation,
   ownership of buffers, reference counts and the clean state of pooled structs are read off the invariant. *)
From SV Require Import Model.Common Model.Memory Proofs.ListFacts.
From Coq Require Import Lia ZifyBool ZifyN ZifyNat.
Open Scope N_scope.

(* Size classes of the buffer pool (BytesPoolBy2n): Get(n) hands out a buffer of the next power of two above n, and Put
   files a buffer under a class all of whose requests fit into it. *)

Lemma mem_bitlen32_small : forall n, n < mem_two32 -> mem_bitlen32 n = N.size n.
Proof. intros n H. unfold mem_bitlen32. rewrite N.mod_small by exact H. reflexivity. Qed.

Lemma mem_size_lower : forall n, n <> 0 -> 2 ^ (N.size n - 1) <= n.
Proof.
  intros n Hn. rewrite N.size_log2 by exact Hn.
  replace (N.succ (N.log2 n) - 1) with (N.log2 n) by lia.
  apply N.log2_spec. lia.
Qed.

Lemma mem_size_le_31 : forall n, n < 2 ^ 31 -> N.size n <= 31.
Proof.
  intros n H. destruct (N.eq_dec n 0) as [->|Hn]; [cbn; lia|].
  rewrite N.size_log2 by exact Hn.
  assert (N.log2 n < 31) by (apply N.log2_lt_pow2; lia). lia.
Qed.

(* Get(n) for every n below 2^31: class c <= 31, the buffer (2^c bytes) is strictly larger than n and at
   most twice n *)
Lemma mem_get_class_sound : forall n, n < 2 ^ 31 ->
  exists c, mem_get_class n = Ok c /\ c <= 31 /\ n < mem_class_size c /\ (n <> 0 -> mem_class_size c <= 2 * n).
Proof.
  intros n H. exists (N.size n).
  assert (Hs : N.size n <= 31) by (apply mem_size_le_31; exact H).
  assert (H32 : n < mem_two32) by (unfold mem_two32; change (2^31) with 2147483648 in H; lia).
  unfold mem_get_class. rewrite mem_bitlen32_small by exact H32.
  replace (N.size n <? 32) with true by lia.
  split; [reflexivity|]. split; [exact Hs|]. unfold mem_class_size. split.
  - apply N.size_gt.
  - intros Hn. pose proof (N.size_le n) as Hle.
    rewrite N.succ_double_spec in Hle.
    assert (Hpos : 1 <= N.size n) by (rewrite N.size_log2 by exact Hn; lia).
    replace (N.size n) with (N.succ (N.size n - 1)) in * by lia.
    rewrite N.pow_succ_r' in *. lia.
Qed.

(* Put of a buffer created for class c returns it to class c *)
Lemma mem_put_class_pow2 : forall c, c <= 31 -> mem_put_class (mem_class_size c) = Ok c.
Proof.
  intros c Hc. unfold mem_put_class, mem_class_size.
  assert (Hlt : 2 ^ c < mem_two32).
  { unfold mem_two32. change 4294967296 with (2 ^ 32). apply N.pow_lt_mono_r; lia. }
  rewrite mem_bitlen32_small by exact Hlt.
  assert (Hnz : 2 ^ c <> 0) by (apply N.pow_nonzero; lia).
  rewrite N.size_log2 by exact Hnz. rewrite N.log2_pow2 by lia.
  replace (N.succ c =? 0) with false by lia. f_equal. lia.
Qed.

Lemma mem_get_put_roundtrip : forall n c, n < 2 ^ 31 -> mem_get_class n = Ok c ->
  mem_put_class (mem_class_size c) = Ok c.
Proof.
  intros n c H Hg. destruct (mem_get_class_sound n H) as (c' & Hg' & Hc & _).
  rewrite Hg in Hg'. inversion Hg'; subst. apply mem_put_class_pow2. exact Hc.
Qed.

(* a buffer of any length 1 <= L < 2^32 is filed under a class whose requests all fit into it *)
Lemma mem_put_class_fits : forall l k, 1 <= l -> l < mem_two32 -> mem_put_class l = Ok k ->
  mem_class_size k <= l /\ forall n c, mem_get_class n = Ok c -> n < mem_two32 -> c = k -> n < l.
Proof.
  intros l k H1 H2 Hp. unfold mem_put_class in Hp. rewrite mem_bitlen32_small in Hp by exact H2.
  assert (Hl : l <> 0) by lia.
  destruct (N.size l =? 0) eqn:E; [discriminate|]. inversion Hp; subst k; clear Hp.
  pose proof (mem_size_lower l Hl) as Hlo.
  split; [exact Hlo|].
  intros n c Hg Hn Hc. unfold mem_get_class in Hg. rewrite mem_bitlen32_small in Hg by exact Hn.
  destruct (N.size n <? 32); [|discriminate]. inversion Hg as [Hsz]; clear Hg.
  pose proof (N.size_gt n) as Hgt. rewrite Hsz, Hc in Hgt. lia.
Qed.

(* beyond the stated maximum: 2^31 <= n < 2^32 is an index out of range, and the uint32 conversion wraps above *)
Lemma mem_get_class_limit : forall n, 2 ^ 31 <= n -> n < mem_two32 -> mem_get_class n = Panic 1.
Proof.
  intros n H1 H2. unfold mem_get_class. rewrite mem_bitlen32_small by exact H2.
  assert (Hn : n <> 0) by (change (2^31) with 2147483648 in H1; lia).
  assert (32 <= N.size n).
  { rewrite N.size_log2 by exact Hn. assert (31 <= N.log2 n) by (apply N.log2_le_pow2; lia). lia. }
  replace (N.size n <? 32) with false by lia. reflexivity.
Qed.

Lemma mem_get_class_wraps : mem_get_class (mem_two32 + 5) = Ok 3.
Proof. reflexivity. Qed.

Open Scope nat_scope.

Lemma mem_list_set_length : forall {A} (l : list A) i x, length (mem_list_set l i x) = length l.
Proof. induction l as [|y l IH]; intros [|i] x; cbn; auto. Qed.

Lemma mem_list_set_nth_eq : forall {A} (l : list A) i x, i < length l -> nth_error (mem_list_set l i x) i = Some x.
Proof. induction l as [|y l IH]; intros [|i] x H; cbn in *; try lia; auto. apply IH. lia. Qed.

Lemma mem_list_set_nth_neq : forall {A} (l : list A) i j x, i <> j -> nth_error (mem_list_set l i x) j = nth_error l j.
Proof. induction l as [|y l IH]; intros [|i] [|j] x H; cbn in *; try congruence; auto. Qed.

Lemma mem_list_set_nth_default_neq : forall {A} (l : list A) i j x d, i <> j -> nth j (mem_list_set l i x) d = nth j l d.
Proof. induction l as [|y l IH]; intros [|i] [|j] x d H; cbn in *; try congruence; auto. Qed.

Lemma mem_list_set_nth_default_eq : forall {A} (l : list A) i x d, i < length l -> nth i (mem_list_set l i x) d = x.
Proof. induction l as [|y l IH]; intros [|i] x d H; cbn in *; try lia; auto. apply IH. lia. Qed.

Lemma mem_list_set_twice : forall {A} (l : list A) i x y, mem_list_set (mem_list_set l i x) i y = mem_list_set l i y.
Proof. induction l as [|z l IH]; intros [|i] x y; cbn; auto. rewrite IH. reflexivity. Qed.

Lemma mem_list_set_map_same : forall {A B} (f : A -> B) (l : list A) (i : nat) (x y : A),
  nth_error l i = Some y -> f x = f y -> map f (mem_list_set l i x) = map f l.
Proof.
  intros A B f l. induction l as [|a l IH]; intros i x y Hn Hf; destruct i; cbn in *; try discriminate.
  - inversion Hn; subst. rewrite Hf. reflexivity.
  - rewrite (IH _ _ _ Hn Hf). reflexivity.
Qed.

Lemma mem_nth_error_snoc : forall {A} (l : list A) x i, i <> length l -> nth_error (l ++ [x]) i = nth_error l i.
Proof.
  intros A l x i Hi. destruct (Nat.lt_ge_cases i (length l)) as [Hlt|Hge]; [apply nth_error_app1; exact Hlt|].
  rewrite nth_error_app2 by exact Hge. destruct (i - length l) as [|[|k]] eqn:E; [lia|symmetry; apply nth_error_None; exact Hge..].
Qed.

Lemma mem_splice_length : forall old pos data, length (mem_splice old pos data) = length old.
Proof.
  intros. unfold mem_splice. rewrite !app_length, !firstn_length, skipn_length. lia.
Qed.

(* The local operations.  Their results are in [mem_res] (a value, a fault, a panic); [mem_post fault panic P r] puts one
   condition on each exit, and every operation gets a postcondition of that form: what it may have written
   ([mem_wrote]) and when it can fault or panic. *)

Definition mem_post {A} (fault panic : Prop) (P : A -> Prop) (r : mem_res A) : Prop :=
  match r with ROk a => P a | RFault => fault | RPanic _ => panic end.

Lemma mem_post_bind : forall {A B} (fault panic : Prop) (P : A -> Prop) (Q : B -> Prop) c f,
  mem_post fault panic P c -> (forall a, P a -> mem_post fault panic Q (f a)) -> mem_post fault panic Q (mem_rbind c f).
Proof. intros A B fault panic P Q [a| |s] f Hc Hf; cbn in *; auto. Qed.

Lemma mem_post_weaken : forall {A} (fault fault' panic panic' : Prop) (P P' : A -> Prop) r,
  mem_post fault panic P r -> (fault -> fault') -> (panic -> panic') -> (forall a, P a -> P' a) -> mem_post fault' panic' P' r.
Proof. intros A f f' p p' P P' [a| |s]; cbn; auto. Qed.

Lemma mem_post_conj : forall {A} (fault panic : Prop) (P Q : A -> Prop) r,
  mem_post fault panic P r -> mem_post True True Q r -> mem_post fault panic (fun a => P a /\ Q a) r.
Proof. intros A f p P Q [a| |s]; cbn; auto. Qed.

Lemma mem_post_bind_any : forall {A B} (Q : B -> Prop) (c : mem_res A) f,
  (forall a, mem_post True True Q (f a)) -> mem_post True True Q (mem_rbind c f).
Proof. intros A B Q [a| |s] f H; cbn; auto. Qed.

(* what a write may change: the record's own bytes keep their length; unless the target is shared
   ([priv = false]) the configuration memory and its dirty flag stay as they are *)
Definition mem_same_shape (m m' : mem_lmem) : Prop := length (m_own m') = length (m_own m).
Definition mem_keeps_cfg (m m' : mem_lmem) : Prop := m_cfg m' = m_cfg m /\ m_dirty m' = m_dirty m.
Definition mem_wrote (priv : bool) (m m' : mem_lmem) : Prop := mem_same_shape m m' /\ (priv = true -> mem_keeps_cfg m m').

Definition mem_private (p : mem_eprov) : bool := match p with EOwn | EFresh _ => true | _ => false end.

Lemma mem_wrote_refl : forall b m, mem_wrote b m m.
Proof. repeat split. Qed.

Lemma mem_wrote_trans : forall b m1 m2 m3, mem_wrote b m1 m2 -> mem_wrote b m2 m3 -> mem_wrote b m1 m3.
Proof.
  unfold mem_wrote, mem_same_shape, mem_keeps_cfg. intros b m1 m2 m3 [H1 K1] [H2 K2].
  split; [congruence|]. intros Hb. destruct (K1 Hb), (K2 Hb). split; congruence.
Qed.

Lemma mem_wrote_weaken : forall b b' m m', (b' = true -> b = true) -> mem_wrote b m m' -> mem_wrote b' m m'.
Proof. intros b b' m m' Hb [H K]. split; auto. Qed.

Lemma mem_alloc_wrote : forall b m data, mem_wrote b m (fst (mem_alloc m data)).
Proof. repeat split. Qed.

Lemma mem_write_post : forall m p pos data,
  mem_post (mem_private p = false) False (mem_wrote (mem_private p) m) (mem_write m p pos data).
Proof.
  intros m p pos [|d data]; [apply mem_wrote_refl|].
  destruct p; cbn; try reflexivity; (split; [unfold mem_same_shape; cbn; rewrite ?mem_splice_length; reflexivity|]);
    try discriminate; split; reflexivity.
Qed.

Lemma mem_last_ascii_end_aux_le : forall s i best, best <= i -> mem_last_ascii_end_aux s i best <= i + length s.
Proof.
  induction s as [|c s IH]; intros i best H; cbn; [lia|].
  destruct (c <=? 127)%N; (eapply Nat.le_trans; [apply IH; lia|lia]).
Qed.

Lemma mem_last_ascii_end_le : forall s, mem_last_ascii_end s <= length s.
Proof. intros s. unfold mem_last_ascii_end. apply (mem_last_ascii_end_aux_le s 0 0). lia. Qed.

(* OverwriteNTruncate writes inside the span it is given and panics only when the span is shorter than [start] *)
Lemma mem_overwrite_post : forall m p off len start tail,
  mem_post (mem_private p = false) (len < start) (fun mn => mem_wrote (mem_private p) m (fst mn) /\ snd mn <= len)
    (mem_overwrite_n_truncate m p off len start tail).
Proof.
  intros m p off len start tail. unfold mem_overwrite_n_truncate.
  destruct (Nat.ltb_spec len start) as [Hlt|Hle]; [exact Hlt|].
  apply (mem_post_bind _ _ (mem_wrote (mem_private p) m)).
  - eapply mem_post_weaken; [apply mem_write_post|auto|contradiction|auto].
  - intros m' Hw. split; [exact Hw|cbn; lia].
Qed.

Lemma mem_clean_post : forall m p off len,
  mem_post (mem_private p = false) False (fun mn => mem_wrote (mem_private p) m (fst mn) /\ snd mn <= len)
    (mem_clean_utf8 m p off len).
Proof.
  intros m p off len. unfold mem_clean_utf8. destruct len as [|len']; [split; [apply mem_wrote_refl|reflexivity]|].
  eapply mem_post_weaken; [apply mem_overwrite_post|auto| |auto].
  intros Hlt. pose proof (mem_last_ascii_end_le (firstn (S len') (skipn off (mem_region m p)))) as H.
  rewrite firstn_length in H. lia.
Qed.

Definition mem_with_unesc (r : mem_lrec) (u : bool) : mem_lrec :=
  {| lr_fields := lr_fields r; lr_rawlen := lr_rawlen r; lr_ts := lr_ts r; lr_unesc := u |}.

(* a property of the struct that Parse keeps: it sets facility and level, sets other fields to substrings of the
   record's own bytes, and sets the flag *)
Definition mem_parser_inv (J : mem_lrec -> Prop) : Prop :=
  (forall r v, J r -> J (mem_set_field r F_facility v)) /\ (forall r v, J r -> J (mem_set_field r F_level v)) /\
  (forall r i off len, J r -> J (mem_set_field r i (EStr EOwn off len))) /\ (forall r u, J r -> J (mem_with_unesc r u)).

Lemma mem_set_field_length : forall r i v, length (lr_fields (mem_set_field r i v)) = length (lr_fields r).
Proof. intros. apply mem_list_set_length. Qed.

Lemma mem_fields_length_parser_inv : forall n, mem_parser_inv (fun r => length (lr_fields r) = n).
Proof. intros n. repeat split; intros; rewrite ?mem_set_field_length; assumption. Qed.

Lemma mem_parse_rest_inv : forall J own count r idx off len r' off' len', mem_parser_inv J -> J r ->
  mem_parse_rest own r idx count off len = Some (r', off', len') -> J r'.
Proof.
  intros J own count r idx off len r' off' len' (_ & _ & HJ & _). revert r idx off len.
  induction count as [|c IH]; intros r idx off len Hr H; cbn in H.
  - inversion H; subst. exact Hr.
  - destruct (mem_next_field own off len) as [e|]; [|discriminate]. eapply IH; [|exact H]. apply HJ. exact Hr.
Qed.

(* the header never takes the panic exit (the first-token slice of defect 1, property C09, has been repaired) *)
Lemma mem_parse_head_inv : forall J ls m r, mem_parser_inv J -> J r ->
  match mem_parse_head ls m r with HdBad r' | HdOk r' _ _ => J r' | HdPanic _ => False end.
Proof.
  intros J ls m r HJ Hr. unfold mem_parse_head.
  destruct (Nat.ltb (length (m_own m)) 32); [exact Hr|].
  destruct (negb (mem_first_is 60 (m_own m))); [exact Hr|].
  destruct (mem_next_field (m_own m) 0 (length (m_own m))) as [e|]; [|exact Hr].
  destruct (Nat.ltb e 2); [exact Hr|].
  destruct (negb _); [exact Hr|].
  destruct (mem_atoi _) as [pri|]; [|exact Hr].
  destruct (_ || _)%bool; [exact Hr|].
  match goal with |- context [mem_parse_rest _ ?r2 _ _ _ _] => assert (H2 : J r2) end.
  { destruct HJ as (H0 & H1 & _). apply H1, H0, Hr. }
  destruct (mem_parse_rest _ _ _ _ _ _) as [[[r3 off] len]|] eqn:E; [|exact H2].
  eapply mem_parse_rest_inv; eauto.
Qed.

(* Parse never faults and never panics; its in-place CleanUTF8 only ever touches the record's own bytes *)
Lemma mem_parse_post : forall J pa ls m r, mem_parser_inv J -> J r ->
  mem_post False False (fun x => mem_wrote true m (fst (fst (fst x))) /\ J (snd (fst (fst x)))) (mem_parse pa ls m r).
Proof.
  intros J pa ls m r HJ Hr. unfold mem_parse.
  pose proof (mem_parse_head_inv J ls m r HJ Hr) as Hh.
  destruct (mem_parse_head ls m r) as [rb|s|r3 off len]; [split; [apply mem_wrote_refl|exact Hh]|contradiction|].
  apply (mem_post_bind _ _ (fun x => mem_wrote true m (fst (fst x)) /\ J (snd (fst x)))); [|intros [[m1 r1] o] H; exact H].
  unfold mem_parse_msg. apply (mem_post_bind _ _ (fun ml => mem_wrote true m (fst ml))).
  - destruct (_ || _)%bool; [|apply mem_wrote_refl].
    eapply mem_post_weaken; [apply (mem_clean_post m EOwn)|discriminate|auto|intros a H; apply H].
  - intros [m1 l1] Hw. split; [exact Hw|].
    destruct HJ as (_ & _ & H3 & H4). exact (H4 _ _ (H3 r3 F_log off l1 Hh)).
Qed.

(* the parser does not read the Unescaped flag it finds in the struct *)
Lemma mem_set_field_unesc : forall r u i v, mem_set_field (mem_with_unesc r u) i v = mem_with_unesc (mem_set_field r i v) u.
Proof. reflexivity. Qed.

Lemma mem_parse_rest_unesc : forall own u count r idx off len,
  mem_parse_rest own (mem_with_unesc r u) idx count off len =
  match mem_parse_rest own r idx count off len with
  | Some (r', o, l) => Some (mem_with_unesc r' u, o, l)
  | None => None
  end.
Proof.
  induction count as [|c IH]; intros r idx off len; cbn; [reflexivity|].
  destruct (mem_next_field own off len) as [e|]; [|reflexivity].
  rewrite mem_set_field_unesc. apply IH.
Qed.

Lemma mem_parse_head_unesc : forall ls m r u,
  mem_parse_head ls m (mem_with_unesc r u) =
  match mem_parse_head ls m r with
  | HdBad r' => HdBad (mem_with_unesc r' u)
  | HdPanic s => HdPanic s
  | HdOk r' o l => HdOk (mem_with_unesc r' u) o l
  end.
Proof.
  intros ls m r u. unfold mem_parse_head.
  destruct (Nat.ltb (length (m_own m)) 32); [reflexivity|].
  destruct (negb (mem_first_is 60 (m_own m))); [reflexivity|].
  destruct (mem_next_field (m_own m) 0 (length (m_own m))) as [e|]; [|reflexivity].
  destruct (Nat.ltb e 2); [reflexivity|].
  destruct (negb _); [reflexivity|].
  destruct (mem_atoi _) as [pri|]; [|reflexivity].
  destruct (_ || _)%bool; [reflexivity|].
  rewrite !mem_set_field_unesc, mem_parse_rest_unesc.
  destruct (mem_parse_rest _ _ _ _ _ _) as [[[r3 off] len]|]; reflexivity.
Qed.

Lemma mem_parse_msg_unesc : forall pa m r u off len, mem_parse_msg pa m (mem_with_unesc r u) off len = mem_parse_msg pa m r off len.
Proof. reflexivity. Qed.

Lemma mem_parse_unesc : forall pa ls m r u,
  mem_parse pa ls m (mem_with_unesc r u) =
  match mem_parse pa ls m r with
  | ROk (m', r', PsMalformed, ov) => ROk (m', mem_with_unesc r' u, PsMalformed, ov)
  | x => x
  end.
Proof.
  intros pa ls m r u. unfold mem_parse. rewrite mem_parse_head_unesc.
  destruct (mem_parse_head ls m r) as [rb|s|r3 off len]; try reflexivity.
  rewrite mem_parse_msg_unesc.
  destruct (mem_parse_msg pa m r3 off len) as [[[m1 r1] o1]| |s]; reflexivity.
Qed.

(* false only for the in-place truncate of a string that lies in shared or constant memory *)
Definition mem_stx_private (mode : mem_trunc_mode) (r : mem_lrec) (t : mem_stx) : bool :=
  match t with
  | TTruncate key _ _ =>
    match mode, mem_get_field r key with TruncInPlace, EStr p _ _ => mem_private p | _, _ => true end
  | _ => true
  end.

Lemma mem_delfields_length : forall keys r,
  length (lr_fields (fold_left (fun acc k => mem_set_field acc k EEmpty) keys r)) = length (lr_fields r).
Proof. induction keys as [|k ks IH]; intros r; cbn; [reflexivity|]. rewrite IH. apply mem_set_field_length. Qed.

(* one transformation step never panics (the in-place helpers never slice out of range), faults only when an
   in-place truncate hits a constant, and writes only where [mem_stx_private] says *)
Lemma mem_run_stx_post : forall mode m r t,
  mem_post (mem_stx_private mode r t = false) False
    (fun mr => mem_wrote (mem_stx_private mode r t) m (fst mr) /\ length (lr_fields (snd mr)) = length (lr_fields r))
    (mem_run_stx mode m r t).
Proof.
  intros mode m r t.
  assert (Hset : forall b i v, length (lr_fields (if b : bool then mem_set_field r i v else r)) = length (lr_fields r)).
  { intros [|] i v; [apply mem_set_field_length|reflexivity]. }
  destruct t; cbn [mem_run_stx mem_stx_private].
  - split; [apply mem_wrote_refl|apply Hset].
  - split; [apply mem_wrote_refl|apply Hset].
  - destruct (concat _) as [|d data]; [split; [apply mem_wrote_refl|reflexivity]|].
    split; [apply mem_alloc_wrote|apply mem_set_field_length].
  - destruct (Nat.eqb _ 0); (split; [apply mem_wrote_refl|]); [reflexivity|apply mem_set_field_length].
  - destruct (mem_get_field r key) as [|p off len]; [destruct mode; split; try apply mem_wrote_refl; reflexivity|].
    destruct (Nat.ltb_spec (maxlen + length suffix) len) as [Hlt|_];
      [|destruct mode; split; try apply mem_wrote_refl; reflexivity].
    destruct mode.
    + eapply mem_post_bind; [apply mem_clean_post|]. intros [m1 tl] [Hw1 Htl].
      eapply mem_post_bind; [eapply mem_post_weaken; [apply mem_overwrite_post|auto|cbn in Htl; lia|intros a H; exact H]|].
      intros [m2 nl] [Hw2 _]. split; [eapply mem_wrote_trans; eauto|apply mem_set_field_length].
    + unfold mem_alloc. eapply mem_post_bind; [apply (mem_clean_post _ (EFresh _))|]. intros [m2 tl] [Hw2 _].
      split; [|apply mem_set_field_length].
      eapply mem_wrote_trans; [apply (mem_alloc_wrote true m)|]. eapply mem_wrote_trans; [exact Hw2|]. repeat split.
  - destruct (lr_unesc r); [split; [apply mem_wrote_refl|reflexivity]|].
    destruct (mem_index_byte 92 _); [|split; [apply mem_wrote_refl|reflexivity]].
    split; [apply mem_alloc_wrote|exact (mem_set_field_length (mem_with_unesc r true) _ _)].
  - split; [apply mem_wrote_refl|apply mem_delfields_length].
Qed.

Lemma mem_stx_private_copy : forall r t, mem_stx_private TruncCopy r t = true.
Proof. intros r [ | | | | | | ]; reflexivity. Qed.

Definition mem_tx_all (A : mem_stx -> Prop) (t : mem_tx) : Prop :=
  match t with TSimple s => A s | TIf _ body => Forall A body | TDrop _ => True end.

Lemma mem_tx_all_any : forall (A : mem_stx -> Prop) ts, (forall s, A s) -> Forall (mem_tx_all A) ts.
Proof. intros A ts H. apply Forall_forall. intros [s|cs body|cs] _; cbn; auto. apply Forall_forall. auto. Qed.

(* a property that every step keeps is kept by runs *)
Section Runs.
  Variables (mode : mem_trunc_mode) (A : mem_stx -> Prop) (I : mem_lmem -> mem_lrec -> Prop) (fault panic : Prop).
  Hypothesis step : forall m r t, A t -> I m r ->
    mem_post fault panic (fun mr => I (fst mr) (snd mr)) (mem_run_stx mode m r t).

  Lemma mem_run_stxs_post : forall ts m r, Forall A ts -> I m r ->
    mem_post fault panic (fun mr => I (fst mr) (snd mr)) (mem_run_stxs mode m r ts).
  Proof.
    induction ts as [|t ts IH]; intros m r Hall Hi; cbn; [exact Hi|]. inversion Hall; subst.
    eapply mem_post_bind; [apply step; assumption|]. intros [m1 r1] Hi1. apply IH; assumption.
  Qed.

  Lemma mem_run_txs_post : forall ts m r, Forall (mem_tx_all A) ts -> I m r ->
    mem_post fault panic (fun x => I (fst (fst x)) (snd (fst x))) (mem_run_txs mode m r ts).
  Proof.
    induction ts as [|t ts IH]; intros m r Hall Hi; cbn; [exact Hi|]. inversion Hall as [|t0 ts0 Ht Hts]; subst.
    destruct t as [t|conds body|conds]; cbn in Ht.
    - eapply mem_post_bind; [apply step; assumption|]. intros [m1 r1] Hi1. apply IH; assumption.
    - destruct (forallb _ conds); [|apply IH; assumption].
      eapply mem_post_bind; [apply mem_run_stxs_post; assumption|]. intros [m1 r1] Hi1. apply IH; assumption.
    - destruct (forallb _ conds); [exact Hi|apply IH; assumption].
  Qed.
End Runs.

Definition mem_mode_private (mode : mem_trunc_mode) : bool := match mode with TruncCopy => true | TruncInPlace => false end.

(* no transform panics; after the repair of defect 19 (truncate copies) none writes outside the record's own
   allocations and none can fault *)
Lemma mem_run_txs_wrote : forall mode ts m r,
  mem_post (mode = TruncInPlace) False
    (fun x => mem_wrote (mem_mode_private mode) m (fst (fst x)) /\ length (lr_fields (snd (fst x))) = length (lr_fields r))
    (mem_run_txs mode m r ts).
Proof.
  intros mode ts m r.
  apply (mem_run_txs_post mode (fun _ => True)
           (fun m' r' => mem_wrote (mem_mode_private mode) m m' /\ length (lr_fields r') = length (lr_fields r)));
    [|apply mem_tx_all_any; exact (fun _ => I)|split; [apply mem_wrote_refl|reflexivity]].
  intros m1 r1 t _ [Hw Hl].
  assert (Hp : mem_mode_private mode = true -> mem_stx_private mode r1 t = true)
    by (destruct mode; [discriminate|intros _; apply mem_stx_private_copy]).
  eapply mem_post_weaken; [apply mem_run_stx_post| |auto|].
  - intros E. destruct mode; [reflexivity|]. rewrite mem_stx_private_copy in E. discriminate.
  - intros [m2 r2] [Hw2 Hl2]. split; [|cbn in *; congruence].
    eapply mem_wrote_trans; [exact Hw|]. eapply mem_wrote_weaken; [exact Hp|exact Hw2].
Qed.

(* the serializer does not touch the fields *)
Lemma mem_rewrite_value_fields : forall f m r w v b r', mem_rewrite_value f m r w v = (b, r') -> lr_fields r' = lr_fields r.
Proof.
  intros f m r w v b r' H. unfold mem_rewrite_value in H.
  destruct (rw_unescape w); [destruct (lr_unesc r); [|destruct f]|]; inversion H; subst; reflexivity.
Qed.

Lemma mem_ser_fields_fields : forall f oc m fs r i l r', mem_ser_fields f oc m r i fs = (l, r') -> lr_fields r' = lr_fields r.
Proof.
  induction fs as [|v fs IH]; intros r i l r' H; cbn in H.
  - inversion H; reflexivity.
  - destruct (_ || _ || _)%bool; [eapply IH; eauto|].
    destruct (match mem_find_rw (oc_rewrite oc) i with Some w => mem_rewrite_value f m r w v | None => (mem_read m v, r) end) as [b r1] eqn:E1.
    destruct (mem_ser_fields f oc m r1 (S i) fs) as [rest r2] eqn:E2. inversion H; subst.
    apply IH in E2. rewrite E2.
    destruct (mem_find_rw (oc_rewrite oc) i); [eapply mem_rewrite_value_fields; eauto|inversion E1; reflexivity].
Qed.

Lemma mem_serialize_fields : forall f n oc m r d r', mem_serialize f n oc m r = (d, r') -> lr_fields r' = lr_fields r.
Proof.
  intros f n oc m r d r' H. unfold mem_serialize in H.
  destruct (mem_ser_fields f oc m r 0 (firstn n (lr_fields r))) as [vis r1] eqn:E. inversion H; subst.
  eapply mem_ser_fields_fields; eauto.
Qed.

(* The record alone: Parse, the extraction and the transformations run on a local memory that holds this record and the
   configuration as loaded, nothing else.  [mem_spec_at] is the state this reaches at each phase, [mem_spec_out] what
   output k decodes to, [mem_spec_status] what becomes of the record. *)

Definition mem_spec_m0 (c : mem_config) (input : bytes) : mem_lmem :=
  {| m_own := input; m_fresh := []; m_cfg := c_cfg_init c; m_dirty := false |}.
Definition mem_spec_r0 (c : mem_config) (input : bytes) (ts : Z) (u : bool) : mem_lrec :=
  {| lr_fields := repeat EEmpty (c_maxfields c); lr_rawlen := Z.of_nat (length input); lr_ts := ts; lr_unesc := u |}.

Inductive mem_stage :=
| SgStop (s : mem_stop)
| SgGone (st : mem_status) (m : mem_lmem) (r : mem_lrec)
| SgLive (m : mem_lmem) (r : mem_lrec).

Definition mem_after_txs (c : mem_config) (m : mem_lmem) (r : mem_lrec) (ts : list mem_tx) : mem_stage :=
  match mem_run_txs (c_trunc_mode c) m r ts with
  | ROk (m2, r2, true) => SgLive m2 r2
  | ROk (m2, r2, false) => SgGone StDropped m2 r2
  | bad => SgStop (mem_lres_stop bad)
  end.

Definition mem_spec_parsed (c : mem_config) (input : bytes) (ts : Z) (u : bool) : mem_stage :=
  match mem_parse (c_params c) (c_level_sites c) (mem_spec_m0 c input) (mem_spec_r0 c input ts u) with
  | ROk (m1, r1, PsMalformed, _) => SgGone StMalformed m1 r1
  | ROk (m1, r1, PsOk, _) => mem_after_txs c m1 r1 (c_extract c)
  | bad => SgStop (mem_lres_stop bad)
  end.

Definition mem_spec_transformed (c : mem_config) (input : bytes) (ts : Z) : mem_stage :=
  match mem_spec_parsed c input ts false with
  | SgLive m r => mem_after_txs c m r (c_transforms c)
  | x => x
  end.

(* the struct after the first k outputs have been serialized (memory is not written by the serializer) *)
Fixpoint mem_ser_upto (c : mem_config) (m : mem_lmem) (r : mem_lrec) (outs : list mem_outcfg) (k : nat) {struct k} : mem_lrec :=
  match k, outs with
  | S k', oc :: outs' => mem_ser_upto c m (snd (mem_serialize (c_rw_sets_flag c) (c_nfields c) oc m r)) outs' k'
  | _, _ => r
  end.

Definition mem_spec_at (c : mem_config) (input : bytes) (ts : Z) (ph : mem_phase) : option (mem_lmem * mem_lrec) :=
  match ph with
  | PhParsed => match mem_spec_parsed c input ts false with SgLive m r => Some (m, r) | _ => None end
  | PhOut k => match mem_spec_transformed c input ts with
               | SgLive m r => Some (m, mem_ser_upto c m r (c_outputs c) k)
               | _ => None
               end
  end.

(* what output k of the record alone decodes to *)
Definition mem_spec_out (c : mem_config) (input : bytes) (ts : Z) (k : nat) : option mem_decoded :=
  match mem_spec_transformed c input ts, nth_error (c_outputs c) k with
  | SgLive m r, Some oc => Some (fst (mem_serialize (c_rw_sets_flag c) (c_nfields c) oc m (mem_ser_upto c m r (c_outputs c) k)))
  | _, _ => None
  end.

Definition mem_spec_status (c : mem_config) (input : bytes) (ts : Z) : option mem_status :=
  match mem_spec_parsed c input ts false with
  | SgStop _ => None
  | SgGone st _ _ => Some st
  | SgLive _ _ =>
    match mem_spec_transformed c input ts with
    | SgStop _ => None
    | SgGone st _ _ => Some st
    | SgLive _ _ => Some StPassed
    end
  end.

(* the configuration memory is as loaded and no shared write happened *)
Definition mem_cfg_clean (c : mem_config) (m : mem_lmem) : Prop := m_cfg m = c_cfg_init c /\ m_dirty m = false.

Definition mem_stage_clean (c : mem_config) (s : mem_stage) : Prop :=
  match s with SgStop _ => True | SgGone _ m _ => mem_cfg_clean c m | SgLive m _ => mem_cfg_clean c m end.

(* THE HYPOTHESIS about in-place writers: processing any single record on a fresh pipeline leaves the
   shared configuration memory untouched (no in-place target is a configuration string) *)
Definition mem_targets_own (c : mem_config) : Prop :=
  forall input ts u, mem_stage_clean c (mem_spec_parsed c input ts u) /\ mem_stage_clean c (mem_spec_transformed c input ts).

Lemma mem_ser_upto_step : forall c m outs k r oc, nth_error outs k = Some oc ->
  mem_ser_upto c m r outs (S k) = snd (mem_serialize (c_rw_sets_flag c) (c_nfields c) oc m (mem_ser_upto c m r outs k)).
Proof.
  induction outs as [|o outs IH]; intros k r oc H.
  - destruct k; discriminate.
  - destruct k as [|k]; cbn in H.
    + inversion H; subst. reflexivity.
    + change (mem_ser_upto c m r (o :: outs) (S (S k))) with
        (mem_ser_upto c m (snd (mem_serialize (c_rw_sets_flag c) (c_nfields c) o m r)) outs (S k)).
      rewrite (IH k _ oc H). reflexivity.
Qed.

Lemma mem_ser_upto_0 : forall c m r outs, mem_ser_upto c m r outs 0 = r.
Proof. reflexivity. Qed.

Lemma mem_ser_upto_fields : forall c m outs k r, lr_fields (mem_ser_upto c m r outs k) = lr_fields r.
Proof.
  induction outs as [|o outs IH]; intros k r; destruct k; cbn; try reflexivity.
  rewrite IH. destruct (mem_serialize (c_rw_sets_flag c) (c_nfields c) o m r) as [d r'] eqn:E. cbn. eapply mem_serialize_fields; eauto.
Qed.

Definition mem_stage_all (I : mem_lmem -> mem_lrec -> Prop) (s : mem_stage) : Prop :=
  match s with SgStop _ => True | SgGone _ m r | SgLive m r => I m r end.

Lemma mem_stage_clean_eq : forall c, mem_stage_clean c = mem_stage_all (fun m _ => mem_cfg_clean c m).
Proof. reflexivity. Qed.

Lemma mem_stage_all_weaken : forall (I I' : mem_lmem -> mem_lrec -> Prop) s,
  (forall m r, I m r -> I' m r) -> mem_stage_all I s -> mem_stage_all I' s.
Proof. intros I I' [s|st m r|m r] H; cbn; auto. Qed.

Lemma mem_after_txs_all : forall c (I : mem_lmem -> mem_lrec -> Prop) m r ts,
  mem_post True True (fun x => I (fst (fst x)) (snd (fst x))) (mem_run_txs (c_trunc_mode c) m r ts) ->
  mem_stage_all I (mem_after_txs c m r ts).
Proof.
  intros c I m r ts H. unfold mem_after_txs. destruct (mem_run_txs _ m r ts) as [[[m2 r2] [|]]| |s]; exact H.
Qed.

(* a property of (memory, struct) that Parse and the transformations keep holds at every stage *)
Lemma mem_spec_stages_all : forall c input ts (I : mem_lmem -> mem_lrec -> Prop),
  (forall u, mem_post True True (fun x => I (fst (fst (fst x))) (snd (fst (fst x))))
               (mem_parse (c_params c) (c_level_sites c) (mem_spec_m0 c input) (mem_spec_r0 c input ts u))) ->
  (forall txs m r, txs = c_extract c \/ txs = c_transforms c -> I m r ->
     mem_post True True (fun x => I (fst (fst x)) (snd (fst x))) (mem_run_txs (c_trunc_mode c) m r txs)) ->
  (forall u, mem_stage_all I (mem_spec_parsed c input ts u)) /\ mem_stage_all I (mem_spec_transformed c input ts).
Proof.
  intros c input ts I Hparse Htxs.
  assert (Hp : forall u, mem_stage_all I (mem_spec_parsed c input ts u)).
  { intros u. unfold mem_spec_parsed. specialize (Hparse u).
    destruct (mem_parse _ _ _ _) as [[[[m1 r1] [|]] ov]| |s]; cbn in *; auto. apply mem_after_txs_all, Htxs; auto. }
  split; [exact Hp|]. unfold mem_spec_transformed. specialize (Hp false).
  destruct (mem_spec_parsed c input ts false) as [s|st m r|m r]; cbn in *; auto. apply mem_after_txs_all, Htxs; auto.
Qed.

(* with the repaired truncate the hypothesis holds for every configuration *)
Lemma mem_copy_mode_targets_own : forall c, c_trunc_mode c = TruncCopy -> mem_targets_own c.
Proof.
  intros c Hmode input ts u. rewrite mem_stage_clean_eq.
  destruct (mem_spec_stages_all c input ts (fun m _ => mem_cfg_clean c m)) as [Hp Ht].
  - intros u0. eapply mem_post_weaken; [apply (mem_parse_post (fun _ => True)); repeat split|auto..].
    intros [[[m1 r1] st] ov] [[_ Hk] _]. destruct (Hk eq_refl) as [E1 E2]. split; cbn in *; congruence.
  - intros txs m r _ [Hc Hd]. rewrite Hmode. eapply mem_post_weaken; [apply mem_run_txs_wrote|auto..].
    intros [[m2 r2] b] [[_ Hk] _]. destruct (Hk eq_refl) as [E1 E2]. split; cbn in *; congruence.
  - split; [apply Hp|exact Ht].
Qed.

(* the flag found in a recycled struct does not matter *)
Lemma mem_spec_parsed_unesc : forall c input ts u,
  mem_spec_parsed c input ts u =
  match mem_spec_parsed c input ts false with
  | SgGone StMalformed m r => SgGone StMalformed m (mem_with_unesc r u)
  | x => x
  end.
Proof.
  intros c input ts u. unfold mem_spec_parsed.
  change (mem_spec_r0 c input ts u) with (mem_with_unesc (mem_spec_r0 c input ts false) u).
  rewrite mem_parse_unesc.
  destruct (mem_parse _ _ _ (mem_spec_r0 c input ts false)) as [[[[m1 r1] st] ov]| |s]; try reflexivity.
  destruct st; [|reflexivity].
  unfold mem_after_txs. destruct (mem_run_txs _ m1 r1 _) as [[[m2 r2] b]| |s]; try reflexivity. destruct b; reflexivity.
Qed.

Definition mem_stage_shape (c : mem_config) (input : bytes) : mem_stage -> Prop :=
  mem_stage_all (fun m r => length (m_own m) = length input /\ length (lr_fields r) = c_maxfields c).

Lemma mem_spec_shape : forall c input ts,
  (forall u, mem_stage_shape c input (mem_spec_parsed c input ts u)) /\ mem_stage_shape c input (mem_spec_transformed c input ts).
Proof.
  intros c input ts. apply mem_spec_stages_all.
  - intros u. eapply mem_post_weaken; [apply (mem_parse_post _ _ _ _ _ (mem_fields_length_parser_inv (c_maxfields c)))|auto..].
    + apply repeat_length.
    + intros [[[m1 r1] st] ov] [[Hs _] Hl]. split; [exact Hs|exact Hl].
  - intros txs m r _ [H1 H2]. eapply mem_post_weaken; [apply mem_run_txs_wrote|auto..].
    intros [[m2 r2] b] [[Hs _] Hl]. unfold mem_same_shape in Hs. split; cbn in *; congruence.
Qed.

Lemma mem_spec_at_shape : forall c input ts ph m r, mem_spec_at c input ts ph = Some (m, r) ->
  length (m_own m) = length input /\ length (lr_fields r) = c_maxfields c.
Proof.
  intros c input ts ph m r H. destruct ph as [|k]; cbn in H.
  - pose proof (proj1 (mem_spec_shape c input ts) false) as Hs.
    destruct (mem_spec_parsed c input ts false); try discriminate. inversion H; subst. exact Hs.
  - pose proof (proj2 (mem_spec_shape c input ts)) as Hs.
    destruct (mem_spec_transformed c input ts); try discriminate. inversion H; subst.
    rewrite mem_ser_upto_fields. exact Hs.
Qed.

(* The invariant of the pipeline state: every live slot, read back as a local state ([mem_local_of]), is where the
   record alone is at that phase ([mem_spec_at] of its logged input); a buffer is held by one struct at a time, is not
   free while held and has the size of its class; the ghost lists hold what the record alone defines. *)

Definition mem_nout (c : mem_config) : nat := length (c_outputs c).

Definition mem_phase_refc (c : mem_config) (ph : mem_phase) : Z :=
  match ph with PhParsed => Z.of_nat (mem_nout c) | PhOut k => Z.of_nat (mem_nout c - k) end.

Definition mem_phase_ok (c : mem_config) (ph : mem_phase) : Prop :=
  match ph with PhParsed => True | PhOut k => k < mem_nout c end.

(* a struct in the pool carries nothing of its earlier uses - except the Unescaped flag *)
Definition mem_pooled_clean (c : mem_config) (r : mem_rstruct) : Prop :=
  r_fields r = repeat MEmpty (c_maxfields c) /\ r_rawlen r = 0%Z /\ r_ts r = 0%Z /\ r_backbuf r = None /\ r_refc r = 0%Z.

Definition mem_backbuf_ok (g : mem_gstate) (r : mem_rstruct) (n : nat) : Prop :=
  match r_backbuf r with
  | Some b => exists bf, nth_error (g_bufs g) b = Some bf /\ b_free bf = false /\ n <= length (b_data bf)
  | None => True
  end.

Definition mem_live_inv (c : mem_config) (g : mem_gstate) (r : mem_rstruct) (l : mem_live) : Prop :=
  exists input ts m lr,
    In (l_rid l, input, ts) (g_log g) /\ l_n l = length input /\
    mem_phase_ok c (l_phase l) /\ r_refc r = mem_phase_refc c (l_phase l) /\
    mem_local_of g r l = Some (m, lr) /\ mem_spec_at c input ts (l_phase l) = Some (m, lr) /\
    mem_backbuf_ok g r (l_n l).

Definition mem_slot_inv (c : mem_config) (g : mem_gstate) (s : mem_slot) : Prop :=
  match sl_state s with
  | SInPool => mem_pooled_clean c (sl_rec s)
  | SLive l => mem_live_inv c g (sl_rec s) l
  | SAbandoned => mem_backbuf_ok g (sl_rec s) 0
  end.

(* [x]: a slot that is being worked on and is exempt from mem_slot_inv *)
Record mem_inv_x (c : mem_config) (g : mem_gstate) (x : option nat) : Prop := {
  inv_cfg : g_cfg g = c_cfg_init c /\ g_dirty g = false;
  inv_slots : forall h s, Some h <> x -> nth_error (g_slots g) h = Some s -> mem_slot_inv c g s;
  inv_excl : forall h1 h2 s1 s2 b, h1 <> h2 -> nth_error (g_slots g) h1 = Some s1 -> nth_error (g_slots g) h2 = Some s2 ->
             r_backbuf (sl_rec s1) = Some b -> r_backbuf (sl_rec s2) = Some b -> False;
  inv_bufs : forall b bf, nth_error (g_bufs g) b = Some bf ->
             (b_class bf <= 31)%N /\ length (b_data bf) = N.to_nat (mem_class_size (b_class bf));
  inv_log : forall rid input ts, In (rid, input, ts) (g_log g) -> rid < g_next_rid g /\ (N.of_nat (length input) < 2 ^ 31)%N;
  inv_log_fun : forall rid i1 t1 i2 t2, In (rid, i1, t1) (g_log g) -> In (rid, i2, t2) (g_log g) -> i1 = i2 /\ t1 = t2;
  inv_out : forall rid k d, In (rid, k, d) (g_out g) ->
            exists input ts, In (rid, input, ts) (g_log g) /\ mem_spec_out c input ts k = Some d;
  inv_status : forall rid st, In (rid, st) (g_status g) ->
            exists input ts, In (rid, input, ts) (g_log g) /\ mem_spec_status c input ts = Some st
}.

Definition mem_inv (c : mem_config) (g : mem_gstate) : Prop := mem_inv_x c g None.

Lemma mem_inv_init : forall c, mem_inv c (mem_init c).
Proof.
  intros c. constructor; cbn; try (intros; contradiction); auto.
  - intros h s _ H. destruct h; discriminate.
  - intros h1 h2 s1 s2 b _ H. destruct h1; discriminate.
  - intros b bf H. destruct b; discriminate.
Qed.

Lemma mem_inv_x_close : forall c g h, mem_inv_x c g (Some h) ->
  (forall s, nth_error (g_slots g) h = Some s -> mem_slot_inv c g s) -> mem_inv c g.
Proof.
  intros c g h [Icfg Islots Iexcl Ibufs Ilog Ilogf Iout Istat] Hh. constructor; auto.
  intros h' s _ Hs. destruct (Nat.eq_dec h' h) as [->|N]; [apply Hh; exact Hs|eapply Islots; eauto; congruence].
Qed.

Lemma mem_inv_x_open : forall c g h, mem_inv c g -> mem_inv_x c g (Some h).
Proof.
  intros c g h [Icfg Islots Iexcl Ibufs Ilog Ilogf Iout Istat]. constructor; auto.
  intros h' s _ Hs. eapply Islots; eauto. discriminate.
Qed.

(* what a slot's invariant depends on *)
Definition mem_frame (g g' : mem_gstate) (ob : option nat) : Prop :=
  g_cfg g' = g_cfg g /\ g_dirty g' = g_dirty g /\ incl (g_log g) (g_log g') /\
  (forall b bf, ob = Some b -> nth_error (g_bufs g) b = Some bf -> nth_error (g_bufs g') b = Some bf).

Lemma mem_backbuf_ok_frame : forall g g' r n, mem_frame g g' (r_backbuf r) -> mem_backbuf_ok g r n -> mem_backbuf_ok g' r n.
Proof.
  intros g g' r n (_ & _ & _ & Hb) H. unfold mem_backbuf_ok in *. destruct (r_backbuf r) as [b|]; [|exact I].
  destruct H as (bf & H1 & H2 & H3). exists bf. split; [eapply Hb; eauto|auto].
Qed.

Lemma mem_backbuf_ok_weaken : forall g r n, mem_backbuf_ok g r n -> mem_backbuf_ok g r 0.
Proof.
  intros g r n H. unfold mem_backbuf_ok in *. destruct (r_backbuf r); [|exact I].
  destruct H as (bf & H1 & H2 & _). exists bf. repeat split; auto. lia.
Qed.

Lemma mem_own_view_eq : forall g r l, mem_own_view g r l =
  match r_backbuf r with Some b => firstn (l_n l) (b_data (nth b (g_bufs g) mem_dummy_buf)) | None => l_copy l end.
Proof. reflexivity. Qed.

Lemma mem_local_of_frame : forall g g' r l, mem_frame g g' (r_backbuf r) -> mem_backbuf_ok g r (l_n l) ->
  mem_local_of g' r l = mem_local_of g r l.
Proof.
  intros g g' r l (Hc & Hd & _ & Hb) Hok. unfold mem_local_of.
  destruct (mem_erase_fields (l_rid l) (r_fields r)); [|reflexivity].
  rewrite Hc, Hd. do 3 f_equal. rewrite !mem_own_view_eq. unfold mem_backbuf_ok in Hok.
  destruct (r_backbuf r) as [b|]; [|reflexivity].
  destruct Hok as (bf & H1 & _). pose proof (Hb b bf eq_refl H1) as H2.
  rewrite (nth_error_nth _ _ mem_dummy_buf H1), (nth_error_nth _ _ mem_dummy_buf H2). reflexivity.
Qed.

Lemma mem_slot_inv_frame : forall c g g' s, mem_frame g g' (r_backbuf (sl_rec s)) -> mem_slot_inv c g s -> mem_slot_inv c g' s.
Proof.
  intros c g g' s Hf H. unfold mem_slot_inv in *. destruct (sl_state s) as [|l|].
  - exact H.
  - destruct H as (input & ts & m & lr & H1 & H2 & H3 & H4 & H5 & H6 & H7).
    exists input, ts, m, lr. repeat split; auto.
    + destruct Hf as (_ & _ & Hi & _). apply Hi. exact H1.
    + rewrite (mem_local_of_frame g g'); auto.
    + eapply mem_backbuf_ok_frame; eauto.
  - eapply mem_backbuf_ok_frame; eauto.
Qed.

Lemma mem_slot_inv_backbuf : forall c g s b, mem_slot_inv c g s -> r_backbuf (sl_rec s) = Some b ->
  exists bf, nth_error (g_bufs g) b = Some bf /\ b_free bf = false.
Proof.
  intros c g s b H Hb. unfold mem_slot_inv in H. destruct (sl_state s) as [|l|].
  - destruct H as (_ & _ & _ & Hn & _). congruence.
  - destruct H as (input & ts & m & lr & _ & _ & _ & _ & _ & _ & Hok). unfold mem_backbuf_ok in Hok. rewrite Hb in Hok.
    destruct Hok as (bf & H1 & H2 & _). eauto.
  - unfold mem_backbuf_ok in H. rewrite Hb in H. destruct H as (bf & H1 & H2 & _). eauto.
Qed.

(* [mem_global_of] writes a local state back into slot h: read again ([mem_local_of]) it is that local state, and
   of the buffers only the record's own has changed (same class, same size) *)

Lemma mem_erase_tag_str : forall r s, mem_erase_str r (mem_tag_str r s) = Some s.
Proof.
  intros r [|p off len]; cbn; [reflexivity|].
  destruct p; cbn; rewrite ?Nat.eqb_refl; reflexivity.
Qed.

Lemma mem_erase_tag_fields : forall r fs, mem_erase_fields r (map (mem_tag_str r) fs) = Some fs.
Proof.
  induction fs as [|s fs IH]; cbn; [reflexivity|]. rewrite mem_erase_tag_str, IH. reflexivity.
Qed.

Lemma mem_erase_empty : forall r n, mem_erase_fields r (repeat MEmpty n) = Some (repeat EEmpty n).
Proof. induction n as [|n IH]; cbn; [reflexivity|]. rewrite IH. reflexivity. Qed.

Lemma mem_map_empty : forall {A} (l : list A), map (fun _ => MEmpty) l = repeat MEmpty (length l).
Proof. induction l as [|x l IH]; cbn; [reflexivity|]. rewrite IH. reflexivity. Qed.

Definition mem_go_rec (r : mem_rstruct) (rid : nat) (lr : mem_lrec) : mem_rstruct :=
  {| r_fields := map (mem_tag_str rid) (lr_fields lr); r_rawlen := lr_rawlen lr; r_ts := lr_ts lr;
     r_unesc := lr_unesc lr; r_backbuf := r_backbuf r; r_refc := r_refc r |}.

Definition mem_go_live (r : mem_rstruct) (l : mem_live) (ph : mem_phase) (m : mem_lmem) : mem_live :=
  {| l_rid := l_rid l; l_n := l_n l; l_copy := match r_backbuf r with Some _ => l_copy l | None => m_own m end;
     l_fresh := m_fresh m; l_phase := ph |}.

Definition mem_go_bufs (bufs : list mem_buf) (r : mem_rstruct) (l : mem_live) (m : mem_lmem) : list mem_buf :=
  match r_backbuf r with
  | Some b =>
    let old := nth b bufs mem_dummy_buf in
    mem_list_set bufs b {| b_data := m_own m ++ skipn (l_n l) (b_data old); b_class := b_class old;
                           b_free := b_free old; b_gen := b_gen old |}
  | None => bufs
  end.

Lemma mem_global_of_eq : forall g h r l ph m lr,
  mem_global_of g h r l ph m lr =
  {| g_slots := mem_list_set (g_slots g) h {| sl_rec := mem_go_rec r (l_rid l) lr; sl_state := SLive (mem_go_live r l ph m) |};
     g_bufs := mem_go_bufs (g_bufs g) r l m; g_cfg := m_cfg m; g_dirty := m_dirty m; g_next_rid := g_next_rid g;
     g_log := g_log g; g_status := g_status g; g_out := g_out g |}.
Proof.
  intros. unfold mem_global_of, mem_store_own, mem_go_bufs, mem_go_live, mem_go_rec, mem_upd_slot.
  destruct (r_backbuf r); reflexivity.
Qed.

Lemma mem_global_of_log : forall g h r l ph m lr, g_log (mem_global_of g h r l ph m lr) = g_log g.
Proof. intros. rewrite mem_global_of_eq. reflexivity. Qed.

Lemma mem_global_of_out : forall g h r l ph m lr, g_out (mem_global_of g h r l ph m lr) = g_out g.
Proof. intros. rewrite mem_global_of_eq. reflexivity. Qed.

Lemma mem_slot_nth_global_of : forall g h r l ph m lr s0, nth_error (g_slots g) h = Some s0 ->
  nth_error (g_slots (mem_global_of g h r l ph m lr)) h =
  Some {| sl_rec := mem_go_rec r (l_rid l) lr; sl_state := SLive (mem_go_live r l ph m) |}.
Proof.
  intros. rewrite mem_global_of_eq. cbn. apply mem_list_set_nth_eq. apply nth_error_Some. congruence.
Qed.

Lemma mem_go_rec_fields_length : forall r rid lr, length (r_fields (mem_go_rec r rid lr)) = length (lr_fields lr).
Proof. intros. cbn. apply map_length. Qed.

Lemma mem_local_of_global_of : forall g h r l ph m lr,
  mem_backbuf_ok g r (l_n l) -> length (m_own m) = l_n l ->
  mem_local_of (mem_global_of g h r l ph m lr) (mem_go_rec r (l_rid l) lr) (mem_go_live r l ph m) = Some (m, lr).
Proof.
  intros g h r l ph m lr Hok Hlen. rewrite mem_global_of_eq.
  unfold mem_local_of. cbn [l_rid mem_go_live mem_go_rec r_fields]. rewrite mem_erase_tag_fields.
  cbn. f_equal. f_equal.
  - destruct m as [own fresh cfg dirty]. cbn in *. f_equal.
    rewrite mem_own_view_eq. unfold mem_go_bufs, mem_backbuf_ok in *. cbn.
    destruct (r_backbuf r) as [b|]; [|reflexivity].
    destruct Hok as (bf & H1 & _ & _).
    assert (Hb : b < length (g_bufs g)) by (apply nth_error_Some; congruence).
    rewrite mem_list_set_nth_default_eq by exact Hb. cbn. rewrite <- Hlen. apply firstn_length_app.
  - destruct lr; reflexivity.
Qed.

Lemma mem_go_bufs_other : forall bufs r l m b, r_backbuf r <> Some b -> nth_error (mem_go_bufs bufs r l m) b = nth_error bufs b.
Proof.
  intros bufs r l m b H. unfold mem_go_bufs. destruct (r_backbuf r) as [b'|]; [|reflexivity].
  apply mem_list_set_nth_neq. congruence.
Qed.

Lemma mem_go_bufs_same : forall bufs r l m b bf, r_backbuf r = Some b -> nth_error bufs b = Some bf ->
  length (m_own m) = l_n l -> l_n l <= length (b_data bf) ->
  exists bf', nth_error (mem_go_bufs bufs r l m) b = Some bf' /\ b_class bf' = b_class bf /\ b_free bf' = b_free bf /\
              length (b_data bf') = length (b_data bf).
Proof.
  intros bufs r l m b bf H H1 Hlen Hn. unfold mem_go_bufs. rewrite H.
  assert (Hb : b < length bufs) by (apply nth_error_Some; congruence).
  rewrite (nth_error_nth _ _ mem_dummy_buf H1).
  eexists. split; [apply mem_list_set_nth_eq; exact Hb|]. cbn. repeat split.
  rewrite app_length, skipn_length. lia.
Qed.

Lemma mem_go_bufs_length : forall bufs r l m, length (mem_go_bufs bufs r l m) = length bufs.
Proof. intros. unfold mem_go_bufs. destruct (r_backbuf r); [apply mem_list_set_length|reflexivity]. Qed.

Lemma mem_backbuf_ok_global_of : forall g h r l ph m lr n,
  mem_backbuf_ok g r n -> length (m_own m) = l_n l -> l_n l <= n ->
  mem_backbuf_ok (mem_global_of g h r l ph m lr) (mem_go_rec r (l_rid l) lr) n.
Proof.
  intros g h r l ph m lr n Hok Hlen Hn. rewrite mem_global_of_eq. unfold mem_backbuf_ok in *. cbn.
  destruct (r_backbuf r) as [b|] eqn:Eb; [|exact I].
  destruct Hok as (bf & H1 & H2 & H3).
  destruct (mem_go_bufs_same (g_bufs g) r l m b bf Eb H1 Hlen) as (bf' & Hn' & _ & Hf & Hl'); [lia|].
  exists bf'. repeat split; [exact Hn'|congruence|lia].
Qed.

Definition mem_with_slot (g : mem_gstate) (h : nat) (s : mem_slot) (bufs : list mem_buf) : mem_gstate :=
  {| g_slots := mem_list_set (g_slots g) h s; g_bufs := bufs; g_cfg := g_cfg g; g_dirty := g_dirty g;
     g_next_rid := g_next_rid g; g_log := g_log g; g_status := g_status g; g_out := g_out g |}.

(* slot h is replaced; the other slots are those of g, none of them holds the buffer of the new slot, and their
   buffers are untouched: they keep their invariant *)
Lemma mem_inv_x_replace : forall c g x h s' slots bufs log n,
  mem_inv_x c g x -> (x = None \/ x = Some h) -> h < length slots ->
  (forall h' s, h' <> h -> nth_error slots h' = Some s -> nth_error (g_slots g) h' = Some s) ->
  (forall h' s b, h' <> h -> nth_error (g_slots g) h' = Some s -> r_backbuf (sl_rec s) = Some b ->
     r_backbuf (sl_rec s') <> Some b /\ nth_error bufs b = nth_error (g_bufs g) b) ->
  (forall b bf, nth_error bufs b = Some bf -> (b_class bf <= 31)%N /\ length (b_data bf) = N.to_nat (mem_class_size (b_class bf))) ->
  incl (g_log g) log ->
  (forall rid input ts, In (rid, input, ts) log -> rid < n /\ (N.of_nat (length input) < 2 ^ 31)%N) ->
  (forall rid i1 t1 i2 t2, In (rid, i1, t1) log -> In (rid, i2, t2) log -> i1 = i2 /\ t1 = t2) ->
  mem_inv_x c {| g_slots := mem_list_set slots h s'; g_bufs := bufs; g_cfg := g_cfg g; g_dirty := g_dirty g;
                 g_next_rid := n; g_log := log; g_status := g_status g; g_out := g_out g |} (Some h).
Proof.
  intros c g x h s' slots bufs log n [Icfg Islots Iexcl Ibufs Ilog Ilogf Iout Istat] Hx Hh Hsl Hoth Hbufs Hincl Hlog Hlogf.
  constructor; cbn; auto.
  - intros h' s Hne Hs. assert (Hne' : h' <> h) by congruence. rewrite mem_list_set_nth_neq in Hs by congruence.
    apply Hsl in Hs; [|exact Hne'].
    eapply mem_slot_inv_frame; [|apply (Islots h' s); [destruct Hx as [->| ->]; congruence|exact Hs]].
    unfold mem_frame; cbn. repeat split; auto.
    intros b bf Hb Hnth. rewrite (proj2 (Hoth h' s b Hne' Hs Hb)). exact Hnth.
  - intros h1 h2 s1 s2 b Hne H1 H2 Hb1 Hb2.
    destruct (Nat.eq_dec h1 h) as [->|N1]; destruct (Nat.eq_dec h2 h) as [->|N2]; try congruence.
    + rewrite mem_list_set_nth_eq in H1 by exact Hh. inversion H1; subst s1.
      rewrite mem_list_set_nth_neq in H2 by congruence. exact (proj1 (Hoth h2 s2 b N2 (Hsl _ _ N2 H2) Hb2) Hb1).
    + rewrite mem_list_set_nth_eq in H2 by exact Hh. inversion H2; subst s2.
      rewrite mem_list_set_nth_neq in H1 by congruence. exact (proj1 (Hoth h1 s1 b N1 (Hsl _ _ N1 H1) Hb1) Hb2).
    + rewrite mem_list_set_nth_neq in H1 by congruence. rewrite mem_list_set_nth_neq in H2 by congruence.
      eapply (Iexcl h1 h2); eauto.
  - intros rid k d Hin. destruct (Iout _ _ _ Hin) as (i & t & Hi & Ho). exists i, t. auto.
  - intros rid st Hin. destruct (Istat _ _ Hin) as (i & t & Hi & Ho). exists i, t. auto.
Qed.

(* the new slot takes no buffer the old one did not hold, and only that buffer is rewritten (same class, same size) *)
Lemma mem_inv_x_with_slot : forall c g x h s0 s' bufs,
  mem_inv_x c g x -> (x = None \/ x = Some h) -> nth_error (g_slots g) h = Some s0 ->
  (forall b, r_backbuf (sl_rec s') = Some b -> r_backbuf (sl_rec s0) = Some b) ->
  (forall b, r_backbuf (sl_rec s0) <> Some b -> nth_error bufs b = nth_error (g_bufs g) b) ->
  (forall b bf, r_backbuf (sl_rec s0) = Some b -> nth_error bufs b = Some bf ->
     exists bf0, nth_error (g_bufs g) b = Some bf0 /\ b_class bf = b_class bf0 /\ length (b_data bf) = length (b_data bf0)) ->
  mem_inv_x c (mem_with_slot g h s' bufs) (Some h).
Proof.
  intros c g x h s0 s' bufs Hinv Hx Hs0 Hbb Hother Hown.
  assert (Hex : forall h' s b, h' <> h -> nth_error (g_slots g) h' = Some s -> r_backbuf (sl_rec s) = Some b ->
                               r_backbuf (sl_rec s0) <> Some b)
    by (intros h' s b Hne Hs Hb E; apply (inv_excl _ _ _ Hinv h h' s0 s b); auto).
  apply (mem_inv_x_replace c g x h s' (g_slots g) bufs (g_log g) (g_next_rid g) Hinv Hx); auto.
  - apply nth_error_Some. congruence.
  - intros h' s b Hne Hs Hb. split; [intros E; exact (Hex h' s b Hne Hs Hb (Hbb b E))|apply Hother; eapply Hex; eauto].
  - intros b bf Hnth.
    assert (Hd : r_backbuf (sl_rec s0) = Some b \/ r_backbuf (sl_rec s0) <> Some b).
    { destruct (r_backbuf (sl_rec s0)) as [b0|]; [|right; discriminate].
      destruct (Nat.eq_dec b0 b) as [->|]; [left; reflexivity|right; congruence]. }
    destruct Hd as [E|E].
    + destruct (Hown b bf E Hnth) as (bf0 & Hn0 & -> & ->). eapply (inv_bufs _ _ _ Hinv); eauto.
    + rewrite Hother in Hnth by exact E. eapply (inv_bufs _ _ _ Hinv); eauto.
  - apply incl_refl.
  - apply (inv_log _ _ _ Hinv).
  - apply (inv_log_fun _ _ _ Hinv).
Qed.

(* a slot replaced by one that holds the same buffer, no buffer touched *)
Lemma mem_inv_x_same_bufs : forall c g h s0 s',
  mem_inv_x c g (Some h) -> nth_error (g_slots g) h = Some s0 -> r_backbuf (sl_rec s') = r_backbuf (sl_rec s0) ->
  mem_inv_x c (mem_with_slot g h s' (g_bufs g)) (Some h).
Proof.
  intros c g h s0 s' Hinv Hs Hb. apply (mem_inv_x_with_slot c g (Some h) h s0); auto; [congruence|].
  intros b bf _ H. exists bf. auto.
Qed.

Lemma mem_global_of_inv : forall c g x0 h s0 r l ph m lr,
  mem_inv_x c g x0 -> (x0 = None \/ x0 = Some h) ->
  nth_error (g_slots g) h = Some s0 -> r_backbuf r = r_backbuf (sl_rec s0) ->
  mem_backbuf_ok g r (l_n l) -> length (m_own m) = l_n l -> mem_cfg_clean c m ->
  mem_inv_x c (mem_global_of g h r l ph m lr) (Some h).
Proof.
  intros c g x0 h s0 r l ph m lr Hinv Hx Hs0 Hbb Hok Hlen [Hc1 Hc2].
  destruct (inv_cfg _ _ _ Hinv) as [Icfg Idirty].
  rewrite mem_global_of_eq, Hc1, Hc2, <- Icfg, <- Idirty.
  apply (mem_inv_x_with_slot c g x0 h s0 _ _ Hinv Hx Hs0); cbn.
  - congruence.
  - intros b Hb. apply mem_go_bufs_other. congruence.
  - intros b bf Hb Hnth. unfold mem_backbuf_ok in Hok. rewrite Hbb, Hb in Hok. destruct Hok as (bf0 & Hn0 & _ & Hle).
    destruct (mem_go_bufs_same (g_bufs g) r l m b bf0 ltac:(congruence) Hn0 Hlen Hle) as (bf' & Hn' & Hcl & _ & Hl').
    exists bf0. split; [exact Hn0|]. split; congruence.
Qed.

Definition mem_with_refc (r : mem_rstruct) (rc : Z) : mem_rstruct :=
  {| r_fields := r_fields r; r_rawlen := r_rawlen r; r_ts := r_ts r; r_unesc := r_unesc r; r_backbuf := r_backbuf r; r_refc := rc |}.

(* other references remain: only the count changes *)
Lemma mem_release_more : forall g h r st, nth_error (g_slots g) h = Some {| sl_rec := r; sl_state := st |} -> (1 < r_refc r)%Z ->
  mem_release g h = StepOk (mem_with_slot g h {| sl_rec := mem_with_refc r (r_refc r - 1); sl_state := st |} (g_bufs g)).
Proof.
  intros g h r st H Hrc. unfold mem_release. rewrite H. cbn.
  replace (r_refc r - 1 <? 0)%Z with false by lia. replace (0 <? r_refc r - 1)%Z with true by lia. reflexivity.
Qed.

Lemma mem_local_of_refc : forall g r l rc, mem_local_of g (mem_with_refc r rc) l = mem_local_of g r l.
Proof. reflexivity. Qed.

(* the last reference: the struct is cleared and goes to the pool, its buffer to the pool of its class *)
Lemma mem_release_last_inv : forall c g h r st,
  mem_inv_x c g (Some h) -> nth_error (g_slots g) h = Some {| sl_rec := r; sl_state := st |} ->
  r_refc r = 1%Z -> length (r_fields r) = c_maxfields c -> mem_backbuf_ok g r 0 ->
  exists r' bufs, mem_release g h = StepOk (mem_with_slot g h {| sl_rec := r'; sl_state := SInPool |} bufs) /\
                  mem_inv c (mem_with_slot g h {| sl_rec := r'; sl_state := SInPool |} bufs).
Proof.
  intros c g h r st Hinv Hs Hrc Hlen Hok.
  assert (Hh : h < length (g_slots g)) by (apply nth_error_Some; congruence).
  unfold mem_release. rewrite Hs. cbn [sl_rec]. rewrite Hrc.
  change (1 - 1 <? 0)%Z with false. change (0 <? 1 - 1)%Z with false. cbn iota.
  set (cleared := {| r_fields := map (fun _ => MEmpty) (r_fields r); r_rawlen := 0; r_ts := 0; r_unesc := r_unesc r;
                     r_backbuf := None; r_refc := (1 - 1)%Z |}).
  assert (Hclose : forall bufs, mem_inv_x c (mem_with_slot g h {| sl_rec := cleared; sl_state := SInPool |} bufs) (Some h) ->
                                mem_inv c (mem_with_slot g h {| sl_rec := cleared; sl_state := SInPool |} bufs)).
  { intros bufs Hx. apply (mem_inv_x_close c _ h Hx). intros s Hs'. cbn in Hs'. rewrite mem_list_set_nth_eq in Hs' by exact Hh.
    inversion Hs'; subst s. unfold mem_slot_inv, mem_pooled_clean, cleared; cbn. rewrite mem_map_empty, Hlen. auto. }
  exists cleared. unfold mem_backbuf_ok in Hok. destruct (r_backbuf r) as [b|] eqn:Eb.
  - destruct Hok as (bf & Hnb & Hfree & _).
    rewrite (nth_error_nth _ _ mem_dummy_buf Hnb).
    destruct (inv_bufs _ _ _ Hinv b bf Hnb) as [Hcl Hl].
    assert (Hput : mem_put_class (N.of_nat (length (b_data bf))) = Ok (b_class bf)).
    { rewrite Hl, N2Nat.id. apply mem_put_class_pow2. exact Hcl. }
    rewrite Hput. eexists. split; [reflexivity|]. apply Hclose.
    apply (mem_inv_x_with_slot c g (Some h) h _ _ _ Hinv (or_intror eq_refl) Hs); cbn.
    + discriminate.
    + intros b' Hb'. apply mem_list_set_nth_neq. congruence.
    + intros b' bf' Hb' Hn'. rewrite Eb in Hb'. inversion Hb'; subst b'.
      rewrite mem_list_set_nth_eq in Hn' by (apply nth_error_Some; congruence). inversion Hn'; subst bf'. exists bf. auto.
  - exists (g_bufs g). split; [reflexivity|]. apply Hclose.
    apply (mem_inv_x_with_slot c g (Some h) h _ _ _ Hinv (or_intror eq_refl) Hs); cbn; auto; [discriminate|].
    intros b' bf' Hb'. rewrite Eb in Hb'. discriminate.
Qed.

Lemma mem_inv_set_status : forall c g rid st, mem_inv c g ->
  (exists input ts, In (rid, input, ts) (g_log g) /\ mem_spec_status c input ts = Some st) ->
  mem_inv c (mem_set_status g rid st).
Proof.
  intros c g rid st [Icfg Islots Iexcl Ibufs Ilog Ilogf Iout Istat] Hst. constructor; cbn; try assumption.
  intros rid' st' Hin. apply in_app_or in Hin. destruct Hin as [Hin|[Heq|[]]]; [eapply Istat; eauto|].
    inversion Heq; subst. exact Hst.
Qed.

Lemma mem_abandon_inv : forall c g h r l,
  mem_inv_x c g (Some h) -> nth_error (g_slots g) h = Some {| sl_rec := r; sl_state := SLive l |} ->
  mem_backbuf_ok g r 0 -> mem_inv c (mem_abandon_if_live g h).
Proof.
  intros c g h r l Hinv Hs Hok. unfold mem_abandon_if_live. rewrite Hs.
  apply (mem_inv_x_close c _ h).
  - apply (mem_inv_x_same_bufs c g h _ _ Hinv Hs). reflexivity.
  - intros s Hs'. cbn in Hs'. unfold mem_upd_slot in Hs'.
    rewrite mem_list_set_nth_eq in Hs' by (apply nth_error_Some; congruence). inversion Hs'; subst s. exact Hok.
Qed.

(* Release of a record its holder gives up (malformed, dropped): with one output it is recycled,
   with several outputs the other references are never released - the record is left to the
   garbage collector and never enters a pool *)
Lemma mem_release_final_inv : forall c g h r l rid st,
  mem_inv_x c g (Some h) -> nth_error (g_slots g) h = Some {| sl_rec := r; sl_state := SLive l |} ->
  r_refc r = Z.of_nat (mem_nout c) -> 1 <= mem_nout c -> length (r_fields r) = c_maxfields c ->
  mem_backbuf_ok g r (l_n l) ->
  (exists input ts, In (rid, input, ts) (g_log g) /\ mem_spec_status c input ts = Some st) ->
  exists g', mem_release_final g h rid st = StepOk g' /\ mem_inv c g'.
Proof.
  intros c g h r l rid st Hinv Hs Hrc Hn Hlen Hok Hst.
  assert (Hh : h < length (g_slots g)) by (apply nth_error_Some; congruence).
  unfold mem_release_final.
  destruct (Nat.eq_dec (mem_nout c) 1) as [E1|N1].
  - destruct (mem_release_last_inv c g h r (SLive l) Hinv Hs) as (r' & bufs & Hrel & Hinv');
      [rewrite Hrc, E1; reflexivity|exact Hlen|eapply mem_backbuf_ok_weaken; eauto|].
    rewrite Hrel. eexists. split; [reflexivity|].
    unfold mem_abandon_if_live. cbn [g_slots mem_with_slot]. rewrite mem_list_set_nth_eq by exact Hh.
    apply mem_inv_set_status; [exact Hinv'|exact Hst].
  - rewrite (mem_release_more g h r (SLive l) Hs) by lia.
    eexists. split; [reflexivity|].
    apply mem_inv_set_status; [|unfold mem_abandon_if_live; cbn; rewrite mem_list_set_nth_eq by exact Hh; exact Hst].
    eapply mem_abandon_inv.
    + eapply mem_inv_x_same_bufs; eauto.
    + cbn. apply mem_list_set_nth_eq. exact Hh.
    + eapply mem_backbuf_ok_weaken. exact Hok.
Qed.

(* the record in slot h is written back in the state the record alone reaches at phase [ph] *)
Lemma mem_write_back_inv : forall c g x h s0 r l input ts ph m2 lr2,
  mem_inv_x c g x -> (x = None \/ x = Some h) -> nth_error (g_slots g) h = Some s0 -> r_backbuf r = r_backbuf (sl_rec s0) ->
  mem_backbuf_ok g r (l_n l) -> In (l_rid l, input, ts) (g_log g) -> l_n l = length input ->
  mem_phase_ok c ph -> r_refc r = mem_phase_refc c ph -> mem_cfg_clean c m2 ->
  mem_spec_at c input ts ph = Some (m2, lr2) -> mem_inv c (mem_global_of g h r l ph m2 lr2).
Proof.
  intros c g x h s0 r l input ts ph m2 lr2 Hinv Hx Hs0 Hbb Hok Hlog Hn Hph Hrc Hcl Hspec.
  assert (Hlen : length (m_own m2) = l_n l) by (rewrite Hn; apply (mem_spec_at_shape _ _ _ _ _ _ Hspec)).
  eapply mem_inv_x_close.
  - eapply (mem_global_of_inv c g x h); eauto.
  - intros s Hs'. rewrite (mem_slot_nth_global_of g h r l ph m2 lr2 _ Hs0) in Hs'. inversion Hs'; subst s.
    exists input, ts, m2, lr2. cbn [l_rid l_n l_phase mem_go_live sl_rec]. rewrite mem_global_of_log.
    repeat split; try assumption; [apply mem_local_of_global_of; assumption|apply mem_backbuf_ok_global_of; auto].
Qed.

(* a stage of the record held in slot h ends: the result is written back, or the record is given up *)
Lemma mem_stage_finish : forall c g x h s0 r l input ts ph sg,
  mem_inv_x c g x -> (x = None \/ x = Some h) -> nth_error (g_slots g) h = Some s0 -> r_backbuf r = r_backbuf (sl_rec s0) ->
  mem_backbuf_ok g r (l_n l) -> In (l_rid l, input, ts) (g_log g) -> l_n l = length input ->
  r_refc r = Z.of_nat (mem_nout c) -> 1 <= mem_nout c -> mem_phase_ok c ph -> mem_phase_refc c ph = Z.of_nat (mem_nout c) ->
  mem_stage_clean c sg -> mem_stage_shape c input sg ->
  (forall m2 lr2, sg = SgLive m2 lr2 -> mem_spec_at c input ts ph = Some (m2, lr2)) ->
  (forall st m2 lr2, sg = SgGone st m2 lr2 -> mem_spec_status c input ts = Some st) ->
  match sg with
  | SgLive m2 lr2 => mem_inv c (mem_global_of g h r l ph m2 lr2)
  | SgGone st m2 lr2 =>
    exists g', mem_release_final (mem_global_of g h r l PhParsed m2 lr2) h (l_rid l) st = StepOk g' /\ mem_inv c g'
  | SgStop _ => True
  end.
Proof.
  intros c g x h s0 r l input ts ph sg Hinv Hx Hs0 Hbb Hok Hlog Hn Hrc Hn1 Hph Hphrc Hcl Hsh Hlive Hgone.
  destruct sg as [s|st m2 lr2|m2 lr2]; [exact I| |]; destruct Hsh as [Hsh1 Hsh2];
    assert (Hlen : length (m_own m2) = l_n l) by congruence.
  - destruct (mem_release_final_inv c (mem_global_of g h r l PhParsed m2 lr2) h
                (mem_go_rec r (l_rid l) lr2) (mem_go_live r l PhParsed m2) (l_rid l) st) as (g' & Hrel & Hinv').
    + eapply (mem_global_of_inv c g x h); eauto.
    + eapply mem_slot_nth_global_of; eauto.
    + exact Hrc.
    + exact Hn1.
    + rewrite mem_go_rec_fields_length. exact Hsh2.
    + apply mem_backbuf_ok_global_of; auto.
    + exists input, ts. split; [rewrite mem_global_of_log; exact Hlog|]. eapply Hgone; reflexivity.
    + exists g'. split; assumption.
  - eapply mem_write_back_inv; eauto. congruence.
Qed.

(* One lemma per event ([mem_step_parse_spec], [mem_step_transform_spec], [mem_step_output_full]): the step does to the
   slot what the next stage of the record alone does to the local state, and the invariant holds again. *)

Lemma mem_class_fits_nat : forall n cl, (N.of_nat n < 2 ^ 31)%N -> mem_get_class (N.of_nat n) = Ok cl ->
  (cl <= 31)%N /\ n <= N.to_nat (mem_class_size cl).
Proof.
  intros n cl Hlt Hg. destruct (mem_get_class_sound _ Hlt) as (c' & Hg' & Hc & Hfit & _).
  rewrite Hg in Hg'. inversion Hg'; subst c'. split; [exact Hc|]. lia.
Qed.

(* buffer [b] of [bufs] is the only one that differs from those of [g], where it was free or did not exist; it is
   taken, has the size of its class and starts with the input *)
Definition mem_buf_taken (g : mem_gstate) (bufs : list mem_buf) (input : bytes) (b : nat) (bf : mem_buf) : Prop :=
  nth_error bufs b = Some bf /\
  (forall b', b' <> b -> nth_error bufs b' = nth_error (g_bufs g) b') /\
  (forall bf0, nth_error (g_bufs g) b = Some bf0 -> b_free bf0 = true) /\
  b_free bf = false /\ (b_class bf <= 31)%N /\ length (b_data bf) = N.to_nat (mem_class_size (b_class bf)) /\
  firstn (length input) (b_data bf) = input /\ length input <= length (b_data bf).

(* LogAllocator.NewRecord: the struct comes clean from the pool or is new, no other slot changes; the buffer, if any, is
   new or was free, no other buffer is touched, and it holds the input *)
Lemma mem_new_record_cases : forall c g cs cb input h r bufs cpy slots,
  mem_inv c g -> (N.of_nat (length input) < 2 ^ 31)%N ->
  mem_new_record c g cs cb input = inl (Some (h, r, bufs, cpy, slots)) ->
  h < length slots /\ (forall h' s, h' <> h -> nth_error slots h' = Some s -> nth_error (g_slots g) h' = Some s) /\
  r_fields r = repeat MEmpty (c_maxfields c) /\ r_refc r = Z.of_nat (mem_nout c) /\
  ( (r_backbuf r = None /\ bufs = g_bufs g /\ cpy = input)
    \/ (exists b bf, r_backbuf r = Some b /\ mem_buf_taken g bufs input b bf) ).
Proof.
  intros c g cs cb input h r bufs cpy slots Hinv Hsize H. unfold mem_new_record in H.
  destruct (match cs with Some h0 => _ | None => _ end) as [[[h0 r0] sl0]|] eqn:Ep; [|discriminate].
  assert (Hp : mem_pooled_clean c r0 /\ h0 < length sl0 /\
               forall h' s, h' <> h0 -> nth_error sl0 h' = Some s -> nth_error (g_slots g) h' = Some s).
  { destruct cs as [hc|].
    - destruct (nth_error (g_slots g) hc) as [[r1 [|l1|]]|] eqn:E; try discriminate. inversion Ep; subst.
      split; [apply (inv_slots _ _ _ Hinv h0 _ ltac:(discriminate) E)|]. split; [apply nth_error_Some; congruence|auto].
    - inversion Ep; subst. split; [unfold mem_pooled_clean; cbn; auto|]. split; [rewrite app_length; cbn; lia|].
      intros h' s Hne Hs. rewrite mem_nth_error_snoc in Hs by exact Hne. exact Hs. }
  destruct Hp as ((Cf & _ & _ & Cbb & Crc) & Hh & Hsl). clear Ep.
  destruct (p_min_pool (c_params c) <? N.of_nat (length input))%N.
  - destruct (mem_get_class (N.of_nat (length input))) as [cl|e|p] eqn:Eg; try discriminate.
    destruct (mem_class_fits_nat _ _ Hsize Eg) as [Hcl Hfit].
    destruct cb as [b|].
    + destruct (nth_error (g_bufs g) b) as [old|] eqn:Eb; [|discriminate].
      destruct (b_free old && (b_class old =? cl)%N)%bool eqn:Ef; [|discriminate].
      apply andb_true_iff in Ef. destruct Ef as [Ef1 Ef2]. apply N.eqb_eq in Ef2.
      destruct (inv_bufs _ _ _ Hinv b old Eb) as [_ Hlo]. rewrite Ef2 in Hlo.
      injection H; intros; subst. cbn. rewrite Crc. repeat (split; [assumption || reflexivity|]).
      right. exists b. eexists. split; [reflexivity|]. unfold mem_buf_taken.
      split; [apply mem_list_set_nth_eq, nth_error_Some; congruence|].
      split; [intros b' Hb'; apply mem_list_set_nth_neq; congruence|]. split; [congruence|]. cbn.
      rewrite (firstn_all2 input) by (rewrite Hlo; exact Hfit). repeat split; auto.
      * rewrite app_length, skipn_length, Hlo, Nat.add_comm. apply Nat.sub_add. exact Hfit.
      * apply firstn_length_app.
      * rewrite app_length. apply Nat.le_add_r.
    + injection H; intros; subst. cbn. rewrite Crc. repeat (split; [assumption || reflexivity|]).
      right. exists (length (g_bufs g)). eexists. split; [reflexivity|]. unfold mem_buf_taken.
      split; [rewrite nth_error_app2 by apply Nat.le_refl; rewrite Nat.sub_diag; reflexivity|].
      split; [intros b' Hb'; apply mem_nth_error_snoc; exact Hb'|].
      split; [intros bf0 Hn0; exfalso; apply (Nat.lt_irrefl (length (g_bufs g))), nth_error_Some; congruence|]. cbn.
      repeat split; auto.
      * rewrite app_length, repeat_length, Nat.add_comm. apply Nat.sub_add. exact Hfit.
      * apply firstn_length_app.
      * rewrite app_length. apply Nat.le_add_r.
  - destruct cb; [discriminate|]. injection H; intros; subst. cbn. rewrite Crc. repeat (split; [assumption || reflexivity|]).
    left. auto.
Qed.

Definition mem_parse_state (g : mem_gstate) (slots : list mem_slot) (bufs : list mem_buf) (h : nat)
           (r1 : mem_rstruct) (l : mem_live) (input : bytes) (ts : Z) : mem_gstate :=
  {| g_slots := mem_list_set slots h {| sl_rec := r1; sl_state := SLive l |}; g_bufs := bufs; g_cfg := g_cfg g;
     g_dirty := g_dirty g; g_next_rid := S (g_next_rid g); g_log := g_log g ++ [(g_next_rid g, input, ts)];
     g_status := g_status g; g_out := g_out g |}.

Definition mem_parse_rec (r : mem_rstruct) (input : bytes) (ts : Z) : mem_rstruct :=
  {| r_fields := r_fields r; r_rawlen := Z.of_nat (length input); r_ts := ts; r_unesc := r_unesc r;
     r_backbuf := r_backbuf r; r_refc := r_refc r |}.

Definition mem_parse_live (g : mem_gstate) (input cpy : bytes) : mem_live :=
  {| l_rid := g_next_rid g; l_n := length input; l_copy := cpy; l_fresh := []; l_phase := PhParsed |}.

Lemma mem_parse_prelude : forall c g cs cb input ts h r bufs cpy slots,
  mem_inv c g -> (N.of_nat (length input) < 2 ^ 31)%N ->
  mem_new_record c g cs cb input = inl (Some (h, r, bufs, cpy, slots)) ->
  let r1 := mem_parse_rec r input ts in
  let l := mem_parse_live g input cpy in
  let gA := mem_parse_state g slots bufs h r1 l input ts in
  mem_inv_x c gA (Some h) /\
  nth_error (g_slots gA) h = Some {| sl_rec := r1; sl_state := SLive l |} /\
  mem_local_of gA r1 l = Some (mem_spec_m0 c input, mem_spec_r0 c input ts (r_unesc r)) /\
  mem_backbuf_ok gA r1 (length input) /\ r_refc r1 = Z.of_nat (mem_nout c).
Proof.
  intros c g cs cb input ts h r bufs cpy slots Hinv Hsize Hnr r1 l gA.
  destruct (mem_new_record_cases _ _ _ _ _ _ _ _ _ _ Hinv Hsize Hnr) as (Hh & Hsl & Hf & Hrc & Hbuf).
  (* the record's buffer: none, or the one that was taken *)
  assert (Hmine : match r_backbuf r with None => cpy = input /\ bufs = g_bufs g | Some b => exists bf, mem_buf_taken g bufs input b bf end).
  { destruct Hbuf as [(-> & -> & ->)|(b & bf & -> & Hbf)]; eauto. }
  split; [|split; [|split; [|split]]].
  - apply (mem_inv_x_replace c g None h _ slots bufs _ _ Hinv (or_introl eq_refl) Hh).
    + exact Hsl.
    + (* a buffer held by another slot is not free, so it is neither taken nor touched *)
      intros h' s b Hne Hs Hb.
      destruct (mem_slot_inv_backbuf c g s b (inv_slots _ _ _ Hinv h' s ltac:(discriminate) Hs) Hb) as (bf' & Hn' & Hfr').
      cbn. destruct (r_backbuf r) as [b0|]; [|destruct Hmine as [_ ->]; split; [discriminate|reflexivity]].
      destruct Hmine as (bf & _ & Hoth & Hfree & _).
      assert (Nb : b <> b0) by (intros ->; specialize (Hfree _ Hn'); congruence).
      split; [congruence|apply Hoth; exact Nb].
    + intros b bf Hn. destruct (r_backbuf r) as [b0|]; [|destruct Hmine as [_ ->]; eapply (inv_bufs _ _ _ Hinv); eauto].
      destruct Hmine as (bf1 & Hn1 & Hoth & _ & _ & Hc1 & Hl1 & _).
      destruct (Nat.eq_dec b b0) as [->|Nb]; [rewrite Hn in Hn1; inversion Hn1; subst; auto|].
      rewrite Hoth in Hn by exact Nb. eapply (inv_bufs _ _ _ Hinv); eauto.
    + apply incl_appl, incl_refl.
    + intros rid i t Hin. apply in_app_or in Hin. destruct Hin as [Hin|[Heq|[]]].
      * destruct (inv_log _ _ _ Hinv _ _ _ Hin). split; [apply Nat.lt_lt_succ_r|]; assumption.
      * inversion Heq; subst. split; [apply Nat.lt_succ_diag_r|exact Hsize].
    + intros rid i1 t1 i2 t2 H1 H2. apply in_app_or in H1. apply in_app_or in H2.
      destruct H1 as [H1|[H1|[]]]; destruct H2 as [H2|[H2|[]]].
      * eapply (inv_log_fun _ _ _ Hinv); eauto.
      * inversion H2; subst. destruct (inv_log _ _ _ Hinv _ _ _ H1) as [Hlt _]. destruct (Nat.lt_irrefl _ Hlt).
      * inversion H1; subst. destruct (inv_log _ _ _ Hinv _ _ _ H2) as [Hlt _]. destruct (Nat.lt_irrefl _ Hlt).
      * inversion H1; inversion H2; subst. split; congruence.
  - cbn. apply mem_list_set_nth_eq. exact Hh.
  - destruct (inv_cfg _ _ _ Hinv) as [Icfg Idirty].
    unfold mem_local_of. cbn [l_rid mem_parse_live r_fields mem_parse_rec r1 l].
    rewrite Hf, mem_erase_empty. unfold mem_spec_m0, mem_spec_r0. cbn. rewrite Icfg, Idirty. do 3 f_equal.
    rewrite mem_own_view_eq. cbn.
    destruct (r_backbuf r) as [b|]; [|apply Hmine].
    destruct Hmine as (bf & Hn & _ & _ & _ & _ & _ & Hfirst & _).
    rewrite (nth_error_nth _ _ mem_dummy_buf Hn). exact Hfirst.
  - unfold mem_backbuf_ok. cbn. destruct (r_backbuf r) as [b|]; [|exact I].
    destruct Hmine as (bf & Hn & _ & _ & Hfr & _ & _ & _ & Hle). exists bf. auto.
  - exact Hrc.
Qed.

Lemma mem_new_record_inr : forall c g cs cb input s, mem_new_record c g cs cb input = inr s -> s = PoolIndexPanic.
Proof.
  intros c g cs cb input s H. unfold mem_new_record in H.
  destruct (match cs with Some h => _ | None => _ end) as [[[h0 r0] sl0]|]; [|discriminate].
  destruct (p_min_pool (c_params c) <? N.of_nat (length input))%N.
  - destruct (mem_get_class _); try (inversion H; reflexivity).
    destruct cb as [b|]; [|discriminate].
    destruct (nth_error (g_bufs g) b); [|discriminate]. destruct (_ && _)%bool; discriminate.
  - destruct cb; discriminate.
Qed.

Lemma mem_spec_parsed_stop : forall c input ts u s, mem_spec_parsed c input ts u = SgStop s -> s <> Dangling /\ s <> NegativeRefCount.
Proof.
  intros c input ts u s. unfold mem_spec_parsed, mem_after_txs.
  destruct (mem_parse _ _ _ _) as [[[[m1 r1] [|]] ov]| |s1]; try (intros H; inversion H; split; discriminate).
  destruct (mem_run_txs _ m1 r1 _) as [[[m2 r2] [|]]| |s1]; intros H; inversion H; split; discriminate.
Qed.

Lemma mem_step_parse_eq : forall c g cs cb input ts h r bufs cpy slots,
  mem_new_record c g cs cb input = inl (Some (h, r, bufs, cpy, slots)) ->
  let r1 := mem_parse_rec r input ts in
  let l := mem_parse_live g input cpy in
  let gA := mem_parse_state g slots bufs h r1 l input ts in
  mem_local_of gA r1 l = Some (mem_spec_m0 c input, mem_spec_r0 c input ts (r_unesc r)) ->
  mem_step c g (EvParse cs cb input ts) =
  match mem_spec_parsed c input ts (r_unesc r) with
  | SgLive m2 lr2 => StepOk (mem_global_of gA h r1 l PhParsed m2 lr2)
  | SgGone st m2 lr2 => mem_release_final (mem_global_of gA h r1 l PhParsed m2 lr2) h (g_next_rid g) st
  | SgStop s => StepStop s
  end.
Proof.
  intros c g cs cb input ts h r bufs cpy slots Enr r1 l gA Hloc. cbn [mem_step]. rewrite Enr.
  match goal with |- context [mem_local_of ?G ?R ?L] => change G with gA; change R with r1; change L with l end.
  rewrite Hloc. unfold mem_spec_parsed, mem_after_txs.
  destruct (mem_parse _ _ _ _) as [[[[m1 lr1] [|]] ov]| |s]; try reflexivity.
  destruct (mem_run_txs _ m1 lr1 (c_extract c)) as [[[m2 lr2] [|]]| |s]; reflexivity.
Qed.

Lemma mem_step_parse_spec : forall c g cs cb input ts h r bufs cpy slots,
  mem_inv c g -> mem_targets_own c -> 1 <= mem_nout c -> (N.of_nat (length input) < 2 ^ 31)%N ->
  mem_new_record c g cs cb input = inl (Some (h, r, bufs, cpy, slots)) ->
  let r1 := mem_parse_rec r input ts in
  let l := mem_parse_live g input cpy in
  let gA := mem_parse_state g slots bufs h r1 l input ts in
  match mem_spec_parsed c input ts false with
  | SgLive m2 lr2 =>
    mem_step c g (EvParse cs cb input ts) = StepOk (mem_global_of gA h r1 l PhParsed m2 lr2) /\
    mem_inv c (mem_global_of gA h r1 l PhParsed m2 lr2) /\
    nth_error (g_slots (mem_global_of gA h r1 l PhParsed m2 lr2)) h =
      Some {| sl_rec := mem_go_rec r1 (l_rid l) lr2; sl_state := SLive (mem_go_live r1 l PhParsed m2) |}
  | SgGone _ _ _ => exists g', mem_step c g (EvParse cs cb input ts) = StepOk g' /\ mem_inv c g'
  | SgStop s => mem_step c g (EvParse cs cb input ts) = StepStop s /\ s <> Dangling /\ s <> NegativeRefCount
  end.
Proof.
  intros c g cs cb input ts h r bufs cpy slots Hinv Htgt Hn1 Hsize Enr r1 l gA.
  destruct (mem_parse_prelude c g cs cb input ts h r bufs cpy slots Hinv Hsize Enr) as (HinvA & HsA & HlocA & HbbA & HrcA).
  pose proof (mem_step_parse_eq c g cs cb input ts h r bufs cpy slots Enr HlocA) as Hstep.
  assert (HlogA : In (l_rid l, input, ts) (g_log gA)) by (cbn; apply in_or_app; right; left; reflexivity).
  pose proof (mem_stage_finish c gA (Some h) h _ r1 l input ts PhParsed (mem_spec_parsed c input ts (r_unesc r))
                HinvA (or_intror eq_refl) HsA eq_refl HbbA HlogA eq_refl HrcA Hn1 I eq_refl
                (proj1 (Htgt input ts (r_unesc r))) (proj1 (mem_spec_shape c input ts) (r_unesc r))) as Hfin.
  (* the flag found in the struct shows only in a malformed record *)
  rewrite mem_spec_parsed_unesc in Hstep, Hfin. cbv zeta in Hstep.
  destruct (mem_spec_parsed c input ts false) as [s|st m2 lr2|m2 lr2] eqn:E.
  - split; [exact Hstep|]. exact (mem_spec_parsed_stop _ _ _ _ _ E).
  - assert (Hst : mem_spec_status c input ts = Some st) by (unfold mem_spec_status; rewrite E; reflexivity).
    destruct st; (destruct Hfin as (g' & Hrel & Hinv'); [discriminate|intros st' m' lr' H; inversion H; subst; exact Hst|]);
      exists g'; (split; [rewrite Hstep; exact Hrel|exact Hinv']).
  - split; [exact Hstep|]. split; [|eapply mem_slot_nth_global_of; exact HsA].
    apply Hfin; [|discriminate]. intros m' lr' H. inversion H; subst. cbn. rewrite E. reflexivity.
Qed.

Lemma mem_step_transform_spec : forall c g h r l, mem_inv c g -> mem_targets_own c -> 1 <= mem_nout c ->
  nth_error (g_slots g) h = Some {| sl_rec := r; sl_state := SLive l |} -> l_phase l = PhParsed ->
  exists input ts, In (l_rid l, input, ts) (g_log g) /\
    match mem_spec_transformed c input ts with
    | SgLive m2 lr2 =>
      mem_step c g (EvTransform h) = StepOk (mem_set_status (mem_global_of g h r l (PhOut 0) m2 lr2) (l_rid l) StPassed) /\
      mem_inv c (mem_set_status (mem_global_of g h r l (PhOut 0) m2 lr2) (l_rid l) StPassed)
    | SgGone _ _ _ => exists g', mem_step c g (EvTransform h) = StepOk g' /\ mem_inv c g'
    | SgStop s => mem_step c g (EvTransform h) = StepStop s /\ s <> Dangling /\ s <> NegativeRefCount
    end.
Proof.
  intros c g h r l Hinv Htgt Hn1 Hs Hph.
  pose proof (inv_slots _ _ _ Hinv h _ ltac:(discriminate) Hs) as Hlive. cbn in Hlive.
  destruct Hlive as (input & ts & m & lr & Hlog & Hnl & Hpok & Hrc & Hloc & Hspec & Hbb).
  exists input, ts. split; [exact Hlog|]. rewrite Hph in Hspec, Hrc. cbn in Hspec, Hrc.
  assert (Hsp : mem_spec_parsed c input ts false = SgLive m lr)
    by (destruct (mem_spec_parsed c input ts false); inversion Hspec; reflexivity).
  pose proof (mem_stage_finish c g None h _ r l input ts (PhOut 0) (mem_spec_transformed c input ts)
                Hinv (or_introl eq_refl) Hs eq_refl Hbb Hlog Hnl Hrc Hn1 Hn1 ltac:(cbn; f_equal; lia)
                (proj2 (Htgt input ts false)) (proj2 (mem_spec_shape c input ts))) as Hfin.
  assert (Hst : mem_spec_status c input ts =
                match mem_spec_transformed c input ts with SgStop _ => None | SgGone st _ _ => Some st | SgLive _ _ => Some StPassed end)
    by (unfold mem_spec_status; rewrite Hsp; reflexivity).
  specialize (Hfin (fun m2 lr2 H => ltac:(cbn; rewrite H; reflexivity)) (fun st m2 lr2 H => ltac:(rewrite Hst, H; reflexivity))).
  cbn [mem_step]. rewrite Hs, Hph, Hloc. unfold mem_spec_transformed in *. rewrite Hsp in *. unfold mem_after_txs in *.
  destruct (mem_run_txs _ m lr (c_transforms c)) as [[[m2 lr2] [|]]| |s]; try (split; [reflexivity|split; discriminate]).
  - split; [reflexivity|]. apply mem_inv_set_status; [exact Hfin|]. exists input, ts. split; [rewrite mem_global_of_log; exact Hlog|exact Hst].
  - exact Hfin.
Qed.

Definition mem_add_out (g : mem_gstate) (e : nat * nat * mem_decoded) : mem_gstate :=
  {| g_slots := g_slots g; g_bufs := g_bufs g; g_cfg := g_cfg g; g_dirty := g_dirty g; g_next_rid := g_next_rid g;
     g_log := g_log g; g_status := g_status g; g_out := g_out g ++ [e] |}.

Lemma mem_inv_x_add_out : forall c g x rid k d, mem_inv_x c g x ->
  (exists input ts, In (rid, input, ts) (g_log g) /\ mem_spec_out c input ts k = Some d) ->
  mem_inv_x c (mem_add_out g (rid, k, d)) x.
Proof.
  intros c g x rid k d [Icfg Islots Iexcl Ibufs Ilog Ilogf Iout Istat] Ho. constructor; cbn; try assumption.
  intros rid' k' d' Hin. apply in_app_or in Hin. destruct Hin as [Hin|[Heq|[]]]; [eapply Iout; eauto|].
  inversion Heq; subst. exact Ho.
Qed.

Lemma mem_step_output_eq : forall c g h r l k oc m lr,
  nth_error (g_slots g) h = Some {| sl_rec := r; sl_state := SLive l |} -> l_phase l = PhOut k ->
  nth_error (c_outputs c) k = Some oc -> mem_local_of g r l = Some (m, lr) ->
  mem_step c g (EvOutput h) =
  mem_release (mem_add_out (mem_global_of g h r l (PhOut (S k)) m (snd (mem_serialize (c_rw_sets_flag c) (c_nfields c) oc m lr)))
                 (l_rid l, k, fst (mem_serialize (c_rw_sets_flag c) (c_nfields c) oc m lr))) h.
Proof.
  intros c g h r l k oc m lr Hs Hph Hoc Hloc. cbn [mem_step]. rewrite Hs, Hph, Hoc, Hloc.
  destruct (mem_serialize _ _ oc m lr) as [d lr1]. reflexivity.
Qed.

Lemma mem_step_output_full : forall c g h r l k, mem_inv c g ->
  nth_error (g_slots g) h = Some {| sl_rec := r; sl_state := SLive l |} -> l_phase l = PhOut k ->
  exists g' input ts d, mem_step c g (EvOutput h) = StepOk g' /\ mem_inv c g' /\
    In (l_rid l, input, ts) (g_log g) /\ mem_spec_out c input ts k = Some d /\
    g_out g' = g_out g ++ [(l_rid l, k, d)] /\ g_log g' = g_log g /\
    (S k < mem_nout c -> exists r' l', nth_error (g_slots g') h = Some {| sl_rec := r'; sl_state := SLive l' |} /\
                                       l_rid l' = l_rid l /\ l_phase l' = PhOut (S k)).
Proof.
  intros c g h r l k Hinv Hs Hph.
  pose proof (inv_slots _ _ _ Hinv h _ ltac:(discriminate) Hs) as Hlive. cbn in Hlive.
  destruct Hlive as (input & ts & m & lr & Hlog & Hnl & Hpok & Hrc & Hloc & Hspec & Hbb).
  rewrite Hph in Hpok, Hrc, Hspec. cbn in Hpok, Hrc.
  destruct (nth_error (c_outputs c) k) as [oc|] eqn:Hoc; [|apply nth_error_None in Hoc; unfold mem_nout in Hpok; lia].
  rewrite (mem_step_output_eq c g h r l k oc m lr Hs Hph Hoc Hloc).
  destruct (mem_serialize (c_rw_sets_flag c) (c_nfields c) oc m lr) as [d lr1] eqn:Eser. cbn [fst snd].
  destruct (mem_spec_at_shape _ _ _ _ _ _ Hspec) as [Hsh1 Hsh2].
  assert (Hlen : length (m_own m) = l_n l) by congruence.
  assert (Hclean : mem_cfg_clean c m).
  { destruct (inv_cfg _ _ _ Hinv). unfold mem_local_of in Hloc. destruct (mem_erase_fields _ _); [|discriminate].
    inversion Hloc; subst. split; assumption. }
  (* the serializer's step in the composition for the record alone *)
  assert (Hnext : mem_spec_at c input ts (PhOut (S k)) = Some (m, lr1) /\ mem_spec_out c input ts k = Some d).
  { cbn [mem_spec_at] in Hspec |- *. unfold mem_spec_out. destruct (mem_spec_transformed c input ts) as [s0|st0 mT rT|mT rT]; try discriminate.
    inversion Hspec; subst mT. rewrite Hoc, (mem_ser_upto_step c m (c_outputs c) k rT oc Hoc), H1, Eser. split; reflexivity. }
  destruct Hnext as [Hspec1 Hd].
  pose proof (mem_slot_nth_global_of g h r l (PhOut (S k)) m lr1 _ Hs) as Hs1.
  destruct (Nat.eq_dec (S k) (mem_nout c)) as [Elast|Nlast].
  - (* last output: recycled *)
    destruct (mem_release_last_inv c (mem_add_out (mem_global_of g h r l (PhOut (S k)) m lr1) (l_rid l, k, d)) h
                (mem_go_rec r (l_rid l) lr1) (SLive (mem_go_live r l (PhOut (S k)) m))) as (r' & bufs & Hrel & Hinv').
    + apply mem_inv_x_add_out; [|rewrite mem_global_of_log; eauto]. eapply (mem_global_of_inv c g None h); eauto.
    + exact Hs1.
    + cbn. rewrite Hrc. lia.
    + rewrite mem_go_rec_fields_length, (mem_serialize_fields _ _ _ _ _ _ _ Eser). exact Hsh2.
    + eapply mem_backbuf_ok_weaken. apply (mem_backbuf_ok_global_of g h r l (PhOut (S k)) m lr1 (l_n l)); auto.
    + rewrite Hrel. eexists. exists input, ts, d. split; [reflexivity|]. split; [exact Hinv'|]. split; [exact Hlog|]. split; [exact Hd|].
      split; [cbn; rewrite mem_global_of_out; reflexivity|]. split; [cbn; apply mem_global_of_log|].
      intros Hlt. lia.
  - (* further outputs follow *)
    rewrite (mem_release_more (mem_add_out (mem_global_of g h r l (PhOut (S k)) m lr1) (l_rid l, k, d)) h _ _ Hs1) by (cbn; lia).
    (* this is the state reached by writing back a struct whose count is already decremented *)
    assert (Heq : mem_with_slot (mem_add_out (mem_global_of g h r l (PhOut (S k)) m lr1) (l_rid l, k, d)) h
                    {| sl_rec := mem_with_refc (mem_go_rec r (l_rid l) lr1) (r_refc (mem_go_rec r (l_rid l) lr1) - 1);
                       sl_state := SLive (mem_go_live r l (PhOut (S k)) m) |}
                    (g_bufs (mem_add_out (mem_global_of g h r l (PhOut (S k)) m lr1) (l_rid l, k, d)))
                  = mem_add_out (mem_global_of g h (mem_with_refc r (r_refc r - 1)) l (PhOut (S k)) m lr1) (l_rid l, k, d)).
    { rewrite !mem_global_of_eq. unfold mem_with_slot, mem_add_out. cbn. rewrite mem_list_set_twice. reflexivity. }
    rewrite Heq.
    eexists. exists input, ts, d. split; [reflexivity|].
    split; [|split; [exact Hlog|split; [exact Hd|split; [cbn; rewrite mem_global_of_out; reflexivity|split; [cbn; apply mem_global_of_log|]]]]].
    2:{ intros _. eexists. eexists. split; [cbn; eapply mem_slot_nth_global_of; eauto|]. split; reflexivity. }
    apply mem_inv_x_add_out; [|rewrite mem_global_of_log; eauto].
    apply (mem_write_back_inv c g None h _ (mem_with_refc r (r_refc r - 1)) l input ts _ _ _ Hinv (or_introl eq_refl) Hs);
      auto; cbn; [lia|rewrite Hrc; lia].
Qed.

(* the stated maximum of a record's length (the listener's line buffer is far smaller) *)
Definition mem_ev_ok (e : mem_event) : Prop :=
  match e with EvParse _ _ input _ => (N.of_nat (length input) < 2 ^ 31)%N | _ => True end.

Definition mem_run_ok (c : mem_config) (res : mem_step_res) : Prop :=
  match res with
  | StepOk g' => mem_inv c g'
  | StepStop s => s <> Dangling /\ s <> NegativeRefCount
  end.

Lemma mem_step_preserves : forall c g e, mem_inv c g -> mem_targets_own c -> 1 <= mem_nout c -> mem_ev_ok e -> mem_run_ok c (mem_step c g e).
Proof.
  intros c g e Hinv Htgt Hn He. destruct e as [cs cb input ts|h|h].
  - destruct (mem_new_record c g cs cb input) as [[[[[[h r] bufs] cpy] slots]|]|s] eqn:Enr.
    + pose proof (mem_step_parse_spec c g cs cb input ts h r bufs cpy slots Hinv Htgt Hn He Enr) as H. cbv zeta in H.
      destruct (mem_spec_parsed c input ts false);
        [destruct H as [-> H]|destruct H as (g' & -> & H)|destruct H as (-> & H & _)]; exact H.
    + cbn [mem_step]. rewrite Enr. split; discriminate.
    + cbn [mem_step]. rewrite Enr. apply mem_new_record_inr in Enr. subst s. split; discriminate.
  - destruct (nth_error (g_slots g) h) as [[r [|l|]]|] eqn:Hs; try (cbn [mem_step]; rewrite Hs; split; discriminate).
    destruct (l_phase l) eqn:Hph; [|cbn [mem_step]; rewrite Hs, Hph; split; discriminate].
    destruct (mem_step_transform_spec c g h r l Hinv Htgt Hn Hs Hph) as (input & ts & _ & H).
    destruct (mem_spec_transformed c input ts); [destruct H as [-> H]|destruct H as (g' & -> & H)|destruct H as [-> H]]; exact H.
  - destruct (nth_error (g_slots g) h) as [[r [|l|]]|] eqn:Hs; try (cbn [mem_step]; rewrite Hs; split; discriminate).
    destruct (l_phase l) as [|k] eqn:Hph; [cbn [mem_step]; rewrite Hs, Hph; split; discriminate|].
    destruct (mem_step_output_full c g h r l k Hinv Hs Hph) as (g' & _ & _ & _ & -> & Hinv' & _). exact Hinv'.
Qed.

Lemma mem_run_preserves : forall c evs g, mem_inv c g -> mem_targets_own c -> 1 <= mem_nout c -> Forall mem_ev_ok evs ->
  mem_run_ok c (mem_run c g evs).
Proof.
  induction evs as [|e evs IH]; intros g Hinv Htgt Hn Hev; cbn.
  - exact Hinv.
  - inversion Hev; subst.
    pose proof (mem_step_preserves c g e Hinv Htgt Hn H1) as Hs. unfold mem_run_ok in Hs.
    destruct (mem_step c g e) as [g'|s]; [apply IH; assumption|exact Hs].
Qed.

Lemma mem_reachable_inv : forall c evs g, mem_targets_own c -> 1 <= mem_nout c -> Forall mem_ev_ok evs ->
  mem_run c (mem_init c) evs = StepOk g -> mem_inv c g.
Proof.
  intros c evs g Htgt Hn Hev Hrun.
  pose proof (mem_run_preserves c evs (mem_init c) (mem_inv_init c) Htgt Hn Hev) as H. rewrite Hrun in H. exact H.
Qed.

(* The statements of C12 about histories.  All but the last group (which stops can occur at all) are read off the
   invariant of a reachable state ([mem_reachable_inv]). *)

(* what the ghost lists hold about a record is what the record alone defines *)
Lemma mem_inv_out_spec : forall c g rid input ts k d, mem_inv c g ->
  In (rid, input, ts) (g_log g) -> In (rid, k, d) (g_out g) -> mem_spec_out c input ts k = Some d.
Proof.
  intros c g rid input ts k d Hinv Hl Ho. destruct (inv_out _ _ _ Hinv _ _ _ Ho) as (i & t & Hi & Hs).
  destruct (inv_log_fun _ _ _ Hinv _ _ _ _ _ Hl Hi) as [-> ->]. exact Hs.
Qed.

Lemma mem_inv_status_spec : forall c g rid input ts st, mem_inv c g ->
  In (rid, input, ts) (g_log g) -> In (rid, st) (g_status g) -> mem_spec_status c input ts = Some st.
Proof.
  intros c g rid input ts st Hinv Hl Ho. destruct (inv_status _ _ _ Hinv _ _ Ho) as (i & t & Hi & Hs).
  destruct (inv_log_fun _ _ _ Hinv _ _ _ _ _ Hl Hi) as [-> ->]. exact Hs.
Qed.

(* ISOLATION, two-history form: whatever happened before and around it, on any pool behaviour, a record's
   decoded output for output k is a function of the record (input bytes, fallback timestamp) and the configuration *)
Lemma mem_isolation_two_runs : forall c evs1 evs2 g1 g2 input ts rid1 rid2 k d1 d2,
  mem_targets_own c -> 1 <= mem_nout c -> Forall mem_ev_ok evs1 -> Forall mem_ev_ok evs2 ->
  mem_run c (mem_init c) evs1 = StepOk g1 -> mem_run c (mem_init c) evs2 = StepOk g2 ->
  In (rid1, input, ts) (g_log g1) -> In (rid2, input, ts) (g_log g2) ->
  In (rid1, k, d1) (g_out g1) -> In (rid2, k, d2) (g_out g2) -> d1 = d2.
Proof.
  intros c evs1 evs2 g1 g2 input ts rid1 rid2 k d1 d2 Htgt Hn He1 He2 Hr1 Hr2 Hl1 Hl2 Ho1 Ho2.
  pose proof (mem_inv_out_spec c g1 _ _ _ _ _ (mem_reachable_inv c evs1 g1 Htgt Hn He1 Hr1) Hl1 Ho1) as H1.
  pose proof (mem_inv_out_spec c g2 _ _ _ _ _ (mem_reachable_inv c evs2 g2 Htgt Hn He2 Hr2) Hl2 Ho2) as H2. congruence.
Qed.

(* the same for what happens to the record: malformed, dropped, passed *)
Lemma mem_isolation_status : forall c evs1 evs2 g1 g2 input ts rid1 rid2 s1 s2,
  mem_targets_own c -> 1 <= mem_nout c -> Forall mem_ev_ok evs1 -> Forall mem_ev_ok evs2 ->
  mem_run c (mem_init c) evs1 = StepOk g1 -> mem_run c (mem_init c) evs2 = StepOk g2 ->
  In (rid1, input, ts) (g_log g1) -> In (rid2, input, ts) (g_log g2) ->
  In (rid1, s1) (g_status g1) -> In (rid2, s2) (g_status g2) -> s1 = s2.
Proof.
  intros c evs1 evs2 g1 g2 input ts rid1 rid2 s1 s2 Htgt Hn He1 He2 Hr1 Hr2 Hl1 Hl2 Ho1 Ho2.
  pose proof (mem_inv_status_spec c g1 _ _ _ _ (mem_reachable_inv c evs1 g1 Htgt Hn He1 Hr1) Hl1 Ho1) as H1.
  pose proof (mem_inv_status_spec c g2 _ _ _ _ (mem_reachable_inv c evs2 g2 Htgt Hn He2 Hr2) Hl2 Ho2) as H2. congruence.
Qed.

Lemma mem_outputs_run : forall c n g h rid k, mem_inv c g -> k + n = mem_nout c ->
  (0 < n -> exists r l, nth_error (g_slots g) h = Some {| sl_rec := r; sl_state := SLive l |} /\ l_rid l = rid /\ l_phase l = PhOut k) ->
  exists g', mem_run c g (repeat (EvOutput h) n) = StepOk g' /\ mem_inv c g' /\ g_log g' = g_log g /\ incl (g_out g) (g_out g') /\
    forall j, k <= j < mem_nout c ->
      exists input ts d, In (rid, input, ts) (g_log g) /\ mem_spec_out c input ts j = Some d /\ In (rid, j, d) (g_out g').
Proof.
  induction n as [|n IH]; intros g h rid k Hinv Hk Hs.
  - exists g. cbn. split; [reflexivity|]. split; [exact Hinv|]. split; [reflexivity|]. split; [apply incl_refl|]. intros j Hj. lia.
  - destruct (Hs ltac:(lia)) as (r & l & Hsl & <- & Hph). cbn [repeat mem_run].
    destruct (mem_step_output_full c g h r l k Hinv Hsl Hph) as (g1 & input & ts & d & Hstep & Hinv1 & Hlog & Hd & Hout1 & Hlog1 & Hnext).
    rewrite Hstep.
    destruct (IH g1 h (l_rid l) (S k) Hinv1 ltac:(lia)) as (g' & Hrun & Hinv' & Hlog' & Hincl & Hall).
    { intros Hn. destruct Hnext as (r' & l' & A & B & C); [lia|]. exists r', l'. auto. }
    exists g'. split; [exact Hrun|]. split; [exact Hinv'|]. split; [congruence|].
    split; [intros x Hx; apply Hincl; rewrite Hout1; apply in_or_app; left; exact Hx|].
    intros j Hj. destruct (Nat.eq_dec j k) as [->|Nj].
    + exists input, ts, d. split; [exact Hlog|]. split; [exact Hd|]. apply Hincl. rewrite Hout1. apply in_or_app. right. left. reflexivity.
    + destruct (Hall j ltac:(lia)) as (i2 & t2 & d2 & A & B & C). exists i2, t2, d2. rewrite Hlog1 in A. auto.
Qed.

Lemma mem_new_record_fresh : forall c input, (N.of_nat (length input) < 2 ^ 31)%N ->
  exists r bufs cpy slots, mem_new_record c (mem_init c) None None input = inl (Some (0, r, bufs, cpy, slots)).
Proof.
  intros c input Hsize. unfold mem_new_record. cbn [g_slots mem_init length].
  destruct (p_min_pool (c_params c) <? N.of_nat (length input))%N.
  - destruct (mem_get_class_sound _ Hsize) as (cl & Hg & _). rewrite Hg. eauto.
  - eauto.
Qed.

(* the record alone on a fresh pipeline: the history runs to its end and yields every output the local composition defines *)
Lemma mem_alone_produces : forall c input ts, mem_targets_own c -> 1 <= mem_nout c -> (N.of_nat (length input) < 2 ^ 31)%N ->
  forall mT rT, mem_spec_transformed c input ts = SgLive mT rT ->
  exists g, mem_run c (mem_init c) (mem_alone_trace c input ts) = StepOk g /\ mem_inv c g /\ g_log g = [(0, input, ts)] /\
    forall k, k < mem_nout c -> exists d, mem_spec_out c input ts k = Some d /\ In (0, k, d) (g_out g).
Proof.
  intros c input ts Htgt Hn Hsize mT rT HspT.
  assert (Hsp : exists m2 lr2, mem_spec_parsed c input ts false = SgLive m2 lr2).
  { unfold mem_spec_transformed in HspT. destruct (mem_spec_parsed c input ts false); try discriminate. eauto. }
  destruct Hsp as (m2 & lr2 & Hsp).
  destruct (mem_new_record_fresh c input Hsize) as (r & bufs & cpy & slots & Enr).
  pose proof (mem_step_parse_spec c (mem_init c) None None input ts 0 r bufs cpy slots (mem_inv_init c) Htgt Hn Hsize Enr) as H1.
  cbv zeta in H1. rewrite Hsp in H1. destruct H1 as (Hstep1 & Hok1 & Hs1).
  set (g1 := mem_global_of _ 0 _ _ PhParsed m2 lr2) in *.
  assert (Hlog1 : g_log g1 = [(0, input, ts)]) by apply mem_global_of_log.
  destruct (mem_step_transform_spec c g1 0 _ _ Hok1 Htgt Hn Hs1) as (i & t & Hlog & H2); [reflexivity|].
  rewrite Hlog1 in Hlog. destruct Hlog as [Hlog|[]]. inversion Hlog; subst i t.
  rewrite HspT in H2. destruct H2 as [Hstep2 Hok2].
  destruct (mem_outputs_run c (mem_nout c) _ 0 0 0 Hok2 eq_refl) as (g3 & Hrun3 & Hinv3 & Hlog3 & _ & Hall).
  { intros _. do 2 eexists. split; [exact (mem_slot_nth_global_of g1 0 _ _ (PhOut 0) mT rT _ Hs1)|]. split; reflexivity. }
  exists g3. unfold mem_alone_trace. cbn [mem_run]. rewrite Hstep1, Hstep2. fold (mem_nout c). split; [exact Hrun3|].
  split; [exact Hinv3|]. cbn in Hlog3. rewrite mem_global_of_log, Hlog1 in Hlog3.
  split; [exact Hlog3|].
  intros k Hk. destruct (Hall k ltac:(lia)) as (i2 & t2 & d & A & B & C).
  cbn in A. rewrite mem_global_of_log, Hlog1 in A. destruct A as [A|[]]. inversion A; subst i2 t2.
  exists d. auto.
Qed.

(* ISOLATION, as the property states it: the output a record gets in any history equals the output of the same record
   processed alone on a fresh pipeline - which exists and is unique *)
Lemma mem_isolation_alone : forall c evs g input ts rid k d,
  mem_targets_own c -> 1 <= mem_nout c -> Forall mem_ev_ok evs ->
  mem_run c (mem_init c) evs = StepOk g -> In (rid, input, ts) (g_log g) -> In (rid, k, d) (g_out g) ->
  exists g1, mem_run c (mem_init c) (mem_alone_trace c input ts) = StepOk g1 /\ In (0, k, d) (g_out g1) /\
             forall r' d', In (r', k, d') (g_out g1) -> d' = d.
Proof.
  intros c evs g input ts rid k d Htgt Hn Hev Hrun Hlog Hout.
  pose proof (mem_reachable_inv c evs g Htgt Hn Hev Hrun) as Hinv.
  pose proof (mem_inv_out_spec c g _ _ _ _ _ Hinv Hlog Hout) as Hs1.
  assert (Hsize : (N.of_nat (length input) < 2 ^ 31)%N) by (apply (inv_log _ _ _ Hinv _ _ _ Hlog)).
  assert (HT : exists mT rT, mem_spec_transformed c input ts = SgLive mT rT).
  { unfold mem_spec_out in Hs1. destruct (mem_spec_transformed c input ts); try discriminate. eauto. }
  destruct HT as (mT & rT & HT).
  assert (Hk : k < mem_nout c).
  { unfold mem_spec_out in Hs1. rewrite HT in Hs1. destruct (nth_error (c_outputs c) k) eqn:E; [|discriminate].
    apply nth_error_Some. congruence. }
  destruct (mem_alone_produces c input ts Htgt Hn Hsize mT rT HT) as (g1 & Hrun1 & Hinv1 & Hlog1 & Hall).
  exists g1. split; [exact Hrun1|]. destruct (Hall k Hk) as (d0 & Hd0 & Hin0). assert (d0 = d) by congruence. subst d0.
  split; [exact Hin0|]. intros r' d' Hin'.
  destruct (inv_out _ _ _ Hinv1 _ _ _ Hin') as (i2 & t2 & Hi2 & Hs2). rewrite Hlog1 in Hi2. destruct Hi2 as [Hi2|[]].
  inversion Hi2; subst. congruence.
Qed.

(* NO DANGLING: no step of any history dereferences a string that points into another record's memory, and ... *)
Lemma mem_no_dangling_step : forall c evs, mem_targets_own c -> 1 <= mem_nout c -> Forall mem_ev_ok evs ->
  mem_run c (mem_init c) evs <> StepStop Dangling.
Proof.
  intros c evs Htgt Hn Hev H.
  pose proof (mem_run_preserves c evs (mem_init c) (mem_inv_init c) Htgt Hn Hev) as Hr. rewrite H in Hr. destruct Hr as [Hr _]. congruence.
Qed.

(* ... no string held by a struct (live, pooled or abandoned) points into a buffer that is in the pool *)
Definition mem_str_owner (s : mem_str) : option nat :=
  match s with MStr (Own r) _ _ => Some r | MStr (Fresh r _) _ _ => Some r | _ => None end.

Lemma mem_tag_owner : forall rid s o, mem_str_owner (mem_tag_str rid s) = Some o -> o = rid.
Proof. intros rid [|p off len] o H; cbn in H; [discriminate|]. destruct p; cbn in H; inversion H; reflexivity. Qed.

Lemma mem_erase_owner : forall rid fs efs, mem_erase_fields rid fs = Some efs ->
  forall s o, In s fs -> mem_str_owner s = Some o -> o = rid.
Proof.
  induction fs as [|s0 fs IH]; intros efs H s o Hin Ho; [contradiction|]. cbn in H.
  destruct (mem_erase_str rid s0) as [e0|] eqn:E0; [|discriminate].
  destruct (mem_erase_fields rid fs) as [es|] eqn:E1; [|discriminate].
  destruct Hin as [->|Hin]; [|eapply IH; eauto].
  destruct s as [|p off len]; [discriminate|]. cbn in E0, Ho.
  destruct p as [r'|r' k|site|site]; cbn in E0, Ho; try discriminate; inversion Ho; subst;
    destruct (Nat.eqb rid o) eqn:E; try discriminate; apply Nat.eqb_eq in E; congruence.
Qed.

Lemma mem_no_dangling_state : forall c evs g, mem_targets_own c -> 1 <= mem_nout c -> Forall mem_ev_ok evs ->
  mem_run c (mem_init c) evs = StepOk g ->
  forall h s, nth_error (g_slots g) h = Some s ->
    match sl_state s with
    | SInPool => (* a pooled struct holds no string at all and no buffer *)
        (forall f, In f (r_fields (sl_rec s)) -> f = MEmpty) /\ r_backbuf (sl_rec s) = None
    | SLive l => (* a live struct's strings point into its own memory (or configuration / constants); its buffer is not in the pool *)
        (forall f o, In f (r_fields (sl_rec s)) -> mem_str_owner f = Some o -> o = l_rid l) /\
        (forall b, r_backbuf (sl_rec s) = Some b -> exists bf, nth_error (g_bufs g) b = Some bf /\ b_free bf = false)
    | SAbandoned => forall b, r_backbuf (sl_rec s) = Some b -> exists bf, nth_error (g_bufs g) b = Some bf /\ b_free bf = false
    end.
Proof.
  intros c evs g Htgt Hn Hev Hrun h s Hs.
  pose proof (mem_reachable_inv c evs g Htgt Hn Hev Hrun) as Hinv.
  pose proof (inv_slots _ _ _ Hinv h s ltac:(discriminate) Hs) as Hsi.
  pose proof (fun b => mem_slot_inv_backbuf c g s b Hsi) as Hbb.
  unfold mem_slot_inv in Hsi. destruct (sl_state s) as [|l|].
  - destruct Hsi as (Hf & _ & _ & Hb & _). split; [|exact Hb]. intros f Hin. rewrite Hf in Hin. apply repeat_spec in Hin. exact Hin.
  - split; [|exact Hbb]. destruct Hsi as (input & ts & m & lr & _ & _ & _ & _ & Hloc & _).
    unfold mem_local_of in Hloc. destruct (mem_erase_fields (l_rid l) (r_fields (sl_rec s))) as [efs|] eqn:E; [|discriminate].
    intros f o Hin Ho. eapply mem_erase_owner; eauto.
  - exact Hbb.
Qed.

(* exclusive ownership: two structs never share a backing buffer *)
Lemma mem_buffers_exclusive : forall c evs g, mem_targets_own c -> 1 <= mem_nout c -> Forall mem_ev_ok evs ->
  mem_run c (mem_init c) evs = StepOk g ->
  forall h1 h2 s1 s2 b, h1 <> h2 -> nth_error (g_slots g) h1 = Some s1 -> nth_error (g_slots g) h2 = Some s2 ->
    r_backbuf (sl_rec s1) = Some b -> r_backbuf (sl_rec s2) = Some b -> False.
Proof.
  intros c evs g Htgt Hn Hev Hrun. exact (inv_excl _ _ _ (mem_reachable_inv c evs g Htgt Hn Hev Hrun)).
Qed.

(* POOL CLASSES in every reachable state: a buffer has the size of its class, every buffer attached to a live record
   is at least as long as the record, and a released buffer is filed under the class it was created for *)
Lemma mem_pool_state_sound : forall c evs g, mem_targets_own c -> 1 <= mem_nout c -> Forall mem_ev_ok evs ->
  mem_run c (mem_init c) evs = StepOk g ->
  (forall b bf, nth_error (g_bufs g) b = Some bf ->
     (b_class bf <= 31)%N /\ length (b_data bf) = N.to_nat (mem_class_size (b_class bf)) /\
     mem_put_class (N.of_nat (length (b_data bf))) = Ok (b_class bf)) /\
  (forall h r l b, nth_error (g_slots g) h = Some {| sl_rec := r; sl_state := SLive l |} -> r_backbuf r = Some b ->
     exists bf, nth_error (g_bufs g) b = Some bf /\ l_n l <= length (b_data bf)).
Proof.
  intros c evs g Htgt Hn Hev Hrun. pose proof (mem_reachable_inv c evs g Htgt Hn Hev Hrun) as Hinv. split.
  - intros b bf Hb. destruct (inv_bufs _ _ _ Hinv b bf Hb) as [H1 H2]. repeat split; auto.
    rewrite H2, N2Nat.id. apply mem_put_class_pow2. exact H1.
  - intros h r l b Hs Hb. pose proof (inv_slots _ _ _ Hinv h _ ltac:(discriminate) Hs) as Hsi. cbn in Hsi.
    destruct Hsi as (input & ts & m & lr & _ & _ & _ & _ & _ & _ & Hok). unfold mem_backbuf_ok in Hok. rewrite Hb in Hok.
    destruct Hok as (bf & H1 & _ & H3). eauto.
Qed.

(* REFERENCE COUNTS: never negative in any history; a live record that has been serialized for k outputs holds
   exactly (number of outputs - k) references; a struct in the pool holds none *)
Lemma mem_refcount_never_negative : forall c evs, mem_targets_own c -> 1 <= mem_nout c -> Forall mem_ev_ok evs ->
  mem_run c (mem_init c) evs <> StepStop NegativeRefCount.
Proof.
  intros c evs Htgt Hn Hev H.
  pose proof (mem_run_preserves c evs (mem_init c) (mem_inv_init c) Htgt Hn Hev) as Hr. rewrite H in Hr. destruct Hr as [_ Hr]. congruence.
Qed.

Lemma mem_refcount_balanced : forall c evs g, mem_targets_own c -> 1 <= mem_nout c -> Forall mem_ev_ok evs ->
  mem_run c (mem_init c) evs = StepOk g ->
  forall h s, nth_error (g_slots g) h = Some s ->
    match sl_state s with
    | SInPool => r_refc (sl_rec s) = 0%Z
    | SLive l => match l_phase l with
                 | PhParsed => r_refc (sl_rec s) = Z.of_nat (mem_nout c)
                 | PhOut k => k < mem_nout c /\ r_refc (sl_rec s) = Z.of_nat (mem_nout c - k)
                 end
    | SAbandoned => True
    end.
Proof.
  intros c evs g Htgt Hn Hev Hrun h s Hs.
  pose proof (mem_reachable_inv c evs g Htgt Hn Hev Hrun) as Hinv.
  pose proof (inv_slots _ _ _ Hinv h s ltac:(discriminate) Hs) as Hsi.
  unfold mem_slot_inv in Hsi. destruct (sl_state s) as [|l|]; [|
    destruct Hsi as (input & ts & m & lr & _ & _ & Hpok & Hrc & _); destruct (l_phase l); cbn in *; auto|exact I].
  destruct Hsi as (_ & _ & _ & _ & H). exact H.
Qed.

(* what Release leaves in a recycled struct: every field, the length and the timestamp are cleared *)
Lemma mem_recycled_clean : forall c evs g, mem_targets_own c -> 1 <= mem_nout c -> Forall mem_ev_ok evs ->
  mem_run c (mem_init c) evs = StepOk g ->
  forall h s, nth_error (g_slots g) h = Some s -> sl_state s = SInPool -> mem_pooled_clean c (sl_rec s).
Proof.
  intros c evs g Htgt Hn Hev Hrun h s Hs Hst.
  pose proof (mem_reachable_inv c evs g Htgt Hn Hev Hrun) as Hinv.
  pose proof (inv_slots _ _ _ Hinv h s ltac:(discriminate) Hs) as Hsi. unfold mem_slot_inv in Hsi. rewrite Hst in Hsi. exact Hsi.
Qed.

(* the shared configuration memory is never written *)
Lemma mem_config_memory_constant : forall c evs g, mem_targets_own c -> 1 <= mem_nout c -> Forall mem_ev_ok evs ->
  mem_run c (mem_init c) evs = StepOk g -> g_cfg g = c_cfg_init c /\ g_dirty g = false.
Proof.
  intros c evs g Htgt Hn Hev Hrun. exact (inv_cfg _ _ _ (mem_reachable_inv c evs g Htgt Hn Hev Hrun)).
Qed.

(* no Go panic inside the parser or a transform, and a write to read-only memory only with the unrepaired truncate *)
Definition mem_stop_possible (c : mem_config) (s : mem_stop) : Prop :=
  match s with Fault => c_trunc_mode c = TruncInPlace | GoPanic _ => False | _ => True end.

Lemma mem_release_stop : forall c g h s, mem_release g h = StepStop s -> mem_stop_possible c s.
Proof.
  intros c g h s. unfold mem_release. destruct (nth_error (g_slots g) h); [|intros H; inversion H; exact I].
  destruct (_ <? 0)%Z; [intros H; inversion H; exact I|]. destruct (0 <? _)%Z; [discriminate|].
  destruct (r_backbuf _); [|discriminate]. destruct (mem_put_class _); intros H; inversion H; exact I.
Qed.

Lemma mem_release_final_stop : forall c g h rid st s, mem_release_final g h rid st = StepStop s -> mem_stop_possible c s.
Proof.
  intros c g h rid st s. unfold mem_release_final. pose proof (mem_release_stop c g h) as H.
  destruct (mem_release g h); [discriminate|]. intros E. inversion E; subst. apply H. reflexivity.
Qed.

Lemma mem_step_stop : forall c g e s, mem_step c g e = StepStop s -> mem_stop_possible c s.
Proof.
  intros c g e s H.
  assert (Htxs : forall m lr ts, mem_post (c_trunc_mode c = TruncInPlace) False (fun _ => True)
                                   (mem_run_txs (c_trunc_mode c) m lr ts)).
  { intros. eapply mem_post_weaken; [apply mem_run_txs_wrote|auto..]. }
  destruct e as [cs cb input ts|h|h]; cbn [mem_step] in H.
  - destruct (mem_new_record c g cs cb input) as [[[[[[h r] bufs] cpy] slots]|]|s0] eqn:Enr;
      [|inversion H; exact I|apply mem_new_record_inr in Enr; inversion H; subst; exact I].
    destruct (mem_local_of _ _ _) as [[m lr]|]; [|inversion H; exact I].
    pose proof (mem_parse_post (fun _ => True) (c_params c) (c_level_sites c) m lr ltac:(repeat split) I) as Hp.
    destruct (mem_parse (c_params c) (c_level_sites c) m lr) as [[[[m1 lr1] pst] ov]| |s1]; try contradiction.
    destruct pst; [|eapply mem_release_final_stop; eauto].
    pose proof (Htxs m1 lr1 (c_extract c)) as Ht.
    destruct (mem_run_txs _ m1 lr1 (c_extract c)) as [[[m2 lr2] b]| |s1]; [|inversion H; subst; exact Ht..].
    destruct b; [discriminate|eapply mem_release_final_stop; eauto].
  - destruct (nth_error (g_slots g) h) as [[r [|l|]]|]; try (inversion H; exact I).
    destruct (l_phase l); [|inversion H; exact I].
    destruct (mem_local_of g r l) as [[m lr]|]; [|inversion H; exact I].
    pose proof (Htxs m lr (c_transforms c)) as Ht.
    destruct (mem_run_txs _ m lr (c_transforms c)) as [[[m2 lr2] b]| |s1]; [|inversion H; subst; exact Ht..].
    destruct b; [discriminate|eapply mem_release_final_stop; eauto].
  - destruct (nth_error (g_slots g) h) as [[r [|l|]]|]; try (inversion H; exact I).
    destruct (l_phase l); [inversion H; exact I|].
    destruct (nth_error (c_outputs c) done) as [oc|]; [|inversion H; exact I].
    destruct (mem_local_of g r l) as [[m lr]|]; [|inversion H; exact I].
    destruct (mem_serialize _ _ oc m lr) as [d lr1]. eapply mem_release_stop; eauto.
Qed.

Lemma mem_run_stop : forall c evs g s, mem_run c g evs = StepStop s -> mem_stop_possible c s.
Proof.
  intros c evs. induction evs as [|e evs IH]; intros g s H; cbn in H; [discriminate|].
  destruct (mem_step c g e) as [g'|s0] eqn:E; [eapply IH; eauto|]. inversion H; subst. eapply mem_step_stop; eauto.
Qed.

(* whatever the configuration and the records: the repaired code never writes to read-only memory *)
Lemma mem_run_copy_no_fault : forall c evs g, c_trunc_mode c = TruncCopy -> mem_run c g evs <> StepStop Fault.
Proof. intros c evs g Hmode H. apply mem_run_stop in H. cbn in H. congruence. Qed.

Lemma mem_run_no_gopanic : forall c evs g s, mem_run c g evs <> StepStop (GoPanic s).
Proof. intros c evs g s H. exact (mem_run_stop c evs g _ H). Qed.
