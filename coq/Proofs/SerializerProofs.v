(* Model/Serializer.v against Spec/SerializerSpec.v:
   - names: locators, masks and the rewriter table built by NewEventSerializer mean what the names say;
   - rewriters: a verified chain is constructible, reserves at least what it writes, writes [rewrite_spec];
   - the buffer model of encodeRecord returns exactly [encode_spec] whenever that fits the buffer;
   - [decode_all (encode_spec ...)] is the expected event, for every record, schema and configuration. *)
From SV Require Import Model.Common Model.Msgpack Model.Unescape Model.Serializer
     Spec.MsgpackSpec Spec.SerializerSpec Proofs.CommonFacts Proofs.MsgpackProofs Proofs.UnescapeProofs.
From Coq Require Import Lia ZifyBool ZifyN ZifyNat.
Ltac Zify.zify_post_hook ::= Z.div_mod_to_equations.
Open Scope N_scope.

Lemma bytes_eqb_neq : forall a b, a <> b -> bytes_eqb a b = false.
Proof. intros a b H. destruct (bytes_eqb a b) eqn:E; [|reflexivity]. apply bytes_eqb_eq in E. contradiction. Qed.

Lemma has_name_mem : forall l n, has_name l n = mem n l.
Proof.
  unfold has_name, mem. induction l as [|x l IH]; intros n; cbn [index_of existsb].
  - reflexivity.
  - rewrite (bytes_eqb_sym n x). destruct (bytes_eqb x n); [reflexivity|].
    cbn [orb]. rewrite <- IH. destruct (index_of l n); reflexivity.
Qed.

Lemma has_name_In : forall l n, has_name l n = true <-> In n l.
Proof.
  unfold has_name. induction l as [|x l IH]; intros n; cbn [index_of In].
  - split; [discriminate|contradiction].
  - destruct (bytes_eqb x n) eqn:E.
    + apply bytes_eqb_eq in E. subst. split; auto.
    + specialize (IH n). destruct (index_of l n); cbn [option_map].
      * split; [intros _; right; apply IH; reflexivity | reflexivity].
      * split; [discriminate|]. intros [->|H]; [rewrite bytes_eqb_refl in E; discriminate|].
        apply IH in H. discriminate.
Qed.

Lemma index_of_In : forall l n, In n l -> exists i, index_of l n = Some i.
Proof.
  intros l n H. apply has_name_In in H. unfold has_name in H. destruct (index_of l n); [eexists; reflexivity|discriminate].
Qed.

Lemma index_of_nth : forall l n i, index_of l n = Some i -> nth i l [] = n /\ (i < length l)%nat.
Proof.
  induction l as [|x l IH]; intros n i H; cbn [index_of] in H; [discriminate|].
  destruct (bytes_eqb x n) eqn:E.
  - inversion H; subst. apply bytes_eqb_eq in E. subst. cbn. split; [reflexivity|lia].
  - destruct (index_of l n) as [j|] eqn:Ej; [|discriminate]. inversion H; subst.
    destruct (IH n j Ej) as [A B]. cbn [nth length]. split; [assumption|lia].
Qed.

(* a locator reads the value of the field of that name *)
Lemma get_field_value : forall schema fields name i,
  index_of schema name = Some i -> (length schema <= length fields)%nat ->
  get_field fields i = Ok (field_value schema fields name).
Proof.
  unfold field_value, get_field.
  induction schema as [|x schema IH]; intros fields name i H L; cbn [index_of] in H; [discriminate|].
  destruct fields as [|v fields]; cbn [length] in L; [lia|].
  cbn [combine find fst snd]. destruct (bytes_eqb x name) eqn:E.
  - inversion H; subst. reflexivity.
  - destruct (index_of schema name) as [j|] eqn:Ej; [|discriminate]. inversion H; subst.
    cbn [nth_error]. apply IH; [assumption|lia].
Qed.

Lemma field_value_firstn : forall schema fields name,
  field_value schema (firstn (length schema) fields) name = field_value schema fields name.
Proof. intros. unfold field_value. rewrite <- combine_firstn_l. reflexivity. Qed.

(* RewriteFields[name] as the specification reads it *)
Lemma chain_of_lookup : forall cfg name,
  chain_of cfg name = match lookup_rewrite (c_rewrite cfg) name with
                      | Some (rc :: ch) => Some (rc :: ch)
                      | _ => None
                      end.
Proof.
  intros cfg name. unfold chain_of. induction (c_rewrite cfg) as [|[k v] m IH]; cbn [find lookup_rewrite fst].
  - reflexivity.
  - destruct (bytes_eqb k name); [destruct v; reflexivity | exact IH].
Qed.

Lemma lookup_rewrite_In : forall m name ch, lookup_rewrite m name = Some ch -> exists k, In (k, ch) m.
Proof.
  induction m as [|[k v] m IH]; intros name ch H; cbn [lookup_rewrite] in H; [discriminate|].
  destruct (bytes_eqb k name).
  - inversion H; subst. exists k. left. reflexivity.
  - destruct (IH name ch H) as [k' Hk]. exists k'. right. exact Hk.
Qed.

Lemma build_rewriters_cons : forall schema cfg n names rws,
  build_rewriters schema cfg (n :: names) = Ok rws ->
  exists rwopt rws', rws = rwopt :: rws' /\
    match lookup_rewrite (c_rewrite cfg) n with
    | None => Ok None
    | Some chain => new_rewriters schema chain
    end = Ok rwopt /\
    build_rewriters schema cfg names = Ok rws'.
Proof.
  intros schema cfg n names rws H. cbn [build_rewriters] in H.
  destruct (match lookup_rewrite (c_rewrite cfg) n with
            | Some chain => new_rewriters schema chain
            | None => Ok None
            end) as [rwopt| |]; cbn [obind] in H; try discriminate.
  destruct (build_rewriters schema cfg names) as [rws'| |]; cbn [obind] in H; try discriminate.
  inversion H. exists rwopt, rws'. repeat split.
Qed.

Lemma locate_all_cons : forall schema n names locs,
  locate_all schema (n :: names) = Ok locs ->
  exists loc locs', locs = loc :: locs' /\ index_of schema n = Some loc /\ locate_all schema names = Ok locs'.
Proof.
  intros schema n names locs H. cbn [locate_all] in H. destruct (index_of schema n) as [loc|]; [|discriminate].
  destruct (locate_all schema names) as [locs'| |]; cbn [obind] in H; try discriminate.
  inversion H. exists loc, locs'. repeat split.
Qed.

Lemma verified_chain : forall schema cfg,
  verify_config schema cfg = true -> chains_ok schema cfg.
Proof.
  intros schema cfg V name ch L. unfold verify_config in V. apply andb_true_iff in V. destruct V as [_ V].
  rewrite forallb_forall in V. destruct (lookup_rewrite_In _ _ _ L) as [k Hk].
  specialize (V _ Hk). cbn [fst snd] in V. apply andb_true_iff in V. apply V.
Qed.

Lemma verified_env : forall schema cfg,
  verify_config schema cfg = true -> Forall (fun n => In n schema) (c_env cfg).
Proof.
  intros schema cfg V. unfold verify_config in V.
  apply andb_true_iff in V. destruct V as [V _]. apply andb_true_iff in V. destruct V as [V _].
  apply andb_true_iff in V. destruct V as [_ V]. rewrite forallb_forall in V.
  apply Forall_forall. intros n Hn. apply has_name_In. apply V. exact Hn.
Qed.

Lemma verified_hidden : forall schema cfg,
  verify_config schema cfg = true -> Forall (fun n => In n schema) (c_hidden cfg).
Proof.
  intros schema cfg V. unfold verify_config in V.
  apply andb_true_iff in V. destruct V as [V _]. apply andb_true_iff in V. destruct V as [_ V].
  rewrite forallb_forall in V. apply Forall_forall. intros n Hn. apply has_name_In. apply V. exact Hn.
Qed.

Lemma window_app : forall a b n, n = length a -> window (a ++ b) n = Ok b.
Proof.
  intros a b n ->. unfold window. replace (length a <=? length (a ++ b))%nat with true by (rewrite app_length; lia).
  rewrite skipn_app. rewrite skipn_all. rewrite Nat.sub_diag. reflexivity.
Qed.

Lemma unwindow_app : forall a b w n, n = length a -> unwindow (a ++ b) n w = a ++ w.
Proof.
  intros a b w n ->. unfold unwindow. rewrite firstn_app. rewrite firstn_all. rewrite Nat.sub_diag.
  cbn [firstn]. rewrite app_nil_r. reflexivity.
Qed.

(* a writer run on the window buffer[p:], the window put back *)
Lemma window_writes : forall (r : bytes -> outcome (bytes * nat)) d,
  (forall old tail, length old = length d -> r (old ++ tail) = Ok (d ++ tail, length d)) ->
  writes (fun b p => sub <-- window b p ;; '(sub, n) <-- r sub ;; Ok (unwindow b p sub, (p + n)%nat)) d.
Proof.
  intros r d H pre old tail Hold. rewrite window_app by reflexivity. cbn [obind].
  rewrite (H old tail Hold). cbn [obind]. rewrite unwindow_app by reflexivity. reflexivity.
Qed.

Section Rewriters.
  Variable schema : list bytes.

  (* what a constructed rewriter does, for a record with a slot for every schema field *)
  Definition rewriter_meets (rw : rewriter) (ch : list rewriter_cfg) : Prop :=
    forall rec value, (length schema <= length (r_fields rec))%nat ->
      max_field_length rw value rec = Ok (rewrite_max schema (r_fields rec) ch value) /\
      forall old tail,
        length old = length (rewrite_spec schema (r_fields rec) (r_unescaped rec) ch value) ->
        write_field_body rw value rec (old ++ tail)
        = Ok (rewrite_spec schema (r_fields rec) (r_unescaped rec) ch value ++ tail,
              length (rewrite_spec schema (r_fields rec) (r_unescaped rec) ch value)).

  (* the chains VerifyRewriterConfigs accepts, each with the rewriter NewRewritersFromConfig builds from it *)
  Lemma verified_chain_ind : forall P : list rewriter_cfg -> rewriter -> Prop,
    P [RcCopy] RwCopy -> P [RcUnescape] RwUnescape ->
    (forall f loc rest nx, index_of schema f = Some loc -> P rest nx ->
                           P (RcInline f :: rest) (RwInline (f ++ [61]) loc nx)) ->
    forall ch, ch <> [] -> verify_rewriters schema ch = true ->
    exists rw, new_rewriters schema ch = Ok (Some rw) /\ P ch rw.
  Proof.
    intros P Hc Hu Hi. induction ch as [|rc rest IH]; intros Hne V; [contradiction|].
    cbn [verify_rewriters] in V. apply andb_true_iff in V. destruct V as [V1 V2].
    destruct rc as [| |f]; cbn [verify_rewriter] in V1.
    - (* copy: must be last *)
      destruct rest; [|discriminate]. exists RwCopy. split; [reflexivity|exact Hc].
    - (* unescape: must be last *)
      destruct rest; [|discriminate]. exists RwUnescape. split; [reflexivity|exact Hu].
    - (* inline: needs a next rewriter and a known field *)
      apply andb_true_iff in V1. destruct V1 as [V1 Vf]. apply andb_true_iff in V1. destruct V1 as [Vn _].
      destruct (IH ltac:(destruct rest; discriminate) V2) as (nx & Hnx & Pnx).
      unfold has_name in Vf. destruct (index_of schema f) as [loc|] eqn:Eloc; [|discriminate].
      exists (RwInline (f ++ [61]) loc nx). split; [|exact (Hi f loc rest nx Eloc Pnx)].
      cbn [new_rewriters]. rewrite Hnx. cbn [obind]. rewrite Eloc, (proj1 (index_of_nth _ _ _ Eloc)). reflexivity.
  Qed.

  Lemma verified_rewriters_spec : forall ch,
    ch <> [] -> verify_rewriters schema ch = true ->
    exists rw, new_rewriters schema ch = Ok (Some rw) /\ rewriter_meets rw ch.
  Proof.
    apply verified_chain_ind.
    - intros rec value L. split; [reflexivity|]. intros old tail Hold. cbn [rewrite_spec write_field_body] in *.
      apply copy_at_0. exact Hold.
    - intros rec value L. split; [reflexivity|]. intros old tail Hold. cbn [rewrite_spec write_field_body] in *.
      destruct (r_unescaped rec).
      + apply copy_at_0. exact Hold.
      + rewrite <- unescape_syslog_eq in *.
        destruct (find_first syslog_unescaper value) as [first|] eqn:F.
        * apply run_to_buffer_spec; assumption.
        * rewrite find_first_none_ref in * by assumption. apply copy_at_0. exact Hold.
    - intros f loc rest nx Eloc Mnx rec value L. destruct (Mnx rec value L) as [Mmax Mwrite].
      cbn [max_field_length write_field_body rewrite_max rewrite_spec].
      rewrite (get_field_value schema (r_fields rec) f loc Eloc L). cbn [obind].
      rewrite Mmax. cbn [obind].
      destruct (is_nil (field_value schema (r_fields rec) f)) eqn:En.
      + split; [reflexivity|]. exact Mwrite.
      + split.
        { rewrite app_length. reflexivity. }
        (* name=, the value, a space: three copies; then the next rewriter on the window behind them *)
        intros old tail. rewrite (app_assoc f [61]).
        exact (copy_then_writes (f ++ [61]) _ _ _ (copy_then_writes _ _ _ _ (copy_then_writes [32] _ _ _
                 (window_writes _ _ Mwrite))) [] old tail).
  Qed.

  (* what is written never exceeds what was reserved *)
  Lemma rewrite_spec_le_max : forall fields unescaped ch value,
    (length (rewrite_spec schema fields unescaped ch value) <= rewrite_max schema fields ch value)%nat.
  Proof.
    induction ch as [|rc rest IH]; intros value; cbn [rewrite_spec rewrite_max]; [lia|].
    destruct rc as [| |f].
    - lia.
    - destruct unescaped; [lia|]. apply unescape_ref_length.
    - destruct (is_nil (field_value schema fields f)); [apply IH|].
      specialize (IH value). rewrite !app_length. cbn [length]. lia.
  Qed.
End Rewriters.

(* one rewritten value: reserve, write, patch *)
Lemma encode_rewritten_spec : forall schema head ch value rec pre old tail,
  rewriter_meets schema head ch -> (length schema <= length (r_fields rec))%nat ->
  let out := rewrite_spec schema (r_fields rec) (r_unescaped rec) ch value in
  let data := rw_header (rewrite_max schema (r_fields rec) ch value) (length out) ++ out in
  length old = length data ->
  encode_rewritten head value rec (pre ++ old ++ tail) (length pre)
  = Ok (pre ++ data ++ tail, (length pre + length data)%nat).
Proof.
  intros schema head ch value rec pre old tail M L out data Hold.
  destruct (M rec value L) as [Mmax Mwrite]. fold out in Mwrite.
  set (maxlen := rewrite_max schema (r_fields rec) ch value) in *.
  unfold encode_rewritten. rewrite Mmax. cbn [obind].
  (* the same for both header widths: [h n] is the header for length n *)
  assert (G : forall hdr h,
            (forall n, writes (fun b p => hdr b p n) (h n)) -> (forall n, length (h n) = length (h maxlen)) ->
            length old = length (h (length out) ++ out) ->
            ('(buf', pos') <-- hdr (pre ++ old ++ tail) (length pre) maxlen ;;
             win <-- window buf' pos' ;;
             '(win, actual) <-- write_field_body head value rec win ;;
             buf' <-- (if (actual =? maxlen)%nat then Ok (unwindow buf' pos' win)
                       else '(b, _) <-- hdr (unwindow buf' pos' win) (length pre) actual ;; Ok b) ;;
             Ok (buf', (pos' + actual)%nat))
            = Ok (pre ++ (h (length out) ++ out) ++ tail, (length pre + length (h (length out) ++ out))%nat)).
  { intros hdr h Hh Hl Ho. rewrite app_length, Hl in Ho.
    destruct (split_len old _ _ Ho) as (oh & ob & -> & Hoh & Hob).
    rewrite <- app_assoc, (Hh maxlen pre oh (ob ++ tail) Hoh). cbn [obind].
    rewrite app_assoc, <- app_length, window_app by reflexivity. cbn [obind].
    rewrite (Mwrite ob tail Hob). cbn [obind]. rewrite unwindow_app by reflexivity.
    rewrite <- !app_assoc, !app_length, (Hl (length out)), <- Nat.add_assoc.
    destruct (Nat.eqb_spec (length out) maxlen) as [Eq|Ne]; cbn [obind].
    - rewrite Eq. reflexivity.
    - rewrite (Hh (length out) pre (h maxlen) (out ++ tail)) by (symmetry; apply Hl). reflexivity. }
  subst data. unfold rw_header in *.
  destruct (N.of_nat maxlen <? 65536).
  - exact (G encode_string_len16 (fun n => 218 :: be16 (N.of_nat n mod 65536)) string_len16_writes (fun n => eq_refl) Hold).
  - exact (G encode_string_len32 (fun n => 219 :: be32 (N.of_nat n mod 4294967296)) string_len32_writes (fun n => eq_refl) Hold).
Qed.

Section Loops.
  Variables (schema : list bytes) (cfg : ser_config) (rec : record).
  Hypothesis Hlen : (length schema <= length (r_fields rec))%nat.
  Hypothesis Hver : forall name ch,
    lookup_rewrite (c_rewrite cfg) name = Some ch -> verify_rewriters schema ch = true.

  Definition field_bytes (kv : bytes * bytes) : bytes :=
    if is_hidden cfg (fst kv) || is_nil (snd kv) then []
    else enc_str (fst kv) ++ enc_value schema cfg rec (fst kv) (snd kv).

  Definition field_item (kv : bytes * bytes) : list (bytes * bytes) :=
    if is_hidden cfg (fst kv) || is_nil (snd kv) then []
    else [(fst kv, out_value schema cfg rec (fst kv) (snd kv))].

  Lemma field_bytes_pair : forall n v, field_bytes (n, v) =
    if is_hidden cfg n || is_nil v then [] else enc_str n ++ enc_value schema cfg rec n v.
  Proof. reflexivity. Qed.
  Lemma field_item_pair : forall n v, field_item (n, v) =
    if is_hidden cfg n || is_nil v then [] else [(n, out_value schema cfg rec n v)].
  Proof. reflexivity. Qed.

  Definition mask_of (n : bytes) : bool := has_name (c_env cfg) n || has_name (c_hidden cfg) n.

  Lemma mask_of_hidden : forall n, mask_of n = is_hidden cfg n.
  Proof. intros n. unfold mask_of, is_hidden. rewrite !has_name_mem. reflexivity. Qed.

  (* the rewriter NewEventSerializer keeps for a field is the one of its configured chain *)
  Lemma field_rewriter : forall n rwopt,
    match lookup_rewrite (c_rewrite cfg) n with
    | None => Ok None
    | Some chain => new_rewriters schema chain
    end = Ok rwopt ->
    match rwopt with
    | None => chain_of cfg n = None
    | Some head => exists ch, chain_of cfg n = Some ch /\ ch <> [] /\ verify_rewriters schema ch = true /\
                              new_rewriters schema ch = Ok (Some head) /\ rewriter_meets schema head ch
    end.
  Proof.
    intros n rwopt Hrw. rewrite chain_of_lookup.
    destruct (lookup_rewrite (c_rewrite cfg) n) as [[|rc ch]|] eqn:EL.
    - inversion Hrw. reflexivity.
    - destruct (verified_rewriters_spec schema (rc :: ch) ltac:(discriminate) (Hver _ _ EL)) as (rw & Hnew & M).
      rewrite Hnew in Hrw. inversion Hrw; subst. exists (rc :: ch).
      split; [reflexivity|]. split; [discriminate|]. split; [exact (Hver _ _ EL)|]. split; [exact Hnew | exact M].
    - inversion Hrw. reflexivity.
  Qed.

  Lemma encode_value_spec : forall n v rwopt,
    match lookup_rewrite (c_rewrite cfg) n with
    | None => Ok None
    | Some chain => new_rewriters schema chain
    end = Ok rwopt ->
    writes (fun b p => match rwopt with
                       | Some head => encode_rewritten head v rec b p
                       | None => encode_string_auto b p v
                       end) (enc_value schema cfg rec n v).
  Proof.
    intros n v rwopt Hrw. apply field_rewriter in Hrw. unfold enc_value. destruct rwopt as [head|].
    - destruct Hrw as (ch & -> & _ & _ & _ & M). intros pre old tail.
      apply (encode_rewritten_spec schema head ch v rec pre old tail M Hlen).
    - rewrite Hrw. apply encode_string_auto_writes.
  Qed.

  Lemma encode_fields_spec : forall names fields rws cnt,
    length fields = length names ->
    build_rewriters schema cfg names = Ok rws ->
    writes_to (fun b p => encode_fields (map mask_of names) (map enc_str names) rws fields rec b p cnt)
              (flat_map field_bytes (combine names fields))
              (fun b p => Ok (b, p, (cnt + length (flat_map field_item (combine names fields)))%nat)).
  Proof.
    induction names as [|n names IH]; intros fields rws cnt Hl Hb.
    - destruct fields; [|discriminate]. cbn [combine flat_map length encode_fields]. rewrite Nat.add_0_r. apply writes_nil.
    - destruct fields as [|v fields]; [discriminate|]. cbn [length] in Hl.
      destruct (build_rewriters_cons _ _ _ _ _ Hb) as (rwopt & rws' & -> & Erw & Eb).
      cbn [combine flat_map map encode_fields].
      rewrite field_bytes_pair, field_item_pair, mask_of_hidden.
      destruct (is_hidden cfg n || is_nil v) eqn:Emask.
      + apply IH; [lia | exact Eb].
      + (* the key, the value, the remaining fields *)
        cbn [app length]. rewrite <- Nat.add_succ_comm, <- app_assoc.
        exact (copy_then_writes _ _ _ _ (writes_seq _ _ _ _ _ (encode_value_spec n v rwopt Erw)
                                           (IH fields rws' (S cnt) ltac:(lia) Eb))).
  Qed.

End Loops.

Definition env_bytes (schema fields : list bytes) (name : bytes) : bytes :=
  enc_str name ++ enc_str (field_value schema fields name).

Lemma encode_env_spec : forall schema names locs fields,
  (length schema <= length fields)%nat ->
  locate_all schema names = Ok locs ->
  writes (fun b p => encode_env locs (map enc_str names) fields b p) (flat_map (env_bytes schema fields) names).
Proof.
  intros schema. induction names as [|n names IH]; intros locs fields Hf Hloc.
  - inversion Hloc; subst. exact writes_ok.
  - destruct (locate_all_cons _ _ _ _ Hloc) as (loc & locs' & -> & Eloc & El).
    cbn [flat_map map encode_env]. rewrite (get_field_value schema fields n loc Eloc Hf). cbn [obind].
    unfold env_bytes at 1. rewrite <- app_assoc.
    exact (copy_then_writes _ _ _ _ (writes_seq _ _ _ _ _ (encode_string_auto_writes _) (IH locs' fields Hf El))).
Qed.

Lemma enc_str_length_le : forall s, (length (enc_str s) <= 5 + length s)%nat.
Proof.
  intros s. unfold enc_str. rewrite app_length. rewrite str_header_length.
  destruct (N.of_nat (length s) <? 16); [lia|]. destruct (N.of_nat (length s) <? 65536); lia.
Qed.

Lemma serialize_string_spec : forall key, serialize_string key = Ok (enc_str key).
Proof.
  intros key. unfold serialize_string.
  destruct (split_le (repeat 0 (5 + length key)) (length (enc_str key))) as (old & tail & E & Hold).
  { rewrite repeat_length. apply enc_str_length_le. }
  rewrite E. rewrite (encode_string_auto_writes key [] old tail Hold : encode_string_auto (old ++ tail) 0 key = _).
  cbn [obind app length Nat.add].
  apply src_slice_0.
Qed.

Lemma serialize_strings_spec : forall keys, serialize_strings keys = Ok (map enc_str keys).
Proof.
  induction keys as [|k keys IH]; [reflexivity|].
  cbn [serialize_strings map]. rewrite serialize_string_spec. cbn [obind]. rewrite IH. reflexivity.
Qed.

Lemma locate_all_ok : forall schema names,
  Forall (fun n => In n schema) names -> exists locs, locate_all schema names = Ok locs /\ length locs = length names.
Proof.
  intros schema names H. induction H as [|n names Hn H IH].
  - exists []. split; reflexivity.
  - destruct IH as (locs & E & L). destruct (index_of_In _ _ Hn) as [i Ei].
    exists (i :: locs). cbn [locate_all]. rewrite Ei. rewrite E. cbn [obind length]. split; [reflexivity|lia].
Qed.

Lemma locate_all_length : forall schema names locs, locate_all schema names = Ok locs -> length locs = length names.
Proof.
  induction names as [|n names IH]; intros locs H.
  - inversion H; reflexivity.
  - destruct (locate_all_cons _ _ _ _ H) as (loc & locs' & -> & _ & E). cbn [length]. f_equal. exact (IH _ E).
Qed.

Lemma new_rewriters_verified : forall schema ch,
  verify_rewriters schema ch = true -> exists r, new_rewriters schema ch = Ok r.
Proof.
  intros schema ch V. destruct ch as [|rc ch].
  - exists None. reflexivity.
  - destruct (verified_rewriters_spec schema (rc :: ch) ltac:(discriminate) V) as (rw & E & _).
    exists (Some rw). exact E.
Qed.

Lemma build_rewriters_ok : forall schema cfg names,
  (forall name ch, lookup_rewrite (c_rewrite cfg) name = Some ch -> verify_rewriters schema ch = true) ->
  exists rws, build_rewriters schema cfg names = Ok rws.
Proof.
  intros schema cfg names V. induction names as [|n names [rws IH]].
  - exists []. reflexivity.
  - cbn [build_rewriters]. destruct (lookup_rewrite (c_rewrite cfg) n) as [ch|] eqn:EL.
    + destruct (new_rewriters_verified schema ch (V _ _ EL)) as [r Er]. rewrite Er. cbn [obind].
      rewrite IH. cbn [obind]. eexists. reflexivity.
    + cbn [obind]. rewrite IH. cbn [obind]. eexists. reflexivity.
Qed.

(* what NewEventSerializer leaves in the serializer *)
Lemma new_serializer_inv : forall schema cfg B ser,
  new_serializer schema cfg B = Ok ser ->
  s_masks ser = map (mask_of cfg) schema /\ s_keys ser = map enc_str schema /\
  s_env_keys ser = map enc_str (c_env cfg) /\ locate_all schema (c_env cfg) = Ok (s_env_locs ser) /\
  build_rewriters schema cfg schema = Ok (s_rewriters ser) /\ s_buflen ser = B.
Proof.
  intros schema cfg B ser H. unfold new_serializer in H.
  destruct (locate_all schema (c_env cfg)) as [locs| |]; cbn [obind] in H; try discriminate.
  destruct (build_rewriters schema cfg schema) as [rws| |]; cbn [obind] in H; try discriminate.
  rewrite !serialize_strings_spec in H. cbn [obind] in H. inversion H; subst. cbn.
  repeat split; reflexivity.
Qed.

(* constructible: the environment fields exist and the chains are valid *)
Theorem new_serializer_ok_gen : forall schema cfg B,
  Forall (fun n => In n schema) (c_env cfg) -> chains_ok schema cfg ->
  exists ser, new_serializer schema cfg B = Ok ser.
Proof.
  intros schema cfg B E V. unfold new_serializer.
  destruct (locate_all_ok schema (c_env cfg) E) as (locs & El & _). rewrite El. cbn [obind].
  destruct (build_rewriters_ok schema cfg schema V) as [rws Er].
  rewrite Er. cbn [obind]. rewrite !serialize_strings_spec. cbn [obind]. eexists. reflexivity.
Qed.

(* every configuration accepted by VerifyConfig is constructible: no error, no panic *)
Theorem new_serializer_ok : forall schema cfg B,
  verify_config schema cfg = true -> exists ser, new_serializer schema cfg B = Ok ser.
Proof.
  intros schema cfg B V. apply new_serializer_ok_gen; [apply verified_env; exact V | apply verified_chain; exact V].
Qed.

Lemma enc_fields_as_loop : forall schema cfg rec,
  enc_fields schema cfg rec
  = flat_map (field_bytes schema cfg rec) (combine schema (firstn (length schema) (r_fields rec))).
Proof. intros. rewrite <- combine_firstn_l. reflexivity. Qed.

Lemma visible_as_loop : forall schema cfg rec,
  visible schema cfg rec
  = flat_map (field_item schema cfg rec) (combine schema (firstn (length schema) (r_fields rec))).
Proof. intros. rewrite <- combine_firstn_l. reflexivity. Qed.

Lemma enc_env_as_loop : forall schema cfg rec,
  enc_env schema cfg rec
  = flat_map (env_bytes schema (firstn (length schema) (r_fields rec))) (c_env cfg).
Proof.
  intros. unfold enc_env, env_bytes. apply flat_map_ext. intros n. rewrite field_value_firstn. reflexivity.
Qed.

Lemma flat_map_filter_length : forall {A B} (c : A -> bool) (g : A -> B) (l : list A),
  (length (flat_map (fun x => if c x then [] else [g x]) l) <= length l)%nat.
Proof.
  intros A B c g l. induction l as [|x l IH]; [cbn; lia|].
  cbn [flat_map]. rewrite app_length. destruct (c x); cbn [length]; lia.
Qed.

Lemma visible_count_le : forall schema cfg rec, (length (visible schema cfg rec) <= length schema)%nat.
Proof.
  intros schema cfg rec. unfold visible.
  pose proof (flat_map_filter_length (fun kv : bytes * bytes => is_hidden cfg (fst kv) || is_nil (snd kv))
                (fun kv => (fst kv, out_value schema cfg rec (fst kv) (snd kv))) (combine schema (r_fields rec))) as H.
  rewrite combine_length in H. exact (Nat.le_trans _ _ _ H (Nat.le_min_l _ _)).
Qed.

(* encodeRecord up to its last test (position == len(buffer)), from any start position; the reserved slot written as
   a sum, the two map headers as one conditional writer *)
Definition encode_body (ser : serializer) (rec : record) (fields : list bytes) (buf : bytes) (start : nat)
  : outcome (bytes * nat) :=
  let cls := (length fields + 1)%nat in
  let nenv := length (s_env_locs ser) in
  '(buf, pos) <-- encode_array_len4 buf start 2 ;;
  '(buf, pos) <-- encode_event_time buf pos (r_unix rec) (r_nsec rec) ;;
  '(buf, q, cnt) <-- encode_fields (s_masks ser) (s_keys ser) (s_rewriters ser) fields rec buf
                       (pos + (if (N.of_nat cls <? 16)%N then 1 else 3))%nat 1 ;;
  '(buf, _) <-- (if N.of_nat cls <? 16 then encode_map_len4 buf pos cnt else encode_map_len16 buf pos cnt) ;;
  '(buf, pos) <-- encode_string4 buf q str_environment ;;
  '(buf, pos) <-- (if N.of_nat nenv <? 16 then encode_map_len4 buf pos nenv else encode_map_len16 buf pos nenv) ;;
  encode_env (s_env_locs ser) (s_env_keys ser) fields buf pos.

Lemma encode_record_on_body : forall ser rec buffer,
  encode_record_on ser rec buffer
  = fields <-- (if (length (s_masks ser) <=? length (r_fields rec))%nat
                then Ok (firstn (length (s_masks ser)) (r_fields rec)) else Panic site_slice) ;;
    '(buf, pos) <-- encode_body ser rec fields buffer 0 ;;
    if (pos =? length buf)%nat then Ok (buf, O) else Ok (buf, pos).
Proof.
  intros. unfold encode_record_on, encode_body, reserve_len4, reserve_len16.
  destruct (length (s_masks ser) <=? length (r_fields rec))%nat; [|reflexivity]. cbn [obind].
  set (fields := firstn (length (s_masks ser)) (r_fields rec)).
  destruct (encode_array_len4 buffer 0 2) as [[b1 p1]| |]; cbn [obind]; [|reflexivity|reflexivity].
  destruct (encode_event_time b1 p1 (r_unix rec) (r_nsec rec)) as [[b2 p2]| |]; cbn [obind]; [|reflexivity|reflexivity].
  destruct (N.of_nat (length fields + 1) <? 16);
    (destruct (encode_fields _ _ _ fields rec b2 _ 1) as [[[b3 p3] c3]| |]; cbn [obind]; [|reflexivity|reflexivity]);
    [destruct (encode_map_len4 b3 p2 c3) as [[b4 p4]| |] | destruct (encode_map_len16 b3 p2 c3) as [[b4 p4]| |]];
    cbn [obind]; try reflexivity;
    (destruct (encode_string4 b4 p3 str_environment) as [[b5 p5]| |]; cbn [obind]; [|reflexivity|reflexivity]);
    destruct (if N.of_nat (length (s_env_locs ser)) <? 16 then _ else _) as [[b6 p6]| |]; reflexivity.
Qed.

(* encodeRecord writes exactly the event *)
Lemma encode_body_spec : forall schema cfg rec B ser,
  chains_ok schema cfg ->
  (length schema <= length (r_fields rec))%nat ->
  new_serializer schema cfg B = Ok ser ->
  writes (encode_body ser rec (firstn (length schema) (r_fields rec))) (encode_spec schema cfg rec).
Proof.
  intros schema cfg rec B ser V L Hnew.
  destruct (new_serializer_inv _ _ _ _ Hnew) as (Hm & Hk & Hek & Hloc & Hrw & Hb).
  unfold encode_body, encode_spec. rewrite Hm, Hk, Hek, (locate_all_length _ _ _ Hloc).
  rewrite enc_fields_as_loop, enc_env_as_loop, visible_as_loop.
  set (fields := firstn (length schema) (r_fields rec)).
  assert (Hfl : length fields = length schema) by (subst fields; rewrite firstn_length; lia).
  rewrite Hfl.
  pose proof (visible_count_le schema cfg rec) as Hvis. rewrite visible_as_loop in Hvis. fold fields in Hvis.
  apply (Nat.add_le_mono_l _ _ 1) in Hvis. rewrite (Nat.add_comm 1 (length schema)) in Hvis.
  exact (writes_seq _ _ _ _ _ (array_len4_writes 2 ltac:(cbn; lia))
          (writes_seq _ _ _ _ _ (event_time_writes _ _)
            (reserve_then_writes _ (fun b p c => if N.of_nat (length schema + 1) <? 16 then encode_map_len4 b p c else encode_map_len16 b p c)
               _ _ _ _ _ _ _ (map_header_length _ _)
               (encode_fields_spec schema cfg rec L V schema fields _ 1 Hfl Hrw)
               (map_header_writes _ _ Hvis)
               (writes_seq _ _ _ _ _ (encode_string_with_writes _ str_environment _ (string_len4_writes (length str_environment) ltac:(cbn; lia)))
                  (writes_seq _ _ _ _ _ (map_header_writes _ _ (le_n _))
                     (encode_env_spec schema (c_env cfg) _ fields ltac:(lia) Hloc)))))).
Qed.

(* encodeRecord on ANY buffer longer than the event (the preallocated one or a one-off one; the serializer's own
   buffer length plays no role) *)
Theorem serialize_on_spec : forall schema cfg rec B ser buffer,
  chains_ok schema cfg ->
  (length schema <= length (r_fields rec))%nat ->
  new_serializer schema cfg B = Ok ser ->
  (length (encode_spec schema cfg rec) < length buffer)%nat ->
  serialize_on ser rec buffer = Ok (encode_spec schema cfg rec).
Proof.
  intros schema cfg rec B ser buffer V L Hnew Hfit.
  destruct (new_serializer_inv _ _ _ _ Hnew) as (Hm & _).
  unfold serialize_on. rewrite encode_record_on_body, Hm, map_length.
  replace (length schema <=? length (r_fields rec))%nat with true by lia. cbn [obind].
  destruct (split_le buffer (length (encode_spec schema cfg rec)) ltac:(lia)) as (old & tail & -> & Hold).
  rewrite app_length in Hfit.
  rewrite (encode_body_spec schema cfg rec B ser V L Hnew [] old tail Hold : encode_body ser rec _ (old ++ tail) 0 = _).
  cbn [obind app length Nat.add].
  (* position < len(buffer): the stream is buffer[:position] *)
  replace (length (encode_spec schema cfg rec) =? length (encode_spec schema cfg rec ++ tail))%nat with false
    by (rewrite app_length; lia).
  apply src_slice_0.
Qed.

Lemma rw_header_length_le : forall m a, (length (rw_header m a) <= 5)%nat.
Proof. intros. rewrite rw_header_length. destruct (N.of_nat m <? 65536)%N; lia. Qed.

Lemma map_header_length_le : forall c n, (length (map_header c n) <= 3)%nat.
Proof. intros. rewrite map_header_length. destruct (N.of_nat c <? 16)%N; lia. Qed.

Lemma event_time_bytes_length : forall rec, length (event_time_bytes rec) = 8%nat.
Proof. reflexivity. Qed.

Section Bound.
  Variables (schema : list bytes) (cfg : ser_config) (rec : record).
  Hypothesis Hlen : (length schema <= length (r_fields rec))%nat.
  Hypothesis Hver : chains_ok schema cfg.

  (* one visible value: header (at most 5 bytes) + at most what MaxFieldLength reports / the value *)
  Lemma value_bound : forall n v rwopt,
    match lookup_rewrite (c_rewrite cfg) n with
    | None => Ok None
    | Some chain => new_rewriters schema chain
    end = Ok rwopt ->
    exists k, match rwopt with
              | Some head => max_field_length head v rec
              | None => Ok (length v)
              end = Ok k /\ (length (enc_value schema cfg rec n v) <= 5 + k)%nat.
  Proof.
    intros n v rwopt Hrw. apply (field_rewriter schema cfg Hver) in Hrw. unfold enc_value. destruct rwopt as [head|].
    - destruct Hrw as (ch & -> & _ & _ & _ & M). destruct (M rec v Hlen) as [Mmax _].
      exists (rewrite_max schema (r_fields rec) ch v). split; [exact Mmax|]. rewrite app_length.
      pose proof (rw_header_length_le (rewrite_max schema (r_fields rec) ch v)
                    (length (rewrite_spec schema (r_fields rec) (r_unescaped rec) ch v))).
      pose proof (rewrite_spec_le_max schema (r_fields rec) (r_unescaped rec) ch v). lia.
    - rewrite Hrw. exists (length v). split; [reflexivity|apply enc_str_length_le].
  Qed.

  Lemma max_fields_len_bound : forall names fields rws acc,
    length fields = length names ->
    build_rewriters schema cfg names = Ok rws ->
    exists m, max_fields_len (map (mask_of cfg) names) (map enc_str names) rws fields rec acc = Ok m /\
              (acc + length (flat_map (field_bytes schema cfg rec) (combine names fields)) <= m)%nat.
  Proof.
    induction names as [|n names IH]; intros fields rws acc Hl Hb.
    - destruct fields; [|discriminate]. cbn. exists acc. split; [reflexivity|lia].
    - destruct fields as [|v fields]; [discriminate|]. cbn [length] in Hl.
      destruct (build_rewriters_cons _ _ _ _ _ Hb) as (rwopt & rws' & -> & Erw & Eb).
      cbn [combine flat_map map max_fields_len].
      rewrite field_bytes_pair. rewrite mask_of_hidden.
      destruct (is_hidden cfg n || is_nil v) eqn:Emask.
      + cbn [app]. apply IH; [lia | exact Eb].
      + destruct (value_bound n v rwopt) as (k & Hk & Hle).
        { destruct (lookup_rewrite (c_rewrite cfg) n); exact Erw. }
        rewrite Hk. cbn [obind].
        destruct (IH fields rws' (acc + length (enc_str n) + 5 + k)%nat ltac:(lia) Eb) as (m & Hm & Hmle).
        exists m. split; [exact Hm|]. rewrite !app_length. lia.
  Qed.
End Bound.

Lemma max_env_len_bound : forall schema names locs fields acc,
  (length schema <= length fields)%nat ->
  locate_all schema names = Ok locs ->
  exists m, max_env_len locs (map enc_str names) fields acc = Ok m /\
            (acc + length (flat_map (env_bytes schema fields) names) <= m)%nat.
Proof.
  intros schema names. induction names as [|n names IH]; intros locs fields acc Hf Hloc.
  - cbn [locate_all] in Hloc. inversion Hloc; subst. cbn. exists acc. split; [reflexivity|lia].
  - destruct (locate_all_cons _ _ _ _ Hloc) as (loc & locs' & -> & Eloc & El).
    cbn [flat_map map max_env_len].
    rewrite (get_field_value schema fields n loc Eloc Hf). cbn [obind].
    destruct (IH locs' fields (acc + length (enc_str n) + 5 + length (field_value schema fields n))%nat Hf El)
      as (m & Hm & Hmle).
    exists m. split; [exact Hm|]. unfold env_bytes at 1. rewrite !app_length.
    pose proof (enc_str_length_le (field_value schema fields n)). lia.
Qed.

(* maxEncodedLength never panics and is an upper bound of the length of the event: for every configuration with
   valid chains, every schema, every record *)
Theorem max_encoded_length_bound : forall schema cfg rec B ser,
  chains_ok schema cfg ->
  (length schema <= length (r_fields rec))%nat ->
  new_serializer schema cfg B = Ok ser ->
  exists m, max_encoded_length ser rec = Ok m /\ (length (encode_spec schema cfg rec) <= m)%nat.
Proof.
  intros schema cfg rec B ser V L Hnew.
  destruct (new_serializer_inv _ _ _ _ Hnew) as (Hm & Hk & Hek & Hloc & Hrw & Hb).
  unfold max_encoded_length. rewrite Hm, Hk, Hek. rewrite map_length.
  replace (length schema <=? length (r_fields rec))%nat with true by lia. cbn [obind].
  set (fields := firstn (length schema) (r_fields rec)).
  assert (Hfl : length fields = length schema) by (subst fields; rewrite firstn_length; lia).
  destruct (max_fields_len_bound schema cfg rec L V schema fields (s_rewriters ser) fixed_overhead Hfl Hrw)
    as (m1 & Hm1 & Hle1).
  rewrite Hm1. cbn [obind].
  destruct (max_env_len_bound schema (c_env cfg) (s_env_locs ser) fields m1 ltac:(lia) Hloc) as (m2 & Hm2 & Hle2).
  exists m2. split; [exact Hm2|].
  unfold encode_spec. rewrite enc_fields_as_loop, enc_env_as_loop. fold fields.
  rewrite !app_length.
  pose proof (map_header_length_le (length schema + 1) (1 + length (visible schema cfg rec))).
  pose proof (map_header_length_le (length (c_env cfg)) (length (c_env cfg))).
  pose proof (event_time_bytes_length rec).
  assert (length (enc_str str_environment) = 12%nat) by reflexivity.
  unfold fixed_overhead in Hle1. cbn [length]. lia.
Qed.

(* the buffer SerializeRecord chooses is longer than the bound *)
Lemma choose_buffer_length : forall buffer m, (m < length (choose_buffer buffer m))%nat.
Proof.
  intros buffer m. unfold choose_buffer. destruct (Nat.leb_spec (length buffer) m); [rewrite repeat_length|]; lia.
Qed.

(* ... hence strictly longer than the event, whatever the preallocated buffer is *)
Theorem max_length_bounds_event_lemma : forall schema cfg rec B ser,
  chains_ok schema cfg ->
  (length schema <= length (r_fields rec))%nat ->
  new_serializer schema cfg B = Ok ser ->
  exists m, max_encoded_length ser rec = Ok m /\
            (length (encode_spec schema cfg rec) <= m)%nat /\
            forall buffer, (length (encode_spec schema cfg rec) < length (choose_buffer buffer m))%nat.
Proof.
  intros schema cfg rec B ser V L Hnew.
  destruct (max_encoded_length_bound schema cfg rec B ser V L Hnew) as (m & Hm & Hle).
  exists m. split; [exact Hm|]. split; [exact Hle|]. intros buffer. pose proof (choose_buffer_length buffer m). lia.
Qed.

(* SerializeRecord after fix 413c995: for EVERY record and EVERY preallocated buffer (any length, any contents) the
   complete event - no panic, no dropped record *)
Theorem serialize_record_from_total : forall schema cfg rec B ser buffer,
  chains_ok schema cfg ->
  (length schema <= length (r_fields rec))%nat ->
  new_serializer schema cfg B = Ok ser ->
  serialize_record_from ser rec buffer = Ok (encode_spec schema cfg rec).
Proof.
  intros schema cfg rec B ser buffer V L Hnew. unfold serialize_record_from.
  destruct (max_length_bounds_event_lemma schema cfg rec B ser V L Hnew) as (m & Hm & _ & Hfit).
  rewrite Hm. cbn [obind]. apply (serialize_on_spec schema cfg rec B ser _ V L Hnew). apply Hfit.
Qed.

Theorem encode_buf_spec_lemma : forall schema cfg rec B ser,
  chains_ok schema cfg ->
  (length schema <= length (r_fields rec))%nat ->
  new_serializer schema cfg B = Ok ser ->
  serialize_record ser rec = Ok (encode_spec schema cfg rec).
Proof.
  intros schema cfg rec B ser V L Hnew. unfold serialize_record.
  apply (serialize_record_from_total schema cfg rec B ser _ V L Hnew).
Qed.

Definition small_pair (kv : bytes * bytes) : Prop :=
  N.of_nat (length (fst kv)) < 4294967296 /\ N.of_nat (length (snd kv)) < 4294967296.

Section Decode.
  Variables (schema : list bytes) (cfg : ser_config) (rec : record).

  (* one visible field's value, whatever header class the encoder chose *)
  Lemma decode_enc_value : forall f n v rest,
    N.of_nat (length (out_value schema cfg rec n v)) < 4294967296 ->
    decode (S f) (enc_value schema cfg rec n v ++ rest) = Some (VStr (out_value schema cfg rec n v), rest).
  Proof.
    intros f n v rest H. unfold enc_value, out_value in *. destruct (chain_of cfg n) as [ch|].
    - apply decode_rw_str; [apply rewrite_spec_le_max | exact H].
    - apply decode_enc_str. exact H.
  Qed.

  (* the visible fields, followed by whatever pairs come next *)
  Lemma dec_pairs_fields : forall f l m rest,
    Forall small_pair (flat_map (field_item schema cfg rec) l) ->
    dec_pairs (decode (S f)) (length (flat_map (field_item schema cfg rec) l) + m)
              (flat_map (field_bytes schema cfg rec) l ++ rest)
    = match dec_pairs (decode (S f)) m rest with
      | Some (kvs, r) => Some (map str_pair (flat_map (field_item schema cfg rec) l) ++ kvs, r)
      | None => None
      end.
  Proof.
    intros f l m rest. induction l as [|[n v] l IH]; intros Hs.
    - cbn [flat_map length map app Nat.add]. destruct (dec_pairs (decode (S f)) m rest) as [[kvs r]|]; reflexivity.
    - cbn [flat_map] in *. rewrite field_bytes_pair, field_item_pair in *.
      destruct (is_hidden cfg n || is_nil v).
      + cbn [app] in *. apply IH. exact Hs.
      + cbn [app length map Nat.add] in *. inversion Hs as [|? ? [Hk Hv] Hs']; subst. cbn [fst snd] in *.
        cbn [dec_pairs]. rewrite <- !app_assoc.
        rewrite decode_enc_str by exact Hk. rewrite decode_enc_value by exact Hv.
        rewrite IH by exact Hs'.
        destruct (dec_pairs (decode (S f)) m rest) as [[kvs r]|]; reflexivity.
  Qed.

  Lemma dec_pairs_env : forall f names rest,
    Forall small_pair (map (fun name => (name, field_value schema (r_fields rec) name)) names) ->
    dec_pairs (decode (S f)) (length names)
              (flat_map (fun name => enc_str name ++ enc_str (field_value schema (r_fields rec) name)) names ++ rest)
    = Some (map str_pair (map (fun name => (name, field_value schema (r_fields rec) name)) names), rest).
  Proof.
    intros f names rest. induction names as [|n names IH]; intros Hs.
    - reflexivity.
    - cbn [map flat_map length dec_pairs] in *. inversion Hs as [|? ? [Hk Hv] Hs']; subst. cbn [fst snd] in *.
      rewrite <- !app_assoc. rewrite decode_enc_str by exact Hk. rewrite decode_enc_str by exact Hv.
      rewrite IH by exact Hs'. reflexivity.
  Qed.

  Theorem decode_encode_lemma :
    strings_small schema cfg rec ->
    N.of_nat (length schema) < 65535 ->
    N.of_nat (length (c_env cfg)) < 65536 ->
    decode_all (encode_spec schema cfg rec) = Some (event_tree schema cfg rec, []).
  Proof.
    intros Hs Hns Hne. unfold strings_small in Hs. apply Forall_app in Hs. destruct Hs as [Hvis Henv].
    unfold decode_all.
    assert (Hfuel : exists f, length (encode_spec schema cfg rec) = S (S (S (S f)))).
    { unfold encode_spec. rewrite !app_length. rewrite event_time_bytes_length. cbn [length].
      eexists. cbn [Nat.add]. reflexivity. }
    destruct Hfuel as [f ->].
    unfold encode_spec, event_tree.
    set (tm := event_time_bytes rec).
    set (vis := visible schema cfg rec).
    (* root: fixarray of two *)
    cbn [app]. rewrite decode_fixarray_byte by lia. change (N.to_nat (146 - 144)) with 2%nat.
    cbn [dec_seq].
    (* the event time: fixext8, type 0 *)
    rewrite decode_fixext8.
    assert (Htm : N.of_nat (length tm) = 8) by reflexivity.
    rewrite <- Htm. rewrite read_body_app.
    (* the root map *)
    pose proof (visible_count_le schema cfg rec) as Hcnt. fold vis in Hcnt.
    match goal with
    | |- context [decode (S (S (S f))) ?arg] =>
        replace arg with ((map_header (length schema + 1) (1 + length vis)
                           ++ (enc_fields schema cfg rec ++ enc_str str_environment
                               ++ map_header (length (c_env cfg)) (length (c_env cfg)) ++ enc_env schema cfg rec)) ++ [])
          by (rewrite app_nil_r; reflexivity)
    end.
    rewrite (decode_map (S (S f)) (length schema + 1) (1 + length vis) _ []
               (map str_pair vis ++ [(VStr str_environment, VMap (map str_pair (env_pairs schema cfg rec)))])).
    - reflexivity.
    - lia.
    - lia.
    - (* the pairs: visible fields, then "environment" *)
      replace (1 + length vis)%nat with (length vis + 1)%nat by lia.
      unfold enc_fields, vis, visible. rewrite <- !app_assoc.
      rewrite (dec_pairs_fields (S f) (combine schema (r_fields rec)) 1) by exact Hvis.
      cbn [dec_pairs]. rewrite decode_enc_str by (cbn; lia).
      (* the nested map *)
      match goal with
      | |- context [decode (S (S f)) ?arg] =>
          replace arg with ((map_header (length (c_env cfg)) (length (c_env cfg)) ++ enc_env schema cfg rec) ++ [])
            by (rewrite ?app_nil_r; reflexivity)
      end.
      rewrite (decode_map (S f) (length (c_env cfg)) (length (c_env cfg)) _ [] (map str_pair (env_pairs schema cfg rec))).
      + reflexivity.
      + lia.
      + lia.
      + unfold enc_env, env_pairs. apply dec_pairs_env. exact Henv.
  Qed.
End Decode.

Lemma enc_str_length_ge : forall s, (length s <= length (enc_str s))%nat.
Proof. intros s. unfold enc_str. rewrite app_length. lia. Qed.

Lemma enc_value_length_ge : forall schema cfg rec n v,
  (length (out_value schema cfg rec n v) <= length (enc_value schema cfg rec n v))%nat.
Proof.
  intros. unfold out_value, enc_value. destruct (chain_of cfg n); [rewrite app_length; lia | apply enc_str_length_ge].
Qed.

Lemma fields_within : forall schema cfg rec l,
  Forall (fun kv => (length (fst kv) + length (snd kv) <= length (flat_map (field_bytes schema cfg rec) l))%nat)
         (flat_map (field_item schema cfg rec) l).
Proof.
  intros schema cfg rec. induction l as [|[n v] l IH]; [constructor|].
  cbn [flat_map]. rewrite field_bytes_pair, field_item_pair.
  destruct (is_hidden cfg n || is_nil v).
  - cbn [app]. exact IH.
  - cbn [app]. constructor.
    + cbn [fst snd]. rewrite !app_length.
      pose proof (enc_str_length_ge n). pose proof (enc_value_length_ge schema cfg rec n v). lia.
    + eapply Forall_impl; [|exact IH]. cbn beta. intros kv H. rewrite !app_length. lia.
Qed.

Lemma env_within : forall schema fields names,
  Forall (fun kv => (length (fst kv) + length (snd kv)
                     <= length (flat_map (fun name => enc_str name ++ enc_str (field_value schema fields name)) names))%nat)
         (map (fun name => (name, field_value schema fields name)) names).
Proof.
  intros schema fields. induction names as [|n names IH]; [constructor|].
  cbn [map flat_map]. constructor.
  - cbn [fst snd]. rewrite !app_length.
    pose proof (enc_str_length_ge n). pose proof (enc_str_length_ge (field_value schema fields n)). lia.
  - eapply Forall_impl; [|exact IH]. cbn beta. intros kv H. rewrite !app_length. lia.
Qed.

(* an event shorter than 2^32 bytes has only strings shorter than 2^32 bytes *)
Lemma strings_small_of_size : forall schema cfg rec,
  N.of_nat (length (encode_spec schema cfg rec)) < 4294967296 -> strings_small schema cfg rec.
Proof.
  intros schema cfg rec H. unfold strings_small. apply Forall_app. split.
  - pose proof (fields_within schema cfg rec (combine schema (r_fields rec))) as W.
    eapply Forall_impl; [|exact W]. cbn beta. intros kv Hkv.
    assert ((length (flat_map (field_bytes schema cfg rec) (combine schema (r_fields rec)))
             <= length (encode_spec schema cfg rec))%nat).
    { change (flat_map (field_bytes schema cfg rec) (combine schema (r_fields rec))) with (enc_fields schema cfg rec).
      unfold encode_spec; rewrite !app_length; lia. }
    split; lia.
  - pose proof (env_within schema (r_fields rec) (c_env cfg)) as W.
    eapply Forall_impl; [|exact W]. cbn beta. intros kv Hkv.
    assert ((length (flat_map (fun name => enc_str name ++ enc_str (field_value schema (r_fields rec) name)) (c_env cfg))
             <= length (encode_spec schema cfg rec))%nat).
    { change (flat_map _ (c_env cfg)) with (enc_env schema cfg rec).
      unfold encode_spec; rewrite !app_length; lia. }
    split; lia.
Qed.

(* what the serializer emits decodes to the record *)
Theorem decode_serialized_lemma : forall schema cfg rec B ser buffer,
  chains_ok schema cfg ->
  (length schema <= length (r_fields rec))%nat ->
  N.of_nat (length schema) < 65535 ->
  N.of_nat (length (c_env cfg)) < 65536 ->
  strings_small schema cfg rec ->
  new_serializer schema cfg B = Ok ser ->
  exists stream,
    serialize_record_from ser rec buffer = Ok stream /\ stream <> [] /\
    decode_all stream = Some (event_tree schema cfg rec, []).
Proof.
  intros schema cfg rec B ser buffer V L Hns Hne Hsm Hnew.
  exists (encode_spec schema cfg rec). split; [|split].
  - eapply serialize_record_from_total; eassumption.
  - unfold encode_spec. discriminate.
  - apply decode_encode_lemma; assumption.
Qed.

Lemma be32_length : forall n, length (be32 n) = 4%nat.
Proof. reflexivity. Qed.

Theorem event_time_lemma : forall rec,
  event_time_of (VExt 0 (event_time_bytes rec))
  = Some (Z.to_N (r_unix rec mod 4294967296), Z.to_N (r_nsec rec mod 4294967296)).
Proof.
  intros rec. unfold event_time_of, event_time_bytes.
  set (a := Z.to_N (r_unix rec mod 4294967296)). set (b := Z.to_N (r_nsec rec mod 4294967296)).
  assert (Ha : a < 4294967296) by (subst a; lia). assert (Hb : b < 4294967296) by (subst b; lia).
  change 4 with (N.of_nat (length (be32 a))). rewrite take_app.
  change (length (be32 b) =? 4)%nat with true. cbv iota.
  rewrite !be_val_be32 by assumption. reflexivity.
Qed.

(* inside the range of the EventTime format the timestamp is exact *)
Corollary event_time_exact_lemma : forall rec,
  (0 <= r_unix rec < 4294967296)%Z -> (0 <= r_nsec rec < 4294967296)%Z ->
  event_time_of (VExt 0 (event_time_bytes rec)) = Some (Z.to_N (r_unix rec), Z.to_N (r_nsec rec)).
Proof.
  intros rec Hu Hn. rewrite event_time_lemma. rewrite !Z.mod_small by lia. reflexivity.
Qed.

(* outside it the seconds wrap modulo 2^32: two records 2^32 s apart get the same event time *)
Corollary event_time_wraps_lemma : forall rec rec',
  r_unix rec' = (r_unix rec + 4294967296)%Z -> r_nsec rec' = r_nsec rec ->
  event_time_bytes rec' = event_time_bytes rec.
Proof.
  intros rec rec' Hu Hn. unfold event_time_bytes. rewrite Hu, Hn.
  replace ((r_unix rec + 4294967296) mod 4294967296)%Z with (r_unix rec mod 4294967296)%Z; [reflexivity|].
  rewrite <- (Z.mod_add (r_unix rec) 1 4294967296) by lia. f_equal; lia.
Qed.

(* a concrete instance (test of the statements, not a proof of them):
   schema vhost app message extra comp; environment vhost, app; hidden comp;
   message rewritten by inline(comp) -> unescape; record bar, myapp, "T\n1\", Y, K2 *)

Definition ex_schema : list bytes :=
  [[118;104;111;115;116]; [97;112;112]; [109;101;115;115;97;103;101]; [101;120;116;114;97]; [99;111;109;112]].
Definition ex_cfg : ser_config :=
  {| c_env := [[118;104;111;115;116]; [97;112;112]];
     c_hidden := [[99;111;109;112]];
     c_rewrite := [([109;101;115;115;97;103;101], [RcInline [99;111;109;112]; RcUnescape])] |}.
Definition ex_rec : record :=
  {| r_fields := [[98;97;114]; [109;121;97;112;112]; [84;92;110;49;92]; [89]; [75;50]];
     r_unix := 1606818640; r_nsec := 60; r_unescaped := false |}.

Lemma example_lemma :
  verify_config ex_schema ex_cfg = true /\
  (exists ser, new_serializer ex_schema ex_cfg 200 = Ok ser /\
               serialize_record ser ex_rec = Ok (encode_spec ex_schema ex_cfg ex_rec)) /\
  (length (encode_spec ex_schema ex_cfg ex_rec) < 200)%nat /\
  visible ex_schema ex_cfg ex_rec
  = [([109;101;115;115;97;103;101], [99;111;109;112;61;75;50;32;84;10;49;92]); ([101;120;116;114;97], [89])] /\
  decode_all (encode_spec ex_schema ex_cfg ex_rec) = Some (event_tree ex_schema ex_cfg ex_rec, []).
Proof.
  split; [reflexivity|]. split.
  - destruct (new_serializer ex_schema ex_cfg 200) as [ser| |] eqn:E; try (vm_compute in E; discriminate).
    exists ser. split; [reflexivity|]. vm_compute in E. inversion E; subst. vm_compute. reflexivity.
  - split; [vm_compute; lia|]. split; vm_compute; reflexivity.
Qed.

Lemma visible_keys_in : forall schema cfg rec names fields k,
  In k (map fst (flat_map (field_item schema cfg rec) (combine names fields))) -> In k names.
Proof.
  intros schema cfg rec. induction names as [|n names IH]; intros fields k H; [destruct H|].
  destruct fields as [|v fields]; [destruct H|].
  cbn [combine flat_map] in H. rewrite field_item_pair in H. rewrite map_app in H. apply in_app_or in H.
  destruct H as [H|H].
  - destruct (is_hidden cfg n || is_nil v); [destruct H|]. cbn in H. destruct H as [<-|[]]. left. reflexivity.
  - right. eapply IH. exact H.
Qed.

Lemma visible_keys_nodup : forall schema cfg rec names fields,
  NoDup names -> NoDup (map fst (flat_map (field_item schema cfg rec) (combine names fields))).
Proof.
  intros schema cfg rec. induction names as [|n names IH]; intros fields Hn; [constructor|].
  destruct fields as [|v fields]; [constructor|].
  inversion Hn as [|? ? Hnot Hn']; subst.
  cbn [combine flat_map]. rewrite field_item_pair. rewrite map_app.
  destruct (is_hidden cfg n || is_nil v).
  - cbn [map app]. apply IH. exact Hn'.
  - cbn [map app fst]. constructor; [|apply IH; exact Hn'].
    intros Hin. apply Hnot. eapply visible_keys_in. exact Hin.
Qed.

(* reading the event into a map loses nothing *)
Theorem keys_distinct_lemma : forall schema cfg rec,
  NoDup schema -> NoDup (c_env cfg) ->
  ~ In str_environment (map fst (visible schema cfg rec)) ->
  NoDup (map fst (visible schema cfg rec) ++ [str_environment]) /\
  NoDup (map fst (env_pairs schema cfg rec)).
Proof.
  intros schema cfg rec Hs He Hne. split.
  - apply (NoDup_Add (Add_app str_environment (map fst (visible schema cfg rec)) [])).
    rewrite app_nil_r. split; [|exact Hne].
    unfold visible. apply (visible_keys_nodup schema cfg rec schema (r_fields rec) Hs).
  - unfold env_pairs. rewrite map_map. cbn [fst]. rewrite map_id. exact He.
Qed.

Definition is_last (rc : rewriter_cfg) : Prop := rc = RcCopy \/ rc = RcUnescape.

Theorem accepted_chains_lemma : forall schema ch,
  verify_rewriters schema ch = true <->
  ch = [] \/ exists fs last, ch = map RcInline fs ++ [last] /\ is_last last /\
                             Forall (fun f => f <> [] /\ In f schema) fs.
Proof.
  intros schema ch. split.
  - induction ch as [|rc rest IH]; intros V; [left; reflexivity|]. right.
    cbn [verify_rewriters] in V. apply andb_true_iff in V. destruct V as [V1 V2].
    destruct rc as [| |f]; cbn [verify_rewriter] in V1.
    + destruct rest; [|discriminate]. exists [], RcCopy. repeat split; [left; reflexivity | constructor].
    + destruct rest; [|discriminate]. exists [], RcUnescape. repeat split; [right; reflexivity | constructor].
    + apply andb_true_iff in V1. destruct V1 as [V1 Vf]. apply andb_true_iff in V1. destruct V1 as [Vn Ve].
      destruct (IH V2) as [->|(fs & last & -> & Hl & Hfs)]; [discriminate|].
      exists (f :: fs), last. split; [reflexivity|]. split; [exact Hl|]. constructor; [|exact Hfs].
      split; [destruct f; [discriminate|discriminate] | apply has_name_In; exact Vf].
  - intros [->|(fs & last & -> & Hl & Hfs)]; [reflexivity|].
    induction Hfs as [|f fs [Hne Hin] Hfs IH].
    + destruct Hl as [->| ->]; reflexivity.
    + cbn [map app verify_rewriters verify_rewriter]. rewrite IH.
      apply has_name_In in Hin. rewrite Hin.
      destruct f; [contradiction|]. destruct (map RcInline fs ++ [last]) eqn:E.
      * destruct fs; discriminate.
      * reflexivity.
Qed.

(* the inline rewriter, spelled out (an unfolding of [rewrite_spec], for the record) *)
Lemma inline_spec_lemma : forall schema fields unescaped f rest value,
  rewrite_spec schema fields unescaped (RcInline f :: rest) value
  = if is_nil (field_value schema fields f) then rewrite_spec schema fields unescaped rest value
    else f ++ [61] ++ field_value schema fields f ++ [32] ++ rewrite_spec schema fields unescaped rest value.
Proof. reflexivity. Qed.
