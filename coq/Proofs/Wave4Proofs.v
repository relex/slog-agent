(* C15: (1) a capture group that takes part in the match overrides its field, even
   with the empty string; (2) the deficit counters of the sampled drop keep the dropped count within
   one record of the rate at every prefix of a stream of ANY length (N.iter, no bound), and the
   variant that halves both counters at 2^16 does not. *)
From SV Require Import Model.Common Model.TfUtf8 Model.Template Model.Extractor Model.Transforms
     Model.TfDropLong Model.TfExtractCap Proofs.TransformsProofs.
From Coq Require Import Lia ZifyBool ZifyN ZifyNat.
Open Scope Z_scope.

Lemma extract_loop_by_go : forall locs idx v r,
  run_extractre_loop_by skip_go locs idx v r = run_extractre_loop locs idx v r.
Proof.
  induction locs as [|l locs IH]; intros idx v r; [reflexivity|].
  cbn [run_extractre_loop_by run_extractre_loop]. destruct l as [loc|]; [|apply IH].
  destruct idx as [|[a b] idx']; [reflexivity|]. unfold skip_go.
  destruct ((a <? 0) || (b <? 0))%bool; [apply IH|].
  destruct (go_slice v a b); cbn; try reflexivity. apply IH.
Qed.

Definition cap_apply (c : capture) (l : nat) (r : rec) : rec :=
  match c with
  | CapNone => r
  | CapEmpty _ => set_field r l []
  | CapText _ s => set_field r l s
  end.

(* one named group, whatever it did: not part of the match -> the field is untouched; part of the match ->
   the field becomes the capture, ALSO when the capture is empty *)
Lemma extract_capture_step : forall l locs' c idx (v : bytes) r0, cap_in v c ->
  run_extractre_loop (Some l :: locs') (cap_pair c :: idx) v r0 =
  run_extractre_loop locs' idx v (cap_apply c l r0).
Proof.
  intros l locs' c idx v r0 Hin.
  destruct c as [|p|p s]; cbn [cap_pair cap_apply cap_in] in *.
  - apply extractre_loop_skip. lia.
  - rewrite extractre_loop_set, Z.sub_diag by lia. reflexivity.
  - destruct Hin as (Hne & Hs & Hlen). rewrite extractre_loop_set by lia.
    replace (Z.to_nat (Z.of_nat (p + length s) - Z.of_nat p)) with (length s) by lia.
    rewrite Nat2Z.id, Hs. reflexivity.
Qed.

(* the whole transform with one named group: after it the destination field IS the capture whenever the
   group took part, and is what it was when the group did not *)
Lemma extract_single_group_field : forall O loc pat l r a0 b0 c,
  o_re_find O pat (getf r loc) = Some [(a0, b0); cap_pair c] -> cap_in (getf r loc) c ->
  (l < nfields r)%nat ->
  exists r', run_extractre O loc pat [None; Some l] r = Ok r' /\
    getf r' l = match c with CapNone => getf r l | CapEmpty _ => [] | CapText _ s => s end /\
    (forall l', l' <> l -> getf r' l' = getf r l').
Proof.
  intros O loc pat l r a0 b0 c Hf Hin Hl.
  exists (cap_apply c l r). split.
  - unfold run_extractre. fold (getf r loc). rewrite Hf.
    change (run_extractre_loop [None; Some l] [(a0, b0); cap_pair c] (getf r loc) r)
      with (run_extractre_loop (Some l :: []) (cap_pair c :: []) (getf r loc) r).
    rewrite extract_capture_step by assumption. reflexivity.
  - destruct c; cbn [cap_apply]; split; try reflexivity;
      try (apply getf_set_same; assumption); intros l' Hne; apply getf_set_other; congruence.
Qed.

(* the variant "skip when end <= start" is not the documented transform: witness value "-42", pattern
   (?P<app>[0-9]STAR)- (the group takes part with the empty capture (0,0)), field app = "main" before *)
Definition w4_rec : rec := {| r_fields := [[45;50;52]; [109;97;105;110]]%N; r_rawlen := 10; r_unesc := false |}.

Lemma extract_empty_skip_variant_refuted :
  exists l idx v r0 c, cap_in v c /\ c = CapEmpty 0 /\ idx = [cap_pair c] /\
    run_extractre_loop [Some l] idx v r0 = Ok (set_field r0 l []) /\
    run_extractre_loop_by skip_empty [Some l] idx v r0 = Ok r0 /\
    getf r0 l <> [].
Proof.
  exists 1%nat, [(0, 0)], [45;50;52]%N, w4_rec, (CapEmpty 0).
  repeat split; try reflexivity; cbn; try lia. discriminate.
Qed.

(* the counter step IS the drop node of the interpreter *)
Lemma drop_counters_step_is_model : forall m rate label matched dropped cs rawlen,
  run_drop_matched m rate label matched dropped cs rawlen =
  (let '(st', b) := drop_counters_step no_scale rate (matched, dropped) in
   (TDrop m rate label (fst st') (snd st'),
    cnt_add cs (if b then label else (33%N :: label)) 1 rawlen, negb b)).
Proof.
  intros. unfold run_drop_matched, drop_counters_step, no_scale, drop_decide. cbn [fst snd].
  destruct (rate =? 100); [reflexivity|].
  destruct ((matched >? 0) && (100 * dropped / matched <? rate))%bool; reflexivity.
Qed.

(* the counters of the node after m matched records: d is the least number with rate * (m - 1) <= 100 * d *)
Definition dinv (rate : Z) (st : Z * Z) : Prop :=
  0 <= snd st <= fst st /\ rate * (fst st - 1) <= 100 * snd st < rate * (fst st - 1) + 100.

Lemma drop_counters_step_inv : forall rate st, 1 <= rate <= 99 -> dinv rate st ->
  let '(st', b) := drop_counters_step no_scale rate st in
  dinv rate st' /\ fst st' = fst st + 1 /\ snd st' = snd st + (if b then 1 else 0).
Proof.
  intros rate [m d] Hr [Hd Hv]. cbn [fst snd] in *.
  unfold drop_counters_step, no_scale, dinv. cbn [fst snd].
  replace (rate =? 100) with false by lia. rewrite drop_decide_eq.
  destruct ((0 <? m) && (100 * d <? rate * m))%bool eqn:E; cbn [fst snd]; lia.
Qed.

Lemma sample_run_inv : forall rate n, 1 <= rate <= 99 ->
  let s := sample_run no_scale rate n in
  fst s = snd s /\ fst (snd s) = Z.of_N n /\ dinv rate (fst s).
Proof.
  intros rate n Hr. cbv zeta. induction n as [|n IH] using N.peano_ind.
  - unfold sample_run, dinv. cbn. repeat split; try reflexivity; lia.
  - unfold sample_run in *. rewrite N.iter_succ.
    destruct (N.iter n (sample_step no_scale rate) (0, 0, (0, 0))) as [st [M D]].
    cbn [fst snd] in IH. destruct IH as (Heq & HM & Hinv). subst st.
    unfold sample_step. cbn [fst snd].
    pose proof (drop_counters_step_inv rate (M, D) Hr Hinv) as Hs.
    destruct (drop_counters_step no_scale rate (M, D)) as [[m' d'] b]. cbn [fst snd] in *.
    destruct Hs as (Hi & Hm & Hd). subst m' d'. repeat split; try apply Hi; try lia.
Qed.

(* n matched records in a row, ANY n: the node's counters are the true counts and the dropped count is
   within one record of rate % *)
Lemma sample_run_within_one : forall rate n, 1 <= rate <= 99 ->
  let s := sample_run no_scale rate n in
  fst s = snd s /\ fst (snd s) = Z.of_N n /\
  0 <= snd (snd s) <= fst (snd s) /\ Z.abs (100 * snd (snd s) - rate * fst (snd s)) <= 100.
Proof.
  intros rate n Hr. destruct (sample_run_inv rate n Hr) as (Heq & HM & Hinv).
  cbv zeta. rewrite <- Heq in *. unfold dinv in Hinv. repeat split; lia.
Qed.

(* the rule-defined stream of case kind 3 (matched and unmatched records interleaved, any rule, any length) *)
Definition linv (rate : Z) (s : lstate) : Prop :=
  (rate = 100 /\ l_D s = l_M s /\ 0 <= l_M s) \/
  (1 <= rate <= 99 /\ l_st s = (l_M s, l_D s) /\ dinv rate (l_st s)).

Lemma long_step_inv : forall rate a b q u every s, linv rate s -> linv rate (long_step no_scale rate a b q u every s).
Proof.
  intros rate a b q u every s H. unfold long_step.
  set (s1 := if long_unmatched a b q u (l_i s) then _ else _).
  assert (H1 : linv rate s1).
  { subst s1. destruct (long_unmatched a b q u (l_i s)).
    - destruct H as [H|H]; [left|right]; cbn; exact H.
    - destruct H as [(H100 & HD & HM)|(Hr & Hst & Hinv)].
      + subst rate. unfold drop_counters_step. cbn. left. cbn. lia.
      + pose proof (drop_counters_step_inv rate (l_st s) Hr Hinv) as Hs.
        destruct (drop_counters_step no_scale rate (l_st s)) as [st' dr]. destruct Hs as (Hi & Hm & Hd).
        rewrite Hst in Hm, Hd. cbn [fst snd] in Hm, Hd. right.
        destruct dr; cbn [l_st l_M l_D]; (split; [exact Hr|split; [|exact Hi]]);
          rewrite (surjective_pairing st'), Hm, Hd, ?Z.add_0_r; reflexivity. }
  destruct ((every >? 0) && ((l_i s + 1) mod every =? 0))%bool; [|exact H1].
  destruct H1 as [H1|H1]; [left|right]; cbn; exact H1.
Qed.

Lemma long_run_within_one : forall rate n a b q u every, 1 <= rate <= 100 ->
  let s := long_run no_scale rate n a b q u every in
  0 <= l_D s <= l_M s /\ Z.abs (100 * l_D s - rate * l_M s) <= 100.
Proof.
  intros rate n a b q u every Hr. cbv zeta. unfold long_run.
  assert (H : linv rate (N.iter (Z.to_N n) (long_step no_scale rate a b q u every)
     {| l_i := 0; l_st := (0, 0); l_M := 0; l_D := 0; l_dl := 0; l_rl := 0; l_out := [] |})).
  { induction (Z.to_N n) as [|k IH] using N.peano_ind.
    - cbn. destruct (Z.eq_dec rate 100); [left|right]; cbn; unfold dinv; cbn; repeat split; try reflexivity; lia.
    - rewrite N.iter_succ. apply long_step_inv. exact IH. }
  destruct H as [(H100 & HD & HM)|(Hr' & Hst & Hinv)].
  - subst rate. lia.
  - rewrite Hst in Hinv. unfold dinv in Hinv. cbn [fst snd] in Hinv. lia.
Qed.

Lemma sample_run_succ : forall scale rate n,
  sample_run scale rate (N.succ n) = sample_step scale rate (sample_run scale rate n).
Proof. intros. apply N.iter_succ. Qed.

(* while totalMatched is below the window, halving has not happened yet *)
Lemma sample_run_below_window : forall w rate n, 1 <= rate <= 99 -> Z.of_N n <= w ->
  sample_run (halve_at w) rate n = sample_run no_scale rate n.
Proof.
  intros w rate n Hr. induction n as [|n IH] using N.peano_ind; intro Hn; [reflexivity|].
  unfold sample_run in *. rewrite !N.iter_succ, IH by lia. clear IH.
  destruct (sample_run_inv rate n Hr) as (Heq & HM & _). unfold sample_run in *.
  destruct (N.iter n _ _) as [st MD]. cbn [fst snd] in *. subst MD.
  unfold sample_step, drop_counters_step, halve_at, no_scale. cbn [fst snd].
  replace (fst st >=? w) with false by lia. reflexivity.
Qed.

(* the variant with samplingWindow = 2^16 (both counters halved when totalMatched reaches it) leaves the band:
   33 %, 65539 matched records in a row.  After 65536 records the counters are (65536, 21627) by [dinv];
   halved to (32768, 10813) they stand 56 below the true balance, and three records later that shows. *)
Lemma drop_window_halving_variant_refuted :
  exists rate n, 1 <= rate <= 99 /\
    let s := sample_run (halve_at 65536) rate n in
    Z.abs (100 * snd (snd s) - rate * fst (snd s)) > 100.
Proof.
  exists 33, (N.succ (N.succ (N.succ 65536))). split; [lia|].
  cbv zeta. rewrite 3 sample_run_succ, sample_run_below_window by lia.
  destruct (sample_run_inv 33 65536 ltac:(lia)) as (Heq & HM & Hinv).
  destruct (sample_run no_scale 33 65536) as [[m d] MD]. unfold dinv in Hinv. cbn [fst snd] in *. subst MD. cbn [fst] in HM.
  assert (m = 65536 /\ d = 21627) as [-> ->] by lia. reflexivity.
Qed.
