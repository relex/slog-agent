(* C16 - concrete configurations: a non-trivial accepted one (non-vacuity), and for each defect of
   the original code a configuration on which the property fails when only that defect is
   switched back on.  Everything here is closed computation (vm_compute on literals). *)
From Coq Require Import String Ascii.
From SV Require Import Model.Common Model.ConfigTemplate Model.ConfigExtractor Model.Config Spec.ConfigSpec
  Proofs.CommonFacts Proofs.ConfigTemplateProofs Proofs.ConfigProofs.
Open Scope Z_scope.

Ltac vc := vm_compute; reflexivity.
Ltac verr := vm_compute; eexists; reflexivity.
(* construct = Ok p and a panicking record; one half after the other, since the second evaluates the p the first finds *)
Ltac vrun := eexists; split; [vm_compute; reflexivity|vm_compute; reflexivity].

Definition bs (s : string) : bytes := map N_of_ascii (list_ascii_of_string s).

Definition w_fields : list bytes :=
  map bs ["facility"; "level"; "time"; "host"; "app"; "pid"; "source"; "extradata"; "log"; "class"; "my-field"]%string.

Definition w_levels : list bytes := map bs ["off"; "fatal"; "crit"; "error"; "warn"; "notice"; "info"; "debug"]%string.

Definition w_fluentd (env hidden : list bytes) : output :=
  OFluentd env hidden [(bs "log", [RwInline (bs "class"); RwUnescape])] mode_compressed (bs "localhost:24224") true (BigOk 500).

Definition w_pair (o : output) : pair :=
  {| p_name := bs "out"; p_buffer := BHybrid (bs "/tmp/b") (BigOk 1000); p_output := o |}.

Definition w_config (tfs : tlist) (orch : orchestration) (mkeys : list bytes) (pairs : list pair) : config :=
  {| c_damage := []; c_fields := w_fields; c_maxfields := NumOk 12;
     c_inputs := [ISyslog (bs "localhost:0") true w_levels (TCons (TDelFields [bs "pid"]) TNil)];
     c_orch := orch; c_metric_keys := mkeys; c_transforms := tfs; c_pairs := pairs |}.

Definition w_orch : orchestration := OrByKeySet [bs "app"] (bs "dev.$app-${app[:3]}").
Definition w_out : list pair := [w_pair (w_fluentd [bs "host"; bs "app"] [bs "class"])].
Definition w_me (k : string) (op : mop) (e : string) : mentry := {| me_key := bs k; me_op := op; me_expr := bs e; me_lib_ok := true |}.

(* a configuration with every kind of nested step, templates with slices, both extractors *)
Definition example_config : config :=
  w_config
    (TCons (TSwitch (CCons [w_me "app" MEq "appServ"]
                       (TCons (TDrop [w_me "level" MNot "fatal"] (NumOk 33) (bs "sampled"))
                       (TCons (TIf [w_me "log" MGt "5"; w_me "class" MAny ""]
                                 (TCons (TTruncate (bs "log") (NumOk 180) (bs " ... (cut)")) TNil)) TNil))
                    (CCons [w_me "host" MEnd ".com"]
                       (TCons (TAddFields [(bs "host", bs "${host[:-4]}"); (bs "class", bs "task=$pid $log")]) TNil) CNil)))
    (TCons (TBlock (TCons (TParseTime (bs "time") (bs "timeError")) (TCons (TDelFields [bs "time"]) TNil)))
    (TCons (TExtractSpecial FromStart (bs "log") (bs "\[*\] - ") (NumOk 100) (bs "class"))
    (TCons (TExtractSpecial FromEnd (bs "source") (bs ":[0-9a-f-]") (NumOk 41) (bs "extradata"))
    (TCons (TExtract (bs "log") (bs "(?P<pid>a+)") (Some [[]; bs "pid"]))
    (TCons (TRedactEmail (bs "log") (bs "redacted")) TNil))))))
    w_orch [bs "host"; bs "source"]
    (w_out ++ [ {| p_name := bs "dd"; p_buffer := BHybrid (bs "/tmp/d") (BigOk 1);
                   p_output := ODatadog [bs "host"] (bs "https://example/api") true (BigOk 30) |} ]).

Lemma example_verified : verify fixed_quirks example_config = Ok tt.
Proof. vc. Qed.

Lemma example_refs_count : length (refs example_config) = 86%nat.
Proof. vc. Qed.

(* an instance of the external functions that satisfies ext_wf *)
Definition x_trivial : externals :=
  {| x_regex_find := fun _ _ _ => None; x_regex_replace := fun _ v _ => v; x_regex_match := fun _ _ => false;
     x_glob_match := fun _ _ => false; x_redact := fun _ => None; x_unescape := fun v => v;
     x_time_ok := fun _ => true; x_clean_len := fun s => length s; x_drop_choice := fun _ _ => false |}.

Lemma x_trivial_wf : ext_wf x_trivial.
Proof. split; [intros; discriminate|intros; simpl; auto]. Qed.

(* exactly one defect of the original code switched on *)
Definition quirk (n : nat) : quirks :=
  {| q_extract_checks_key := Nat.eqb n 0; q_fluentd_fields_unchecked := Nat.eqb n 1; q_template_atoi_panics := Nat.eqb n 2;
     q_special_split_only := Nat.eqb n 3; q_datadog_url_unchecked := Nat.eqb n 4; q_datadog_hidden_unchecked := Nat.eqb n 5;
     q_nil_orchestration := Nat.eqb n 6; q_nil_pair_parts := Nat.eqb n 7; q_labels_unchecked := Nat.eqb n 8;
     q_no_outputs_accepted := Nat.eqb n 9 |}.

Definition w_one (t : transform) : config := w_config (TCons t TNil) w_orch [bs "host"] w_out.

(* a record: the schema's eleven fields and one spare, the message in "log" *)
Definition w_record (log : string) : fields :=
  map bs ["local4"; "info"; "2022-08-15T03:48:20Z"; "h"; "appServ"; "1"; "main.log"; "-"; log; ""; ""; ""]%string.

(* 1. extract: VerifyConfig looked up c.Key instead of the capture name *)
Definition w_extract : config := w_one (TExtract (bs "log") (bs "(?P<nosuch>a+)") (Some [[]; bs "nosuch"])).
Lemma w_extract_refutes : verify (quirk 0) w_extract = Ok tt /\ construct (quirk 0) w_extract = Panic site_must_locator
                          /\ exists e, verify fixed_quirks w_extract = Err e.
Proof.
  split; [vc|]. split; [vc|verr].
Qed.

(* 2. fluentdForward: environmentFields not validated (constructor panics); hiddenFields not validated (site unchecked) *)
Definition w_fluentd_env : config := w_config TNil w_orch [bs "host"] [w_pair (w_fluentd [bs "host"; bs "nosuch"] [])].
Definition w_fluentd_hidden : config := w_config TNil w_orch [bs "host"] [w_pair (w_fluentd [bs "host"] [bs "nosuch"])].
Lemma w_fluentd_refutes :
  verify (quirk 1) w_fluentd_env = Ok tt /\ construct (quirk 1) w_fluentd_env = Panic site_serializer /\
  verify (quirk 1) w_fluentd_hidden = Ok tt /\ In (RefField (bs "nosuch")) (refs w_fluentd_hidden) /\ ~ known (c_fields w_fluentd_hidden) (bs "nosuch") /\
  (exists e, verify fixed_quirks w_fluentd_env = Err e) /\ (exists e, verify fixed_quirks w_fluentd_hidden = Err e).
Proof.
  split; [vc|]. split; [vc|]. split; [vc|]. split; [vm_compute; tauto|].
  split; [vm_compute; intuition discriminate|]. split; verr.
Qed.

(* 3. string template: a slice bound outside int64 panicked during verification *)
Definition w_template : config := w_one (TAddFields [(bs "class", bs "${log[99999999999999999999:]}")]).
Definition w_tag_template : config := w_config TNil (OrByKeySet [bs "app"] (bs "${app[:-99999999999999999999]}")) [bs "host"] w_out.
Lemma w_template_refutes :
  verify (quirk 2) w_template = Panic site_template_atoi /\ verify (quirk 2) w_tag_template = Panic site_template_atoi /\
  (exists e, verify fixed_quirks w_template = Err e) /\ (exists e, verify fixed_quirks w_tag_template = Err e).
Proof.
  split; [vc|]. split; [vc|]. split; verr.
Qed.

(* 4. extractHead/extractTail: only splitPattern was checked *)
Definition w_special_bracket : config := w_one (TExtractSpecial FromStart (bs "log") (bs "x[]") (NumOk 10) (bs "class")).
Definition w_special_hyphen : config := w_one (TExtractSpecial FromEnd (bs "log") (bs "[a--z]") (NumOk 10) (bs "class")).
Definition w_special_head : config := w_one (TExtractSpecial FromStart (bs "log") (bs "abc*") (NumOk 10) (bs "class")).
Definition w_special_tail : config := w_one (TExtractSpecial FromEnd (bs "log") (bs "*abc") (NumOk 10) (bs "class")).
Lemma w_special_refutes :
  verify (quirk 3) w_special_bracket = Ok tt /\ construct (quirk 3) w_special_bracket = Panic site_extractor /\
  verify (quirk 3) w_special_hyphen = Ok tt /\ construct (quirk 3) w_special_hyphen = Panic site_extractor /\
  verify (quirk 3) w_special_head = Ok tt /\
  (exists p, construct (quirk 3) w_special_head = Ok p /\ run_record x_trivial p 0 (w_record "abcdef") = Panic site_nil_table) /\
  verify (quirk 3) w_special_tail = Ok tt /\
  (exists p, construct (quirk 3) w_special_tail = Ok p /\ run_record x_trivial p 0 (w_record "xyzabc") = Panic site_nil_table) /\
  (exists e, verify fixed_quirks w_special_bracket = Err e) /\ (exists e, verify fixed_quirks w_special_hyphen = Err e) /\
  (exists e, verify fixed_quirks w_special_head = Err e) /\ (exists e, verify fixed_quirks w_special_tail = Err e).
Proof.
  split; [vc|]. split; [vc|]. split; [vc|]. split; [vc|]. split; [vc|]. split; [vrun|].
  split; [vc|]. split; [vrun|]. split; [verr|]. split; [verr|]. split; verr.
Qed.

(* 5./6. datadog: address not parsed, hiddenFields not validated *)
Definition w_datadog (hidden : list bytes) (url_ok : bool) : config :=
  w_config TNil w_orch [bs "host"] [w_pair (ODatadog hidden (bs "http://[::1") url_ok (BigOk 30))].
Lemma w_datadog_refutes :
  verify (quirk 4) (w_datadog [] false) = Ok tt /\ construct (quirk 4) (w_datadog [] false) = Panic site_datadog_url /\
  verify (quirk 5) (w_datadog [bs "nosuch"] true) = Ok tt /\ In (RefField (bs "nosuch")) (refs (w_datadog [bs "nosuch"] true)) /\
  (exists e, verify fixed_quirks (w_datadog [] false) = Err e) /\ (exists e, verify fixed_quirks (w_datadog [bs "nosuch"] true) = Err e).
Proof.
  split; [vc|]. split; [vc|]. split; [vc|]. split; [vm_compute; tauto|]. split; verr.
Qed.

(* 7./8. a missing orchestration / buffer / output section crashed the loader *)
Definition w_no_orch : config := w_config TNil OrMissing [bs "host"] w_out.
Definition w_no_buffer : config := w_config TNil w_orch [bs "host"] [{| p_name := bs "o"; p_buffer := BMissing; p_output := w_fluentd [bs "host"] [] |}].
Definition w_no_output : config := w_config TNil w_orch [bs "host"] [{| p_name := bs "o"; p_buffer := BHybrid (bs "/b") (BigOk 1); p_output := OMissing |}].
Lemma w_missing_refutes :
  verify (quirk 6) w_no_orch = Panic site_nil_config /\ verify (quirk 7) w_no_buffer = Panic site_nil_config /\
  verify (quirk 7) w_no_output = Panic site_nil_config /\
  (exists e, verify fixed_quirks w_no_orch = Err e) /\ (exists e, verify fixed_quirks w_no_buffer = Err e) /\
  (exists e, verify fixed_quirks w_no_output = Err e).
Proof.
  split; [vc|]. split; [vc|]. split; [vc|]. split; [verr|]. split; verr.
Qed.

(* 9. key fields that are not metric label names, or repeated *)
Definition w_label_metric : config := w_config TNil w_orch [bs "my-field"] w_out.
Definition w_label_orch : config := w_config TNil (OrByKeySet [bs "app"; bs "app"] (bs "t")) [bs "host"] w_out.
Lemma w_labels_refute :
  verify (quirk 8) w_label_metric = Ok tt /\
  (exists p, construct (quirk 8) w_label_metric = Ok p /\ run_record x_trivial p 0 (w_record "x") = Panic site_metric_label) /\
  verify (quirk 8) w_label_orch = Ok tt /\
  (exists p, construct (quirk 8) w_label_orch = Ok p /\ run_record x_trivial p 0 (w_record "x") = Panic site_metric_label) /\
  (exists e, verify fixed_quirks w_label_metric = Err e) /\ (exists e, verify fixed_quirks w_label_orch = Err e).
Proof.
  split; [vc|]. split; [vrun|]. split; [vc|]. split; [vrun|]. split; verr.
Qed.

(* 10. no output: the first dropped record is released to a negative reference count *)
Definition w_no_outputs : config :=
  w_config (TCons (TDrop [w_me "log" MAny ""] (NumOk 100) (bs "all")) TNil) w_orch [bs "host"] [].
Lemma w_no_outputs_refutes :
  verify (quirk 9) w_no_outputs = Ok tt /\
  (exists p, construct (quirk 9) w_no_outputs = Ok p /\ run_record x_trivial p 0 (w_record "x") = Panic site_no_output_release) /\
  (exists e, verify fixed_quirks w_no_outputs = Err e).
Proof.
  split; [vc|]. split; [vrun|verr].
Qed.

(* with every defect on, as in the original code *)
Lemma original_refuted :
  (exists c s, verify original_quirks c = Ok tt /\ construct original_quirks c = Panic s) /\
  (exists c s, verify original_quirks c = Panic s) /\
  (exists c p f s, verify original_quirks c = Ok tt /\ construct original_quirks c = Ok p /\
                   Z.of_nat (length f) = pl_nfields p /\ run_record x_trivial p 0 f = Panic s).
Proof.
  split; [|split].
  - exists w_extract, site_must_locator. split; vc.
  - exists w_template, site_template_atoi. vc.
  - exists w_special_head. eexists. exists (w_record "abcdef"), site_nil_table.
    split; [vc|]. split; [vc|]. split; vc.
Qed.

(* sites that interact: the constructors do depend on them, and verify rejects them *)
(* a metric key equal to the FIRST orchestration key: the registry gets the label key_app twice *)
Definition w_key_overlap : config := w_config TNil (OrByKeySet [bs "app"; bs "level"] (bs "t")) [bs "host"; bs "app"] w_out.
(* a rewriteFields chain on a HIDDEN field: NewEventSerializer builds it all the same *)
Definition w_hidden_chain (l : list rewriter) : config :=
  w_config TNil w_orch [bs "host"]
    [w_pair (OFluentd [bs "host"] [bs "class"] [(bs "class", l)] mode_compressed (bs "localhost:24224") true (BigOk 500))].

Lemma w_interactions :
  (exists e, verify fixed_quirks w_key_overlap = Err e) /\
  (exists p, construct fixed_quirks w_key_overlap = Ok p /\ pipeline_safe p = false /\
             run_record x_trivial p 0 (w_record "x") = Panic site_metric_label) /\
  (exists e, verify fixed_quirks (w_hidden_chain [RwInline (bs "log")]) = Err e) /\
  construct fixed_quirks (w_hidden_chain [RwInline (bs "log")]) = Panic site_rewriter_order /\
  (exists e, verify fixed_quirks (w_hidden_chain [RwCopy; RwUnescape]) = Err e) /\
  construct fixed_quirks (w_hidden_chain [RwCopy; RwUnescape]) = Panic site_rewriter_order /\
  (exists e, verify fixed_quirks (w_hidden_chain [RwInline (bs "nosuch"); RwCopy]) = Err e) /\
  construct fixed_quirks (w_hidden_chain [RwInline (bs "nosuch"); RwCopy]) = Panic site_must_locator /\
  verify fixed_quirks (w_hidden_chain [RwInline (bs "log"); RwCopy]) = Ok tt.
Proof.
  split; [verr|]. split; [eexists; split; [vc|split; vc]|]. split; [verr|]. split; [vc|]. split; [verr|]. split; [vc|].
  split; [verr|]. split; vc.
Qed.
