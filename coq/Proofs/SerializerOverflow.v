(* What encodeRecord does when the event does NOT fit the buffer it is given (since fix 413c995 SerializeRecord
   never gives it such a buffer: second half of this file).

   Every writer is followed through by lengths and positions only (contents do not matter here):
     - a writer made of byte stores ([put]) either has room and advances by its size, or panics;
     - a writer that ends in [copy] advances by min(size, room): it saturates at the end of the buffer;
     - from a saturated position every later byte store panics and every later copy copies nothing.
   Hence encodeRecord ends with  position = min(size of the event, len(buffer))  or panics, and
   position == len(buffer) makes it return 0 (the empty stream): a non-empty stream is never
   anything but the complete, correct event. *)
From SV Require Import Model.Common Model.Msgpack Model.Unescape Model.Serializer
     Spec.MsgpackSpec Spec.SerializerSpec Proofs.CommonFacts Proofs.MsgpackProofs Proofs.UnescapeProofs
     Proofs.SerializerProofs.
From Coq Require Import Lia ZifyBool ZifyN ZifyNat.
Ltac Zify.zify_post_hook ::= Z.div_mod_to_equations.
Open Scope N_scope.

(* a writer of k bytes made of byte stores: room or panic *)
Definition len_fit (r : outcome (bytes * nat)) (buf : bytes) (pos k : nat) : Prop :=
  match r with
  | Ok (b', p') => length b' = length buf /\ (pos + k <= length buf)%nat /\ p' = (pos + k)%nat
  | Panic _ => (length buf < pos + k)%nat
  | Err _ => False
  end.

(* a writer of k bytes that ends in copies: saturating *)
Definition len_sat (r : outcome (bytes * nat)) (buf : bytes) (pos k : nat) : Prop :=
  match r with
  | Ok (b', p') => length b' = length buf /\ p' = (pos + Nat.min k (length buf - pos))%nat
  | Panic _ => (length buf - pos < k)%nat
  | Err _ => False
  end.

Lemma len_fit_sat : forall r buf pos k, (pos <= length buf)%nat -> len_fit r buf pos k -> len_sat r buf pos k.
Proof.
  intros [[b p]| |] buf pos k Hp H; cbn in *; [|exact H|lia].
  destruct H as (A & B & C). split; [exact A|]. lia.
Qed.

Lemma fit_ok : forall b pos p, p = pos -> (pos <= length b)%nat -> len_fit (Ok (b, p)) b pos 0.
Proof. intros. cbn. lia. Qed.

Lemma put_then_fit : forall buf start v k (f : bytes -> outcome (bytes * nat)),
  (forall b : bytes, (start + 1 <= length b)%nat -> len_fit (f b) b (start + 1) k) ->
  len_fit (obind (put buf start v) f) buf start (1 + k).
Proof.
  intros buf start v k f H. pose proof (put_len buf start v) as P.
  destruct (put buf start v) as [b1| |]; cbn [obind]; [|contradiction|cbn; lia].
  specialize (H b1 ltac:(lia)). destruct (f b1) as [[b' p']| |]; cbn in *; lia.
Qed.

Lemma fit_then_fit : forall r (f : bytes * nat -> outcome (bytes * nat)) buf pos k1 k2,
  len_fit r buf pos k1 ->
  (forall b : bytes, (pos + k1 <= length b)%nat -> len_fit (f (b, (pos + k1)%nat)) b (pos + k1) k2) ->
  len_fit (obind r f) buf pos (k1 + k2).
Proof.
  intros [[b p]| |] f buf pos k1 k2 H1 H2; cbn [obind len_fit] in *; [|contradiction|lia].
  destruct H1 as (L & F & ->). specialize (H2 b ltac:(lia)). destruct (f (b, (pos + k1)%nat)) as [[b' p']| |]; cbn in *; lia.
Qed.

Lemma sat_ok : forall b pos p, p = pos -> len_sat (Ok (b, p)) b pos 0.
Proof. intros. cbn. lia. Qed.

Lemma fit_then_sat : forall r (f : bytes * nat -> outcome (bytes * nat)) buf pos k1 k2,
  (pos <= length buf)%nat -> len_fit r buf pos k1 ->
  (forall b : bytes, length b = length buf -> (pos + k1 <= length b)%nat -> len_sat (f (b, (pos + k1)%nat)) b (pos + k1) k2) ->
  len_sat (obind r f) buf pos (k1 + k2).
Proof.
  intros [[b p]| |] f buf pos k1 k2 Hp H1 H2; cbn [obind len_fit len_sat] in *; [|contradiction|lia].
  destruct H1 as (L & F & ->). specialize (H2 b L ltac:(lia)).
  destruct (f (b, (pos + k1)%nat)) as [[b' p']| |]; cbn in *; lia.
Qed.

Lemma sat_then_sat : forall r (f : bytes * nat -> outcome (bytes * nat)) buf pos k1 k2,
  (pos <= length buf)%nat -> len_sat r buf pos k1 ->
  (forall (b : bytes) p, length b = length buf -> (pos <= p <= length b)%nat -> len_sat (f (b, p)) b p k2) ->
  len_sat (obind r f) buf pos (k1 + k2).
Proof.
  intros [[b p]| |] f buf pos k1 k2 Hp H1 H2; cbn [obind len_sat] in *; [|contradiction|lia].
  destruct H1 as (L & E). specialize (H2 b p L ltac:(lia)).
  destruct (f (b, p)) as [[b' p']| |]; cbn in *; lia.
Qed.

(* n := copy(buf[pos:], src), the rest continuing at pos + n *)
Lemma copy_then_sat : forall buf pos src (f : bytes * nat -> outcome (bytes * nat)) k,
  (pos <= length buf)%nat ->
  (forall (b : bytes) n, length b = length buf -> (pos + n <= length b)%nat -> len_sat (f (b, n)) b (pos + n) k) ->
  len_sat (obind (copy_at buf pos src) f) buf pos (length src + k).
Proof.
  intros buf pos src f k Hp H. pose proof (copy_at_len buf pos src) as C.
  destruct (copy_at buf pos src) as [[b n]| |]; cbn [obind len_sat]; [|contradiction|lia].
  destruct C as (L & _ & E). specialize (H b n L ltac:(lia)).
  destruct (f (b, n)) as [[b' p']| |]; cbn in *; lia.
Qed.

Lemma window_ok : forall buf pos, (pos <= length buf)%nat -> window buf pos = Ok (skipn pos buf).
Proof. intros buf pos H. unfold window. replace (pos <=? length buf)%nat with true by lia. reflexivity. Qed.

(* a writer run on the window buf[pos:], the window put back *)
Lemma in_window_sat : forall buf pos (r : outcome (bytes * nat)) k,
  (pos <= length buf)%nat -> len_sat r (skipn pos buf) 0 k ->
  len_sat ('(sub, n) <-- r ;; Ok (unwindow buf pos sub, (pos + n)%nat)) buf pos k.
Proof.
  intros buf pos [[sub n]| |] k Hp H; cbn [obind len_sat] in *; [|contradiction|rewrite skipn_length in H; lia].
  rewrite skipn_length in H. unfold unwindow. rewrite app_length, firstn_length. lia.
Qed.

Lemma put1_fit : forall buf start v, len_fit (b <-- put buf start v ;; Ok (b, (start + 1)%nat)) buf start 1.
Proof. intros. apply (put_then_fit _ _ _ 0). intros b F. apply fit_ok; [reflexivity | exact F]. Qed.

Lemma put2_fit : forall buf start v1 v2,
  len_fit (b1 <-- put buf start v1 ;; b2 <-- put b1 (start + 1) v2 ;; Ok (b2, (start + 2)%nat)) buf start 2.
Proof.
  intros. apply (put_then_fit _ _ _ 1). intros b1 _. apply (put_then_fit _ _ _ 0). intros b2 F. apply fit_ok; lia.
Qed.

Lemma write2_fit : forall buf start n, len_fit (write2 buf start n) buf start 2.
Proof. intros. apply put2_fit. Qed.

Lemma write4_fit : forall buf start n, len_fit (write4 buf start n) buf start 4.
Proof.
  intros. unfold write4.
  replace (start + 2)%nat with (start + 1 + 1)%nat by lia. replace (start + 3)%nat with (start + 1 + 1 + 1)%nat by lia.
  apply (put_then_fit _ _ _ 3). intros b1 _. apply (put_then_fit _ _ _ 2). intros b2 _.
  apply (put_then_fit _ _ _ 1). intros b3 _. apply (put_then_fit _ _ _ 0). intros b4 F. apply fit_ok; lia.
Qed.

Lemma array_len4_fit : forall buf start n, len_fit (encode_array_len4 buf start n) buf start 1.
Proof. intros. apply put1_fit. Qed.

Lemma map_len4_fit : forall buf start n, len_fit (encode_map_len4 buf start n) buf start 1.
Proof. intros. apply put1_fit. Qed.

Lemma string_len4_fit : forall buf start n, len_fit (encode_string_len4 buf start n) buf start 1.
Proof. intros. apply put1_fit. Qed.

Lemma map_len16_fit : forall buf start n, len_fit (encode_map_len16 buf start n) buf start 3.
Proof. intros. apply (put_then_fit _ _ _ 2). intros b _. apply write2_fit. Qed.

Lemma string_len16_fit : forall buf start n, len_fit (encode_string_len16 buf start n) buf start 3.
Proof. intros. apply (put_then_fit _ _ _ 2). intros b _. apply write2_fit. Qed.

Lemma string_len32_fit : forall buf start n, len_fit (encode_string_len32 buf start n) buf start 5.
Proof. intros. apply (put_then_fit _ _ _ 4). intros b _. apply write4_fit. Qed.

Lemma event_time_fit : forall buf start unix nsec, len_fit (encode_event_time buf start unix nsec) buf start 10.
Proof.
  intros. apply (fit_then_fit _ _ _ _ 2 8).
  - apply put2_fit.
  - intros b _. apply (fit_then_fit _ _ _ _ 4 4); [apply write4_fit | intros b' _; apply write4_fit].
Qed.

Lemma encode_string_with_sat : forall hdr k buf start s,
  (forall b st n, len_fit (hdr b st n) b st k) ->
  (start <= length buf)%nat ->
  len_sat (encode_string_with hdr buf start s) buf start (k + length s).
Proof.
  intros hdr k buf start s H Hs. apply fit_then_sat; [exact Hs | apply H |]. intros b L F.
  rewrite <- (Nat.add_0_r (length s)). apply copy_then_sat; [exact F|]. intros b' n _ _. apply sat_ok. reflexivity.
Qed.

Lemma encode_string_auto_sat : forall buf start s,
  (start <= length buf)%nat -> len_sat (encode_string_auto buf start s) buf start (length (enc_str s)).
Proof.
  intros buf start s Hs. unfold enc_str. rewrite app_length, str_header_length. unfold encode_string_auto.
  destruct (N.of_nat (length s) <? 16).
  - apply encode_string_with_sat; [apply string_len4_fit | exact Hs].
  - destruct (N.of_nat (length s) <? 65536).
    + apply encode_string_with_sat; [apply string_len16_fit | exact Hs].
    + apply encode_string_with_sat; [apply string_len32_fit | exact Hs].
Qed.

Lemma unescape_loop_sat : forall u fuel done rest dst di,
  (rest = [] \/ exists r, rest = u_esc u :: r) ->
  (length rest <= fuel)%nat ->
  (di <= length dst)%nat ->
  len_sat (unescape_loop fuel u (done ++ rest) (length (done ++ rest)) (length done) dst di)
          dst di (length (unescape_ref (u_esc u) (tr_of u) rest)).
Proof.
  intros u. induction fuel as [|fuel IH]; intros done rest dst di Hrest Hfuel Hdi.
  - destruct rest; [|cbn [length] in Hfuel; lia]. rewrite unescape_loop_nil. apply sat_ok. reflexivity.
  - destruct Hrest as [-> | [[|val rest2] ->]].
    + rewrite unescape_loop_nil. apply sat_ok. reflexivity.
    + rewrite unescape_loop_last, ref_last. rewrite <- (Nat.add_0_r (length [u_esc u])).
      apply copy_then_sat; [exact Hdi|]. intros d n _ _. apply sat_ok. reflexivity.
    + destruct (esc_split (u_esc u) rest2) as (chunk & rest3 & -> & Hchunk & Hr3).
      rewrite unescape_loop_step, ref_step by assumption. rewrite (app_length _ (chunk ++ _)), (app_length chunk).
      apply fit_then_sat; [exact Hdi | |].
      { destruct (u_map u val =? 0).
        - apply put2_fit.
        - apply put1_fit. }
      intros d1 L1 F1. apply copy_then_sat; [exact F1|]. intros d2 k L2 F2.
      apply IH; [exact Hr3 | cbn [length] in Hfuel; rewrite app_length in Hfuel; lia | exact F2].
Qed.

Lemma run_to_buffer_sat : forall u src first dst,
  find_first u src = Some first ->
  len_sat (run_to_buffer u src first dst) dst 0 (length (unescape_ref (u_esc u) (tr_of u) src)).
Proof.
  intros u src first dst Hf. destruct (find_first_some u src first Hf) as (chunk & r & -> & Hchunk & ->).
  rewrite unescape_ref_noesc_app by assumption. rewrite app_length, run_to_buffer_eq.
  apply copy_then_sat; [lia|]. intros d n L F.
  apply unescape_loop_sat; [right; eexists; reflexivity | rewrite app_length; lia | exact F].
Qed.

Lemma copy_at_0_sat : forall dst src, len_sat (copy_at dst 0 src) dst 0 (length src).
Proof.
  intros dst src. pose proof (copy_at_len dst 0 src) as C.
  destruct (copy_at dst 0 src) as [[d n]| |]; cbn [len_sat] in *; lia.
Qed.

Section RewritersLen.
  Variable schema : list bytes.

  Definition rewriter_sat (rw : rewriter) (ch : list rewriter_cfg) : Prop :=
    forall rec value dst, (length schema <= length (r_fields rec))%nat ->
      len_sat (write_field_body rw value rec dst) dst 0
              (length (rewrite_spec schema (r_fields rec) (r_unescaped rec) ch value)).

  Lemma verified_rewriters_sat : forall ch,
    ch <> [] -> verify_rewriters schema ch = true ->
    forall rw, new_rewriters schema ch = Ok (Some rw) -> rewriter_sat rw ch.
  Proof.
    intros ch Hne V rw Hnew.
    enough (exists rw', new_rewriters schema ch = Ok (Some rw') /\ rewriter_sat rw' ch) as (rw' & Hn' & S)
      by (rewrite Hnew in Hn'; inversion Hn'; subst rw'; exact S).
    clear rw Hnew. revert ch Hne V. apply verified_chain_ind.
    - intros rec value dst L. apply copy_at_0_sat.
    - intros rec value dst L. cbn [write_field_body rewrite_spec].
      destruct (r_unescaped rec); [apply copy_at_0_sat|].
      rewrite <- unescape_syslog_eq.
      destruct (find_first syslog_unescaper value) as [first|] eqn:F.
      + apply run_to_buffer_sat. exact F.
      + rewrite find_first_none_ref by assumption. apply copy_at_0_sat.
    - intros f loc rest nx Eloc IH rec value dst L. cbn [write_field_body rewrite_spec].
      rewrite (get_field_value schema (r_fields rec) f loc Eloc L). cbn [obind].
      destruct (is_nil (field_value schema (r_fields rec) f)) eqn:En; [apply IH; exact L|].
      (* name=, the value, a space: three copies; then the next rewriter on the window behind them *)
      rewrite (app_assoc f [61]), (app_length (f ++ [61])), (app_length (field_value schema (r_fields rec) f)), (app_length [32]).
      apply copy_then_sat; [lia|]. intros d1 e1 L1 F1.
      apply copy_then_sat; [exact F1|]. intros d2 e2 L2 F2.
      apply copy_then_sat; [exact F2|]. intros d3 e3 L3 F3. cbn beta iota zeta.
      rewrite window_ok by exact F3. cbn [obind].
      apply in_window_sat; [exact F3|]. apply IH. exact L.
  Qed.
End RewritersLen.

Lemma encode_rewritten_sat : forall schema head ch value rec buf pos,
  rewriter_meets schema head ch -> rewriter_sat schema head ch ->
  (length schema <= length (r_fields rec))%nat -> (pos <= length buf)%nat ->
  let out := rewrite_spec schema (r_fields rec) (r_unescaped rec) ch value in
  len_sat (encode_rewritten head value rec buf pos) buf pos
          (length (rw_header (rewrite_max schema (r_fields rec) ch value) (length out) ++ out)).
Proof.
  intros schema head ch value rec buf pos M S L Hp out.
  destruct (M rec value L) as [Mmax _]. specialize (S rec value). fold out in S.
  rewrite app_length, rw_header_length.
  set (maxlen := rewrite_max schema (r_fields rec) ch value) in *.
  unfold encode_rewritten. rewrite Mmax. cbn [obind].
  (* the same for both header widths *)
  assert (G : forall hdr k, (forall b st n, len_fit (hdr b st n) b st k) ->
            len_sat ('(buf', pos') <-- hdr buf pos maxlen ;;
                     win <-- window buf' pos' ;;
                     '(win, actual) <-- write_field_body head value rec win ;;
                     buf' <-- (if (actual =? maxlen)%nat then Ok (unwindow buf' pos' win)
                               else '(b, _) <-- hdr (unwindow buf' pos' win) pos actual ;; Ok b) ;;
                     Ok (buf', (pos' + actual)%nat)) buf pos (k + length out)).
  { intros hdr k H. apply fit_then_sat; [exact Hp | apply H |]. intros b1 L1 F1.
    rewrite window_ok by lia. cbn [obind].
    specialize (S (skipn (pos + k) b1) L).
    destruct (write_field_body head value rec (skipn (pos + k) b1)) as [[win actual]| |]; cbn [obind len_sat] in *;
      [|contradiction|rewrite skipn_length in S; lia].
    rewrite skipn_length in S. destruct S as (Lwin & Eact).
    assert (Lu : length (unwindow b1 (pos + k) win) = length b1)
      by (unfold unwindow; rewrite app_length, firstn_length; lia).
    destruct (actual =? maxlen)%nat; cbn [obind len_sat]; [lia|].
    (* the patch of the header: it was written once already, so it is inside the buffer *)
    pose proof (H (unwindow b1 (pos + k) win) pos actual) as H2.
    destruct (hdr (unwindow b1 (pos + k) win) pos actual) as [[b2 p2]| |]; cbn [obind len_fit len_sat] in *; lia. }
  destruct (N.of_nat maxlen <? 65536); [exact (G _ 3%nat string_len16_fit) | exact (G _ 5%nat string_len32_fit)].
Qed.

Definition fields_sat (r : outcome (bytes * nat * nat)) (buf : bytes) (pos k : nat) : Prop :=
  len_sat ('(b, p, _) <-- r ;; Ok (b, p)) buf pos k.

Section LoopsLen.
  Variables (schema : list bytes) (cfg : ser_config) (rec : record).
  Hypothesis Hlen : (length schema <= length (r_fields rec))%nat.
  Hypothesis Hver : forall name ch,
    lookup_rewrite (c_rewrite cfg) name = Some ch -> verify_rewriters schema ch = true.

  Lemma encode_value_sat : forall n v rwopt buf pos,
    match lookup_rewrite (c_rewrite cfg) n with
    | None => Ok None
    | Some chain => new_rewriters schema chain
    end = Ok rwopt ->
    (pos <= length buf)%nat ->
    len_sat match rwopt with
            | Some head => encode_rewritten head v rec buf pos
            | None => encode_string_auto buf pos v
            end buf pos (length (enc_value schema cfg rec n v)).
  Proof.
    intros n v rwopt buf pos Hrw Hp. apply (field_rewriter schema cfg Hver) in Hrw. unfold enc_value.
    destruct rwopt as [head|].
    - destruct Hrw as (ch & -> & Hne & V & Hnew & M).
      apply (encode_rewritten_sat schema head ch v rec buf pos M); try assumption.
      exact (verified_rewriters_sat schema ch Hne V head Hnew).
    - rewrite Hrw. apply encode_string_auto_sat. exact Hp.
  Qed.

  Lemma encode_fields_sat : forall names fields rws buf pos cnt,
    length fields = length names ->
    build_rewriters schema cfg names = Ok rws ->
    (pos <= length buf)%nat ->
    fields_sat (encode_fields (map (mask_of cfg) names) (map enc_str names) rws fields rec buf pos cnt)
               buf pos (length (flat_map (field_bytes schema cfg rec) (combine names fields))).
  Proof.
    unfold fields_sat.
    induction names as [|n names IH]; intros fields rws buf pos cnt Hl Hb Hp.
    - destruct fields; [|discriminate]. apply sat_ok. reflexivity.
    - destruct fields as [|v fields]; [discriminate|]. cbn [length] in Hl.
      destruct (build_rewriters_cons _ _ _ _ _ Hb) as (rwopt & rws' & -> & Erw & Eb).
      cbn [combine flat_map map encode_fields].
      rewrite field_bytes_pair. rewrite mask_of_hidden.
      destruct (is_hidden cfg n || is_nil v) eqn:Emask.
      + cbn [app]. apply IH; (assumption || lia).
      + rewrite !app_length, <- Nat.add_assoc, obind_assoc.
        apply copy_then_sat; [exact Hp|]. intros b1 k1 L1 F1. cbn beta iota zeta. rewrite obind_assoc.
        apply sat_then_sat; [exact F1 | apply (encode_value_sat n v rwopt _ _ Erw F1) |].
        intros b2 p2 L2 F2. apply IH; (assumption || lia).
  Qed.
End LoopsLen.

(* a position behind the buffer: the first visible field panics; without one nothing happens *)
Lemma encode_fields_beyond : forall cfg rec names fields rws buf pos cnt,
  (length buf < pos)%nat ->
  match encode_fields (map (mask_of cfg) names) (map enc_str names) rws fields rec buf pos cnt with
  | Ok r => r = (buf, pos, cnt)
  | Panic _ => True
  | Err _ => False
  end.
Proof.
  intros cfg rec. induction names as [|n names IH]; intros fields rws buf pos cnt Hp.
  - destruct fields; cbn; [reflexivity|exact I].
  - destruct fields as [|v fields]; [cbn; reflexivity|].
    cbn [map encode_fields]. destruct rws as [|rw rws]; [exact I|].
    destruct (mask_of cfg n || is_nil v).
    + apply IH. exact Hp.
    + pose proof (copy_at_len buf pos (enc_str n)) as C.
      destruct (copy_at buf pos (enc_str n)) as [[b1 k1]| |]; cbn [obind]; [lia|contradiction|exact I].
Qed.

Lemma encode_env_sat : forall schema names locs fields buf pos,
  (length schema <= length fields)%nat ->
  locate_all schema names = Ok locs ->
  (pos <= length buf)%nat ->
  len_sat (encode_env locs (map enc_str names) fields buf pos) buf pos
          (length (flat_map (env_bytes schema fields) names)).
Proof.
  intros schema. induction names as [|n names IH]; intros locs fields buf pos Hf Hloc Hp.
  - cbn [locate_all] in Hloc. inversion Hloc; subst. apply sat_ok. reflexivity.
  - destruct (locate_all_cons _ _ _ _ Hloc) as (loc & locs' & -> & Eloc & El).
    cbn [flat_map map encode_env].
    change (env_bytes schema fields n) with (enc_str n ++ enc_str (field_value schema fields n)).
    rewrite !app_length, <- Nat.add_assoc.
    apply copy_then_sat; [exact Hp|]. intros b1 k1 L1 F1. cbn beta iota.
    rewrite (get_field_value schema fields n loc Eloc Hf). cbn [obind].
    apply sat_then_sat; [exact F1 | apply encode_string_auto_sat; exact F1 |].
    intros b2 p2 L2 F2. apply IH; (assumption || lia).
Qed.

(* a reserved slot of k bytes: [body] runs behind it, then the slot is filled.  When even the slot is behind the end
   of the buffer, [body] may do nothing, and filling the slot panics *)
Lemma reserve_then_sat : forall (body : outcome (bytes * nat * nat)) (hdr : bytes -> nat -> outcome (bytes * nat))
    (w : bytes -> nat -> outcome (bytes * nat)) buf pos k kd k2,
  (pos <= length buf)%nat ->
  (forall b x, len_fit (hdr b x) b pos k) ->
  ((pos + k <= length buf)%nat -> fields_sat body buf (pos + k) kd) ->
  ((length buf < pos + k)%nat ->
   match body with Ok (b, _, _) => length b = length buf | Panic _ => True | Err _ => False end) ->
  (forall (b : bytes) q, length b = length buf -> (pos + k <= q <= length b)%nat -> len_sat (w b q) b q k2) ->
  len_sat ('(b, q, x) <-- body ;; '(b, _) <-- hdr b x ;; w b q) buf pos (k + (kd + k2)).
Proof.
  intros body hdr w buf pos k kd k2 Hp Hh Hin Hout Hw.
  destruct (Nat.le_gt_cases (pos + k) (length buf)) as [Hroom|Hbeyond].
  - specialize (Hin Hroom). unfold fields_sat in Hin.
    destruct body as [[[b q] x]| |]; cbn [obind len_sat] in *; [|contradiction|lia].
    destruct Hin as (Lb & Eq). specialize (Hh b x).
    destruct (hdr b x) as [[b' p']| |]; cbn [obind len_fit len_sat] in *; [|contradiction|lia].
    specialize (Hw b' q ltac:(lia) ltac:(lia)). destruct (w b' q) as [[b'' p'']| |]; cbn in *; lia.
  - specialize (Hout Hbeyond). destruct body as [[[b q] x]| |]; cbn [obind len_sat] in *; [|contradiction|lia].
    specialize (Hh b x). destruct (hdr b x) as [[b' p']| |]; cbn [obind len_fit len_sat] in *; lia.
Qed.

(* on ANY buffer encodeRecord panics or ends at  min(size of the event, len(buffer)) *)
Lemma encode_body_sat : forall schema cfg rec B ser buffer,
  chains_ok schema cfg ->
  (length schema <= length (r_fields rec))%nat ->
  new_serializer schema cfg B = Ok ser ->
  len_sat (encode_body ser rec (firstn (length schema) (r_fields rec)) buffer 0) buffer 0
          (length (encode_spec schema cfg rec)).
Proof.
  intros schema cfg rec B ser buffer V L Hnew.
  destruct (new_serializer_inv _ _ _ _ Hnew) as (Hm & Hk & Hek & Hloc & Hrw & Hb).
  unfold encode_body, encode_spec. rewrite Hm, Hk, Hek, (locate_all_length _ _ _ Hloc).
  rewrite enc_fields_as_loop, enc_env_as_loop.
  set (fields := firstn (length schema) (r_fields rec)).
  assert (Hfl : length fields = length schema) by (subst fields; rewrite firstn_length; lia).
  rewrite Hfl, !app_length, !map_header_length, (Nat.add_assoc (length [215; 0])).
  apply (fit_then_sat _ _ _ _ 1%nat); [lia | apply array_len4_fit |]. intros b1 L1 F1.
  apply (fit_then_sat _ _ _ _ 10%nat); [lia | apply event_time_fit |]. intros b2 L2 F2.
  apply reserve_then_sat.
  - lia.
  - intros b x. destruct (N.of_nat (length schema + 1) <? 16); [apply map_len4_fit | apply map_len16_fit].
  - intros Hroom. exact (encode_fields_sat schema cfg rec L V schema fields _ b2 _ 1%nat Hfl Hrw Hroom).
  - intros Hbeyond.
    pose proof (encode_fields_beyond cfg rec schema fields (s_rewriters ser) b2 _ 1%nat Hbeyond) as R.
    destruct (encode_fields _ _ _ fields rec b2 _ 1) as [[[b q] x]| |]; [inversion R; reflexivity | exact R | exact I].
  - intros b3 q L3 F3. apply sat_then_sat; [lia | exact (encode_string_auto_sat b3 q str_environment ltac:(lia)) |].
    intros b4 p4 L4 F4. apply fit_then_sat; [lia | |].
    { destruct (N.of_nat (length (c_env cfg)) <? 16); [apply map_len4_fit | apply map_len16_fit]. }
    intros b5 L5 F5. exact (encode_env_sat schema (c_env cfg) _ fields b5 _ ltac:(lia) Hloc F5).
Qed.

(* when the event is at least as long as the buffer: the empty stream or a panic, nothing else *)
Lemma overflow_lemma : forall schema cfg rec B ser buffer,
  chains_ok schema cfg ->
  (length schema <= length (r_fields rec))%nat ->
  new_serializer schema cfg B = Ok ser ->
  (length buffer <= length (encode_spec schema cfg rec))%nat ->
  match serialize_on ser rec buffer with
  | Ok stream => stream = []
  | Panic _ => True
  | Err _ => False
  end.
Proof.
  intros schema cfg rec B ser buffer V L Hnew Hbig.
  destruct (new_serializer_inv _ _ _ _ Hnew) as (Hm & _).
  unfold serialize_on. rewrite encode_record_on_body, Hm, map_length.
  replace (length schema <=? length (r_fields rec))%nat with true by lia. cbn [obind].
  pose proof (encode_body_sat schema cfg rec B ser buffer V L Hnew) as S.
  destruct (encode_body ser rec _ buffer 0) as [[b e]| |]; cbn [obind len_sat] in *; [|contradiction|exact I].
  (* the position ends at the end of the buffer *)
  replace (e =? length b)%nat with true by lia. reflexivity.
Qed.

(* encodeRecord on ANY buffer is total (Ok or panic, the unescape loop never runs out of fuel); a panic happens only
   when the event does not fit; and a stream that is emitted is empty or the complete event - never a truncated one.
   (Before fix 413c995 this was all that could be said of SerializeRecord; it still describes encodeRecord, i.e.
   what would happen if maxEncodedLength were ever too small.) *)
Theorem encode_record_never_garbage_lemma : forall schema cfg rec B ser buffer,
  chains_ok schema cfg ->
  (length schema <= length (r_fields rec))%nat ->
  new_serializer schema cfg B = Ok ser ->
  match serialize_on ser rec buffer with
  | Ok stream => stream = [] \/ stream = encode_spec schema cfg rec
  | Panic _ => (length buffer <= length (encode_spec schema cfg rec))%nat
  | Err _ => False
  end.
Proof.
  intros schema cfg rec B ser buffer V L Hnew.
  destruct (Nat.lt_ge_cases (length (encode_spec schema cfg rec)) (length buffer)) as [Hfit|Hbig].
  - rewrite (serialize_on_spec schema cfg rec B ser buffer V L Hnew Hfit). right. reflexivity.
  - pose proof (overflow_lemma schema cfg rec B ser buffer V L Hnew Hbig) as O.
    destruct (serialize_on ser rec buffer) as [stream| |]; [left; exact O | exact O | exact Hbig].
Qed.

(* two buffers of the same length given to encodeRecord yield the same non-empty streams *)
Theorem encode_record_contents_irrelevant_lemma : forall schema cfg rec B ser buffer1 buffer2 stream,
  chains_ok schema cfg ->
  (length schema <= length (r_fields rec))%nat ->
  new_serializer schema cfg B = Ok ser ->
  length buffer1 = length buffer2 ->
  stream <> [] ->
  serialize_on ser rec buffer1 = Ok stream ->
  serialize_on ser rec buffer2 = Ok stream.
Proof.
  intros schema cfg rec B ser buffer1 buffer2 stream V L Hnew L12 Hne H1.
  destruct (Nat.lt_ge_cases (length (encode_spec schema cfg rec)) (length buffer1)) as [Hfit|Hbig].
  - rewrite (serialize_on_spec schema cfg rec B ser buffer1 V L Hnew Hfit) in H1.
    rewrite (serialize_on_spec schema cfg rec B ser buffer2 V L Hnew ltac:(lia)). exact H1.
  - pose proof (overflow_lemma schema cfg rec B ser buffer1 V L Hnew Hbig) as O1.
    rewrite H1 in O1. contradiction.
Qed.

(* SerializeRecord (after fix 413c995), for EVERY preallocated buffer - any length, any contents - and EVERY record:
   never a panic, never out of fuel, never the empty stream, never anything but the complete event *)
Theorem never_garbage_lemma : forall schema cfg rec B ser buffer,
  chains_ok schema cfg ->
  (length schema <= length (r_fields rec))%nat ->
  new_serializer schema cfg B = Ok ser ->
  match serialize_record_from ser rec buffer with
  | Ok stream => stream = encode_spec schema cfg rec /\ stream <> []
  | Panic _ => False
  | Err _ => False
  end.
Proof.
  intros schema cfg rec B ser buffer V L Hnew.
  rewrite (serialize_record_from_total schema cfg rec B ser buffer V L Hnew).
  split; [reflexivity | unfold encode_spec; discriminate].
Qed.

(* The preallocated buffer is reused from record to record: what is emitted depends neither on what the previous
   records left in it nor on its length.  (The correspondence run evaluates the model on a zeroed buffer.) *)
Theorem buffer_contents_irrelevant_lemma : forall schema cfg rec B ser buffer1 buffer2,
  chains_ok schema cfg ->
  (length schema <= length (r_fields rec))%nat ->
  new_serializer schema cfg B = Ok ser ->
  serialize_record_from ser rec buffer1 = serialize_record_from ser rec buffer2.
Proof.
  intros schema cfg rec B ser buffer1 buffer2 V L Hnew.
  rewrite (serialize_record_from_total schema cfg rec B ser buffer1 V L Hnew).
  rewrite (serialize_record_from_total schema cfg rec B ser buffer2 V L Hnew). reflexivity.
Qed.

(* from VerifyConfig alone: the serializer exists and every record is emitted as an event that decodes to it *)
Theorem accepted_config_serializes_lemma : forall schema cfg B,
  verify_config schema cfg = true ->
  N.of_nat (length schema) < 65535 ->
  N.of_nat (length (c_env cfg)) < 65536 ->
  exists ser, new_serializer schema cfg B = Ok ser /\
    forall rec buffer,
      (length schema <= length (r_fields rec))%nat ->
      strings_small schema cfg rec ->
      exists stream,
        serialize_record_from ser rec buffer = Ok stream /\ stream <> [] /\
        decode_all stream = Some (event_tree schema cfg rec, []).
Proof.
  intros schema cfg B V Hns Hne. destruct (new_serializer_ok schema cfg B V) as [ser Hser].
  exists ser. split; [exact Hser|]. intros rec buffer L Hsm.
  exact (decode_serialized_lemma schema cfg rec B ser buffer (verified_chain schema cfg V) L Hns Hne Hsm Hser).
Qed.

(* a test on literals of the one-off buffer: the package's test schema and record (Proofs/SerializerProofs.v) with
   InputLogMaxRecordBytes = 8, i.e. a 16-byte preallocated buffer.  maxEncodedLength is 95, the event 76 bytes;
   encodeRecord on the preallocated buffer panics (SerializeRecord before the fix), SerializeRecord emits the
   complete event, which decodes to the record. *)
Lemma example_oversize_lemma :
  exists ser, new_serializer ex_schema ex_cfg 16 = Ok ser /\
    max_encoded_length ser ex_rec = Ok 95%nat /\
    length (encode_spec ex_schema ex_cfg ex_rec) = 76%nat /\
    (exists site, serialize_on ser ex_rec (repeat 0 16) = Panic site) /\
    serialize_record ser ex_rec = Ok (encode_spec ex_schema ex_cfg ex_rec) /\
    decode_all (encode_spec ex_schema ex_cfg ex_rec) = Some (event_tree ex_schema ex_cfg ex_rec, []).
Proof.
  destruct (new_serializer ex_schema ex_cfg 16) as [ser| |] eqn:E; try (vm_compute in E; discriminate).
  exists ser. split; [reflexivity|]. vm_compute in E. inversion E; subst.
  split; [vm_compute; reflexivity|]. split; [vm_compute; reflexivity|].
  split; [eexists; vm_compute; reflexivity|]. split; vm_compute; reflexivity.
Qed.

(* a test on literals at the fixmap limit: 15 schema fields "a".."o", no environment field, every field visible:
   the root map has 16 entries (15 + "environment") and is written as map16 *)
Definition ex15_schema : list bytes := map (fun c => [c]) [97;98;99;100;101;102;103;104;105;106;107;108;109;110;111].
Definition ex15_cfg : ser_config := {| c_env := []; c_hidden := []; c_rewrite := [] |}.
Definition ex15_rec : record :=
  {| r_fields := map (fun c => [c; c]) [65;66;67;68;69;70;71;72;73;74;75;76;77;78;79];
     r_unix := 1; r_nsec := 2; r_unescaped := false |}.

Lemma example15_lemma :
  chains_ok ex15_schema ex15_cfg /\
  length (visible ex15_schema ex15_cfg ex15_rec) = 15%nat /\
  (exists ser, new_serializer ex15_schema ex15_cfg 200 = Ok ser /\
               serialize_record ser ex15_rec = Ok (encode_spec ex15_schema ex15_cfg ex15_rec)) /\
  nth_error (encode_spec ex15_schema ex15_cfg ex15_rec) 11 = Some 222 /\
  decode_all (encode_spec ex15_schema ex15_cfg ex15_rec) = Some (event_tree ex15_schema ex15_cfg ex15_rec, []).
Proof.
  split; [intros name ch H; discriminate H|]. split; [reflexivity|]. split.
  - destruct (new_serializer ex15_schema ex15_cfg 200) as [ser| |] eqn:E; try (vm_compute in E; discriminate).
    exists ser. split; [reflexivity|]. vm_compute in E. inversion E; subst. vm_compute. reflexivity.
  - split; vm_compute; reflexivity.
Qed.
