(* Proofs about Model/Metrics.v (C19): the balance equations as invariants over arbitrary event lists.  The buffer and
   the client are reasoned about through the step relations b_trans / c_trans (b_step_trans, c_step_trans), which show
   the new metrics only through their differences to the old ones.
   The key-attribution block: [attribution_lemma] (when the merge function is injective on the key tuples that occur,
   the counter set selected for a tuple carries that tuple and counts exactly its records),
   [attribution_concat_refuted_lemma] (plain concatenation: two tuples share one counter set), and [uvarint_inj],
   [merge_lp_inj], by which [attribution_lp_lemma] has the attribution for the length-prefixed key without hypothesis.
   Every [..._refuted_lemma] is a concrete run on which an equation fails outside its hypotheses or with a switch of
   the model off: [in_uncounted_refuted_lemma], [pending_zero_after_destroy_refuted_lemma],
   [leftover_lost_refuted_lemma], [acker_stuck_refuted_lemma]. *)
From SV Require Import Model.Common Model.Metrics Proofs.CommonFacts.
From Coq Require Import Lia ZifyBool ZifyN ZifyNat Permutation.
Local Open Scope Z_scope.

Lemma fold_left_inv : forall (S E : Type) (step : S -> E -> S) (P : list E -> S -> Prop) (evs : list E) (done : list E) (s : S),
  P done s ->
  (forall d s e, P d s -> P (d ++ [e]) (step s e)) ->
  P (done ++ evs) (fold_left step evs s).
Proof.
  intros S E step P evs. induction evs as [|e evs IH]; intros done s H0 Hstep; simpl.
  - rewrite app_nil_r. exact H0.
  - replace (done ++ e :: evs) with ((done ++ [e]) ++ evs) by (rewrite <- app_assoc; reflexivity).
    apply IH; auto.
Qed.

(* [run] follows [step] along a list of events as long as the events are enabled (flow_run, b_run, c_run and sys_run
   are of this form): what every step preserves holds at the end of every run *)
Lemma run_inv : forall (S E : Type) (step : S -> E -> option S) (run : S -> list E -> option S) (P : S -> Prop),
  (forall s, run s [] = Some s) ->
  (forall s e evs, run s (e :: evs) = match step s e with Some s1 => run s1 evs | None => None end) ->
  (forall s e s', P s -> step s e = Some s' -> P s') ->
  forall evs s s', P s -> run s evs = Some s' -> P s'.
Proof.
  intros S E step run P Hnil Hcons Hstep. induction evs as [|e evs IH]; intros s s' Hi Hr.
  - rewrite Hnil in Hr. injection Hr as <-. exact Hi.
  - rewrite Hcons in Hr. destruct (step s e) eqn:Hs; [|discriminate]. eapply IH; [|exact Hr]. eapply Hstep; eauto.
Qed.

(* independent specification: what happened, read off the event list *)
Definition ev_len (e : in_event) : Z := match e with InMalformed l => l | InParsed l _ _ _ => l end.
Definition ev_delivered (e : in_event) : bool :=
  match e with InParsed _ _ _ false => true | _ => false end.

Fixpoint sum_len (P : in_event -> bool) (evs : list in_event) : Z :=
  match evs with [] => 0 | e :: r => (if P e then ev_len e else 0) + sum_len P r end.
Fixpoint count_ev (P : in_event -> bool) (evs : list in_event) : Z :=
  match evs with [] => 0 | e :: r => (if P e then 1 else 0) + count_ev P r end.

Lemma sum_len_app : forall P a b, sum_len P (a ++ b) = sum_len P a + sum_len P b.
Proof. induction a; intros; simpl; [reflexivity|]. rewrite IHa. lia. Qed.
Lemma count_ev_app : forall P a b, count_ev P (a ++ b) = count_ev P a + count_ev P b.
Proof. induction a; intros; simpl; [reflexivity|]. rewrite IHa. lia. Qed.

Definition all_ev (e : in_event) : bool := true.

Definition in_inv (counted : bool) (evs : list in_event) (s : in_state) : Prop :=
  i_msgs s = count_ev all_ev evs /\ i_msgs_b s = sum_len all_ev evs /\
  i_out s = count_ev ev_delivered evs /\ i_out_b s = sum_len ev_delivered evs /\
  ic_pn (i_cnt s) + ic_dn (i_cnt s) = i_msgs s /\ ic_pb (i_cnt s) + ic_db (i_cnt s) = i_msgs_b s /\
  (counted = true -> ic_pn (i_cnt s) = i_out s /\ ic_pb (i_cnt s) = i_out_b s).

Lemma in_inv_run : forall counted evs, in_inv counted evs (in_run counted evs).
Proof.
  intros counted evs. unfold in_run.
  apply (fold_left_inv _ _ (in_step counted) (in_inv counted) evs [] in_init).
  - unfold in_inv, in_init; simpl. repeat split; intros; reflexivity.
  - intros d s e (H1 & H2 & H3 & H4 & H5 & H6 & H7).
    unfold in_inv. rewrite !count_ev_app, !sum_len_app. simpl.
    destruct e as [len | len ovf fired xdrop]; simpl.
    + repeat split; try lia. all: intros Hc; specialize (H7 Hc); lia.
    + destruct xdrop; simpl.
      * destruct counted; simpl; repeat split; try lia. all: intros Hc; try discriminate. all: specialize (H7 Hc); lia.
      * repeat split; try lia. all: intros Hc; specialize (H7 Hc); lia.
Qed.

(* input passed + dropped = messages handed to the parser (records and bytes), for both code variants *)
Lemma in_balance_lemma : forall counted evs,
  let s := in_run counted evs in
  ic_pn (i_cnt s) + ic_dn (i_cnt s) = count_ev all_ev evs /\
  ic_pb (i_cnt s) + ic_db (i_cnt s) = sum_len all_ev evs.
Proof. intros counted evs s. destruct (in_inv_run counted evs) as (H1 & H2 & _ & _ & H5 & H6 & _). fold s in H1, H2, H5, H6. lia. Qed.

(* after the repair: input passed = records returned to the receiver, input dropped = all the others *)
Lemma in_passed_is_delivered_lemma : forall evs,
  let s := in_run true evs in
  ic_pn (i_cnt s) = count_ev ev_delivered evs /\ ic_pb (i_cnt s) = sum_len ev_delivered evs /\
  ic_dn (i_cnt s) = count_ev (fun e => negb (ev_delivered e)) evs /\
  ic_db (i_cnt s) = sum_len (fun e => negb (ev_delivered e)) evs.
Proof.
  intros evs s. destruct (in_inv_run true evs) as (H1 & H2 & H3 & H4 & H5 & H6 & H7). fold s in H1, H2, H3, H4, H5, H6, H7.
  destruct (H7 eq_refl) as [Ha Hb].
  assert (Hc : forall l, count_ev all_ev l = count_ev ev_delivered l + count_ev (fun e => negb (ev_delivered e)) l).
  { induction l as [|e l IH]; [reflexivity|]. cbn [count_ev]. change (all_ev e) with true. destruct (ev_delivered e); cbn [negb]; lia. }
  assert (Hd : forall l, sum_len all_ev l = sum_len ev_delivered l + sum_len (fun e => negb (ev_delivered e)) l).
  { induction l as [|e l IH]; [reflexivity|]. cbn [sum_len]. change (all_ev e) with true. destruct (ev_delivered e); cbn [negb]; lia. }
  specialize (Hc evs). specialize (Hd evs). lia.
Qed.

(* the original code: a record dropped by an extraction transform stays counted as passed *)
Lemma in_uncounted_refuted_lemma :
  exists evs, ic_pn (i_cnt (in_run false evs)) <> count_ev ev_delivered evs.
Proof. exists [InParsed 74 false [label_xmarker] true]. vm_compute. discriminate. Qed.

Definition flow_inv (s : flow) : Prop :=
  0 <= f_sink s /\ 0 <= f_cache s /\ 0 <= f_chan s /\ 0 <= f_worker s /\ 0 <= f_lost s /\
  f_delivered s = f_sink s + f_cache s + f_chan s + f_worker s + f_lost s.

Lemma flow_step_inv : forall s e s', flow_inv s -> flow_step s e = Some s' -> flow_inv s'.
Proof.
  intros s e s' (H1 & H2 & H3 & H4 & H5 & H6) Hs. unfold flow_inv.
  destruct e; simpl in Hs;
    try (destruct ((0 <=? n) && _)%bool eqn:G; [|discriminate]);
    inversion Hs; subst; simpl; lia.
Qed.

Lemma flow_run_inv : forall evs s s', flow_inv s -> flow_run s evs = Some s' -> flow_inv s'.
Proof. apply (run_inv _ _ flow_step); [reflexivity..|apply flow_step_inv]. Qed.

(* at quiescence, with no batch lost by the channel timeout, every record returned by the parser has
   entered a pipeline worker *)
Lemma flow_conservation_lemma : forall evs s,
  flow_run flow_init evs = Some s ->
  f_delivered s = f_sink s + f_cache s + f_chan s + f_worker s + f_lost s /\
  (flow_quiet s = true -> f_lost s = 0 -> f_worker s = f_delivered s).
Proof.
  intros evs s Hr.
  assert (Hi : flow_inv s). { eapply flow_run_inv; [|exact Hr]. unfold flow_inv, flow_init; simpl. lia. }
  destruct Hi as (H1 & H2 & H3 & H4 & H5 & H6). split; [exact H6|].
  unfold flow_quiet. intros Hq Hl. lia.
Qed.

Lemma bytes_eqb_false : forall a b, bytes_eqb a b = false <-> a <> b.
Proof.
  intros a b. split; intros H.
  - intros E. apply bytes_eqb_eq in E. congruence.
  - destruct (bytes_eqb a b) eqn:E; [|reflexivity]. apply bytes_eqb_eq in E. contradiction.
Qed.

Lemma lab_get_add : forall m l len l',
  lab_get (lab_add m l len) l' = if bytes_eqb l l' then cnt_add (lab_get m l) len else lab_get m l'.
Proof.
  induction m as [|[k c] m IH]; intros l len l'; simpl.
  - destruct (bytes_eqb l l'); reflexivity.
  - destruct (bytes_eqb k l) eqn:Ekl; simpl.
    + apply bytes_eqb_eq in Ekl. subst k. destruct (bytes_eqb l l'); reflexivity.
    + rewrite IH. destruct (bytes_eqb k l') eqn:Ekl'; [|reflexivity].
      apply bytes_eqb_eq in Ekl'. subst k. rewrite bytes_eqb_sym, Ekl. reflexivity.
Qed.

Fixpoint count_b (l : bytes) (ls : list bytes) : Z :=
  match ls with [] => 0 | x :: r => (if bytes_eqb x l then 1 else 0) + count_b l r end.

Lemma count_b_nonneg : forall l ls, 0 <= count_b l ls.
Proof. induction ls; simpl; [lia|]. destruct (bytes_eqb a l); lia. Qed.

Lemma lab_get_add_all : forall fired m len l,
  lab_get (lab_add_all m fired len) l =
  (fst (lab_get m l) + count_b l fired, snd (lab_get m l) + count_b l fired * len).
Proof.
  induction fired as [|x fired IH]; intros m len l; simpl.
  - destruct (lab_get m l); simpl. f_equal; lia.
  - rewrite IH, lab_get_add. destruct (bytes_eqb x l) eqn:E.
    + apply bytes_eqb_eq in E. subst x. unfold cnt_add; cbn [fst snd]. f_equal; lia.
    + f_equal; lia.
Qed.

Lemma kmap_get_upd : forall m mk ks f mk',
  kmap_get (kmap_upd m mk ks f) mk' =
  if bytes_eqb mk mk'
  then Some (f (match kmap_get m mk with Some v => v | None => KC ks ic0 [] end))
  else kmap_get m mk'.
Proof.
  induction m as [|[k v] m IH]; intros mk ks f mk'; simpl.
  - destruct (bytes_eqb mk mk'); reflexivity.
  - destruct (bytes_eqb k mk) eqn:Ek; simpl.
    + apply bytes_eqb_eq in Ek. subst k. destruct (bytes_eqb mk mk'); reflexivity.
    + rewrite IH. destruct (bytes_eqb k mk') eqn:Ek'; [|reflexivity].
      apply bytes_eqb_eq in Ek'. subst k. rewrite bytes_eqb_sym, Ek. reflexivity.
Qed.

Lemma kmap_sum_upd : forall (g : kcount -> Z) (delta : Z) m mk ks f,
  (forall kc, g (f kc) = g kc + delta) -> g (KC ks ic0 []) = 0 ->
  kmap_sum g (kmap_upd m mk ks f) = kmap_sum g m + delta.
Proof.
  intros g delta m mk ks f Hf H0. induction m as [|[k v] m IH]; simpl.
  - rewrite Hf, H0. lia.
  - destruct (bytes_eqb k mk); simpl; [rewrite Hf|rewrite IH]; lia.
Qed.

Definition g_n (kc : kcount) : Z := ic_pn (kc_in kc) + ic_dn (kc_in kc).
Definition g_b (kc : kcount) : Z := ic_pb (kc_in kc) + ic_db (kc_in kc).

Definition p_bal (s : pstate) : Prop :=
  kmap_sum g_n (p_map s) = p_entered s /\ kmap_sum g_b (p_map s) = p_entered_b s.

Lemma p_bal_step : forall mg s e, p_bal s -> p_bal (p_step_mg mg s e).
Proof.
  intros mg s e [H1 H2]. unfold p_bal.
  destruct e as [ks len fired drop | o size]; cbn [p_step_mg p_map p_entered p_entered_b]; [|split; assumption].
  split.
  - rewrite (kmap_sum_upd g_n 1); [lia| |reflexivity].
    intros kc. unfold g_n; simpl. destruct drop; simpl; lia.
  - rewrite (kmap_sum_upd g_b len); [lia| |reflexivity].
    intros kc. unfold g_b; simpl. destruct drop; simpl; lia.
Qed.

(* pipeline passed + dropped = records entering the worker, records and bytes, whatever the map key *)
Lemma p_balance_lemma : forall mg nout evs,
  let s := p_run_mg mg nout evs in
  kmap_sum g_n (p_map s) = p_entered s /\ kmap_sum g_b (p_map s) = p_entered_b s.
Proof.
  intros mg nout evs. unfold p_run_mg.
  apply (fold_left_inv _ _ (p_step_mg mg) (fun _ => p_bal) evs [] (p_init nout)); [split; reflexivity|].
  intros d s e. apply p_bal_step.
Qed.

Fixpoint psum (f : p_event -> Z) (evs : list p_event) : Z :=
  match evs with [] => 0 | e :: r => f e + psum f r end.
Lemma psum_app : forall f a b, psum f (a ++ b) = psum f a + psum f b.
Proof. induction a; intros; simpl; [reflexivity|]. rewrite IHa. lia. Qed.
Lemma psum_ext_in : forall f g evs, (forall e, In e evs -> f e = g e) -> psum f evs = psum g evs.
Proof.
  induction evs as [|e r IH]; intros H; simpl; [reflexivity|].
  rewrite H by (left; reflexivity). rewrite IH; [reflexivity|]. intros x Hx. apply H. right. exact Hx.
Qed.

Definition is_rec (e : p_event) : Z := match e with PRec _ _ _ _ => 1 | _ => 0 end.
Definition rec_len (e : p_event) : Z := match e with PRec _ len _ _ => len | _ => 0 end.

(* the history variables are what they claim to be *)
Lemma p_entered_lemma : forall mg nout evs,
  p_entered (p_run_mg mg nout evs) = psum is_rec evs /\ p_entered_b (p_run_mg mg nout evs) = psum rec_len evs.
Proof.
  intros mg nout evs. unfold p_run_mg.
  apply (fold_left_inv _ _ (p_step_mg mg)
           (fun d s => p_entered s = psum is_rec d /\ p_entered_b s = psum rec_len d) evs [] (p_init nout)).
  - simpl. split; reflexivity.
  - intros d s e [H1 H2]. rewrite !psum_app. destruct e; simpl; lia.
Qed.

Section Attribution.
Variable mg : list bytes -> bytes.

Definition sel (mk : bytes) (e : p_event) : bool :=
  match e with PRec ks _ _ _ => bytes_eqb (mg ks) mk | _ => false end.

Definition w_pn (e : p_event) : Z := match e with PRec _ _ _ false => 1 | _ => 0 end.
Definition w_pb (e : p_event) : Z := match e with PRec _ len _ false => len | _ => 0 end.
Definition w_dn (e : p_event) : Z := match e with PRec _ _ _ true => 1 | _ => 0 end.
Definition w_db (e : p_event) : Z := match e with PRec _ len _ true => len | _ => 0 end.
Definition w_ln (l : bytes) (e : p_event) : Z := match e with PRec _ _ fired _ => count_b l fired | _ => 0 end.
Definition w_lb (l : bytes) (e : p_event) : Z := match e with PRec _ len fired _ => count_b l fired * len | _ => 0 end.

Definition on (P : p_event -> bool) (w : p_event -> Z) (e : p_event) : Z := if P e then w e else 0.

Fixpoint first_keys (mk : bytes) (evs : list p_event) : option (list bytes) :=
  match evs with
  | [] => None
  | PRec ks _ _ _ :: r => if bytes_eqb (mg ks) mk then Some ks else first_keys mk r
  | _ :: r => first_keys mk r
  end.

Lemma first_keys_app : forall mk a b,
  first_keys mk (a ++ b) = match first_keys mk a with Some k => Some k | None => first_keys mk b end.
Proof.
  induction a as [|e a IH]; intros b; simpl; [reflexivity|].
  destruct e as [ks len fired drop|o size]; [|apply IH].
  destruct (bytes_eqb (mg ks) mk); [reflexivity|apply IH].
Qed.

Definition entry_ok (d : list p_event) (mk : bytes) (kc : kcount) : Prop :=
  first_keys mk d = Some (kc_keys kc) /\
  ic_pn (kc_in kc) = psum (on (sel mk) w_pn) d /\ ic_pb (kc_in kc) = psum (on (sel mk) w_pb) d /\
  ic_dn (kc_in kc) = psum (on (sel mk) w_dn) d /\ ic_db (kc_in kc) = psum (on (sel mk) w_db) d /\
  forall l, lab_get (kc_lab kc) l = (psum (on (sel mk) (w_ln l)) d, psum (on (sel mk) (w_lb l)) d).

Definition map_ok (d : list p_event) (s : pstate) : Prop :=
  forall mk, match kmap_get (p_map s) mk with
             | Some kc => entry_ok d mk kc
             | None => first_keys mk d = None /\ forall w, psum (on (sel mk) w) d = 0
             end.

Lemma on_true : forall P w e, P e = true -> on P w e = w e.
Proof. intros P w e H. unfold on. rewrite H. reflexivity. Qed.
Lemma on_false : forall P w e, P e = false -> on P w e = 0.
Proof. intros P w e H. unfold on. rewrite H. reflexivity. Qed.

(* an event that mk does not select changes nothing of what map_ok says about mk *)
Lemma unselected_step : forall d s e mk, sel mk e = false ->
  kmap_get (p_map (p_step_mg mg s e)) mk = kmap_get (p_map s) mk /\
  first_keys mk (d ++ [e]) = first_keys mk d /\ forall w, psum (on (sel mk) w) (d ++ [e]) = psum (on (sel mk) w) d.
Proof.
  intros d s e mk Hsel. rewrite first_keys_app. repeat split.
  - destruct e as [ks len fired drop|o size]; cbn [p_step_mg p_map]; [|reflexivity]. rewrite kmap_get_upd. cbn in Hsel. rewrite Hsel. reflexivity.
  - destruct e as [ks len fired drop|o size]; cbn in *; rewrite ?Hsel; destruct (first_keys mk d); reflexivity.
  - intros w. rewrite psum_app. cbn [psum]. rewrite (on_false _ _ _ Hsel). lia.
Qed.

Lemma map_ok_run : forall nout evs, map_ok evs (p_run_mg mg nout evs).
Proof.
  intros nout evs. unfold p_run_mg.
  apply (fold_left_inv _ _ (p_step_mg mg) map_ok evs [] (p_init nout)).
  - intros mk. simpl. split; [reflexivity|]. intros w. reflexivity.
  - intros d s e Hok mk. specialize (Hok mk).
    destruct (sel mk e) eqn:Hsel.
    + (* a record of mk *)
      destruct e as [ks len fired drop | o size]; [|discriminate]. cbn in Hsel. apply bytes_eqb_eq in Hsel. subst mk.
      assert (Hsel : sel (mg ks) (PRec ks len fired drop) = true) by (simpl; apply bytes_eqb_refl).
      cbn [p_step_mg p_map]. rewrite kmap_get_upd, bytes_eqb_refl.
      unfold entry_ok. rewrite first_keys_app. rewrite !psum_app. cbn [psum]. rewrite !(on_true _ _ _ Hsel).
      destruct (kmap_get (p_map s) (mg ks)) as [kc|] eqn:G.
      * destruct Hok as (Hk & H1 & H2 & H3 & H4 & H5). cbn [kc_keys kc_in kc_lab].
        rewrite Hk. split; [reflexivity|].
        destruct drop; cbn [w_pn w_pb w_dn w_db ic_pass ic_drop ic_pn ic_pb ic_dn ic_db];
          (repeat split; try lia);
          intros l; rewrite lab_get_add_all, H5; cbn [fst snd]; rewrite !psum_app; cbn [psum];
          rewrite !(on_true _ _ _ Hsel); cbn [w_ln w_lb]; apply f_equal2; lia.
      * destruct Hok as (Hk & H0). cbn [kc_keys kc_in kc_lab].
        rewrite Hk. cbn [first_keys]. rewrite bytes_eqb_refl. split; [reflexivity|].
        destruct drop; cbn [w_pn w_pb w_dn w_db ic_pass ic_drop ic_pn ic_pb ic_dn ic_db ic0];
          (repeat split; try (rewrite H0; lia));
          intros l; rewrite lab_get_add_all; cbn [lab_get cnt0 fst snd]; rewrite !psum_app, !H0; cbn [psum];
          rewrite !(on_true _ _ _ Hsel); cbn [w_ln w_lb]; apply f_equal2; lia.
    + destruct (unselected_step d s e mk Hsel) as (Hg & Hf & Hp). rewrite Hg.
      destruct (kmap_get (p_map s) mk) as [kc|].
      * destruct Hok as (Hk & H1 & H2 & H3 & H4 & H5). unfold entry_ok. rewrite Hf, !Hp.
        repeat split; try assumption. intros l. rewrite !Hp. apply H5.
      * destruct Hok as (Hk & H0). rewrite Hf. split; [exact Hk|]. intros w. rewrite Hp. apply H0.
Qed.

End Attribution.

(* attribution by key TUPLE (what the property demands), under injectivity of the map key *)

Fixpoint keys_eqb (a b : list bytes) : bool :=
  match a, b with
  | [], [] => true
  | x :: a', y :: b' => bytes_eqb x y && keys_eqb a' b'
  | _, _ => false
  end.

Lemma keys_eqb_eq : forall a b, keys_eqb a b = true <-> a = b.
Proof.
  induction a as [|x a IH]; intros [|y b]; simpl; split; intro H; try reflexivity; try discriminate.
  - apply andb_true_iff in H. destruct H as [H1 H2]. apply bytes_eqb_eq in H1. apply IH in H2. subst. reflexivity.
  - inversion H; subst. rewrite bytes_eqb_refl. simpl. apply IH. reflexivity.
Qed.

(* events caused by records whose own metric-key tuple is ks *)
Definition selk (ks : list bytes) (e : p_event) : bool :=
  match e with PRec ks' _ _ _ => keys_eqb ks' ks | _ => false end.

Definition keys_of (evs : list p_event) : list (list bytes) :=
  flat_map (fun e => match e with PRec ks _ _ _ => [ks] | _ => [] end) evs.

Definition inj_on (mg : list bytes -> bytes) (l : list (list bytes)) : Prop :=
  forall a b, In a l -> In b l -> mg a = mg b -> a = b.

Lemma keys_of_in : forall evs ks len fired drop, In (PRec ks len fired drop) evs -> In ks (keys_of evs).
Proof.
  induction evs as [|e evs IH]; intros ks len fired drop H; simpl in *; [contradiction|].
  apply in_or_app. destruct H as [H|H]; [subst e; left; left; reflexivity|right; eapply IH; eauto].
Qed.

Lemma first_keys_some : forall mg evs ks, In ks (keys_of evs) ->
  exists ks', first_keys mg (mg ks) evs = Some ks' /\ In ks' (keys_of evs) /\ mg ks' = mg ks.
Proof.
  intros mg. induction evs as [|e evs IH]; intros ks H; simpl in H; [contradiction|].
  destruct e as [ks0 len fired drop|o size]; simpl in *.
  - destruct (bytes_eqb (mg ks0) (mg ks)) eqn:E.
    + exists ks0. apply bytes_eqb_eq in E. auto.
    + destruct H as [H|H].
      * subst ks0. rewrite bytes_eqb_refl in E. discriminate.
      * destruct (IH ks H) as (k' & H1 & H2 & H3). exists k'. auto.
  - apply IH in H. destruct H as (k' & H1 & H2 & H3). exists k'. auto.
Qed.

(* the statement of the property for labelled counters: for every key tuple that occurs, the counter set
   selected for it carries exactly that tuple as label values and counts exactly the records with that tuple *)
Definition attributed (mg : list bytes -> bytes) (nout : nat) (evs : list p_event) (ks : list bytes) : Prop :=
  exists kc, kmap_get (p_map (p_run_mg mg nout evs)) (mg ks) = Some kc /\ kc_keys kc = ks /\
    ic_pn (kc_in kc) = psum (on (selk ks) w_pn) evs /\ ic_pb (kc_in kc) = psum (on (selk ks) w_pb) evs /\
    ic_dn (kc_in kc) = psum (on (selk ks) w_dn) evs /\ ic_db (kc_in kc) = psum (on (selk ks) w_db) evs /\
    forall l, lab_get (kc_lab kc) l = (psum (on (selk ks) (w_ln l)) evs, psum (on (selk ks) (w_lb l)) evs).

Lemma attribution_lemma : forall mg nout evs,
  inj_on mg (keys_of evs) -> forall ks, In ks (keys_of evs) -> attributed mg nout evs ks.
Proof.
  intros mg nout evs Hinj ks Hin.
  pose proof (map_ok_run mg nout evs (mg ks)) as Hok.
  destruct (first_keys_some mg evs ks Hin) as (ks' & Hf & Hin' & Hmg).
  assert (ks' = ks) by (apply Hinj; assumption). subst ks'.
  assert (Hext : forall w, psum (on (sel mg (mg ks)) w) evs = psum (on (selk ks) w) evs).
  { intros w. apply psum_ext_in. intros e He. unfold on.
    destruct e as [k0 len fired drop|o size]; simpl; [|reflexivity].
    assert (Hk0 : In k0 (keys_of evs)) by (eapply keys_of_in; eauto).
    destruct (keys_eqb k0 ks) eqn:E.
    - apply keys_eqb_eq in E. subst k0. rewrite bytes_eqb_refl. reflexivity.
    - destruct (bytes_eqb (mg k0) (mg ks)) eqn:E2; [|reflexivity].
      apply bytes_eqb_eq in E2. apply Hinj in E2; auto. subst k0.
      assert (keys_eqb ks ks = true) by (apply keys_eqb_eq; reflexivity). congruence. }
  destruct (kmap_get (p_map (p_run_mg mg nout evs)) (mg ks)) as [kc|] eqn:G.
  - destruct Hok as (Hk & H1 & H2 & H3 & H4 & H5). exists kc. split; [exact G|].
    rewrite Hf in Hk. assert (Hkk : kc_keys kc = ks) by congruence. split; [exact Hkk|].
    rewrite <- !Hext. repeat split; try assumption.
    intros l. rewrite H5, !Hext. reflexivity.
  - destruct Hok as [Hk _]. rewrite Hf in Hk. discriminate.
Qed.

(* the original map key (plain concatenation): two tuples with the same concatenation share a counter set *)
Lemma attribution_concat_refuted_lemma :
  exists evs ks, In ks (keys_of evs) /\ ~ attributed (merge_key false) 0 evs ks.
Proof.
  exists [PRec [[97;98];[99]]%N 10 [] false; PRec [[97];[98;99]]%N 20 [] true], [[97];[98;99]]%N.
  split; [simpl; auto|].
  intros (kc & Hg & Hk & _). vm_compute in Hg. inversion Hg; subst kc. vm_compute in Hk. discriminate.
Qed.

Lemma pow128_succ : forall f, (128 ^ N.of_nat (S f) = 128 * 128 ^ N.of_nat f)%N.
Proof. intros f. rewrite Nat2N.inj_succ, N.pow_succ_r'. reflexivity. Qed.

Lemma uvarint_fuel_inj : forall f1 f2 n1 n2 x1 x2,
  (n1 < 128 ^ N.of_nat (S f1))%N -> (n2 < 128 ^ N.of_nat (S f2))%N ->
  uvarint_fuel (S f1) n1 ++ x1 = uvarint_fuel (S f2) n2 ++ x2 -> n1 = n2 /\ x1 = x2.
Proof.
  induction f1 as [|f1 IH]; intros f2 n1 n2 x1 x2 H1 H2 He.
  - change (128 ^ N.of_nat 1)%N with 128%N in H1.
    cbn [uvarint_fuel] in He. destruct (n1 <? 128)%N eqn:E1; [|lia].
    destruct (n2 <? 128)%N eqn:E2; cbn [app] in He; inversion He as [[Hh Ht]]; [auto|lia].
  - cbn [uvarint_fuel] in He. rewrite pow128_succ in H1.
    destruct (n1 <? 128)%N eqn:E1.
    + destruct (n2 <? 128)%N eqn:E2; cbn [app] in He; inversion He as [[Hh Ht]]; [auto|lia].
    + destruct (n2 <? 128)%N eqn:E2; [cbn [app] in He; inversion He as [[Hh Ht]]; lia|].
      destruct f2 as [|f2]; [change (128 ^ N.of_nat 1)%N with 128%N in H2; lia|].
      rewrite pow128_succ in H2.
      cbn [app] in He. inversion He as [[Hh Ht]].
      destruct (IH f2 (n1 / 128)%N (n2 / 128)%N x1 x2) as [Hq Hx].
      * apply N.div_lt_upper_bound; lia.
      * apply N.div_lt_upper_bound; lia.
      * exact Ht.
      * split; [|exact Hx].
        rewrite (N.div_mod n1 128), (N.div_mod n2 128) by lia. rewrite Hq. f_equal. lia.
Qed.

Lemma uvarint_bound : forall n, (n < 128 ^ N.of_nat (S (N.to_nat (N.log2 n))))%N.
Proof.
  intros n. destruct (N.eq_dec n 0) as [->|Hn]; [simpl; lia|].
  rewrite Nat2N.inj_succ, N2Nat.id.
  assert (H : (n < 2 ^ N.succ (N.log2 n))%N) by (apply N.log2_spec; lia).
  eapply N.lt_le_trans; [exact H|]. apply N.pow_le_mono_l. lia.
Qed.

Lemma uvarint_inj : forall n1 n2 x1 x2, uvarint n1 ++ x1 = uvarint n2 ++ x2 -> n1 = n2 /\ x1 = x2.
Proof. intros n1 n2 x1 x2 H. unfold uvarint in H. eapply uvarint_fuel_inj; [apply uvarint_bound|apply uvarint_bound|exact H]. Qed.

Lemma uvarint_nonempty : forall n, uvarint n <> [].
Proof. intros n. unfold uvarint. cbn [uvarint_fuel]. destruct (n <? 128)%N; discriminate. Qed.

Lemma merge_lp_inj : forall a b, merge_lp a = merge_lp b -> a = b.
Proof.
  induction a as [|k a IH]; intros [|k' b] H; cbn [merge_lp] in H.
  - reflexivity.
  - destruct (uvarint (N.of_nat (length k'))) eqn:E; [apply uvarint_nonempty in E; contradiction|discriminate].
  - destruct (uvarint (N.of_nat (length k))) eqn:E; [apply uvarint_nonempty in E; contradiction|discriminate].
  - apply uvarint_inj in H. destruct H as [Hn Hr].
    apply Nat2N.inj in Hn. apply app_inj_len in Hr; [|exact Hn]. destruct Hr as [-> Hr].
    f_equal. apply IH. exact Hr.
Qed.

Lemma attribution_lp_lemma : forall nout evs ks, In ks (keys_of evs) -> attributed (merge_key true) nout evs ks.
Proof.
  intros nout evs ks H. apply attribution_lemma; [|exact H].
  intros a b _ _ Hm. apply merge_lp_inj. exact Hm.
Qed.

(* the original key: attribution holds as long as no two occurring tuples have the same concatenation *)
Lemma attribution_concat_lemma : forall nout evs,
  (forall a b, In a (keys_of evs) -> In b (keys_of evs) -> concat a = concat b -> a = b) ->
  forall ks, In ks (keys_of evs) -> attributed (merge_key false) nout evs ks.
Proof. intros nout evs H ks Hin. apply attribution_lemma; [exact H|exact Hin]. Qed.

Fixpoint pipes_sum (f : pstate -> Z) (ps : list (bytes * pstate)) : Z :=
  match ps with [] => 0 | (_, v) :: r => f v + pipes_sum f r end.

Lemma pipes_sum_upd : forall mg (f : pstate -> Z) (delta : Z) e m pk,
  (forall v, f (p_step_mg mg v e) = f v + delta) -> f (p_init 0) = 0 ->
  pipes_sum f (pipes_upd mg m pk e) = pipes_sum f m + delta.
Proof.
  intros mg f delta e m pk Hf H0. induction m as [|[k v] m IH]; simpl.
  - rewrite Hf, H0. lia.
  - destruct (bytes_eqb k pk); simpl; [rewrite Hf|rewrite IH]; lia.
Qed.

Lemma pipes_bal_upd : forall mg e m pk,
  Forall (fun pv => p_bal (snd pv)) m -> Forall (fun pv => p_bal (snd pv)) (pipes_upd mg m pk e).
Proof.
  intros mg e m pk H. induction m as [|[k v] m IH]; simpl.
  - constructor; [|constructor]. simpl. apply p_bal_step. split; reflexivity.
  - inversion H; subst. destruct (bytes_eqb k pk); constructor; auto. simpl in *. apply p_bal_step. assumption.
Qed.

(* a record is well formed when the worker event exists exactly for a record returned to the receiver, with the
   same raw length *)
Definition rr_wf (r : rec_run) : Prop :=
  match rr_in r, rr_p r with
  | InParsed len _ _ false, Some (PRec _ len' _ _) => len' = len
  | InParsed _ _ _ true, None => True
  | InMalformed _, None => True
  | _, _ => False
  end.

Definition pipes_total_n (ps : list (bytes * pstate)) : Z := pipes_sum (fun v => kmap_sum g_n (p_map v)) ps.
Definition pipes_total_b (ps : list (bytes * pstate)) : Z := pipes_sum (fun v => kmap_sum g_b (p_map v)) ps.

Lemma run_records_in : forall counted mg rs i0 ps0,
  fst (fold_left (rec_step counted mg) rs (i0, ps0)) = fold_left (in_step counted) (map rr_in rs) i0.
Proof.
  intros counted mg. induction rs as [|r rs IH]; intros i0 ps0; simpl; [reflexivity|].
  unfold rec_step at 2. simpl. destruct (rr_p r); apply IH.
Qed.

(* input + workers over a stream of records: pipeline passed + dropped = input passed *)
Lemma pipeline_equals_input_lemma : forall mg rs,
  Forall rr_wf rs ->
  let st := run_records true mg rs in
  pipes_total_n (snd st) = ic_pn (i_cnt (fst st)) /\ pipes_total_b (snd st) = ic_pb (i_cnt (fst st)).
Proof.
  intros mg rs Hwf st.
  assert (Hin : fst st = in_run true (map rr_in rs)) by (unfold st, run_records, in_run; apply run_records_in).
  destruct (in_passed_is_delivered_lemma (map rr_in rs)) as (Hpn & Hpb & _ & _).
  rewrite Hin, Hpn, Hpb. clear Hin Hpn Hpb.
  (* the workers have received exactly the delivered records *)
  assert (Hinv : pipes_sum p_entered (snd st) = count_ev ev_delivered (map rr_in rs) /\
                 pipes_sum p_entered_b (snd st) = sum_len ev_delivered (map rr_in rs) /\
                 Forall (fun pv => p_bal (snd pv)) (snd st)).
  { subst st. induction rs as [|r rs IH] using rev_ind; [repeat split; constructor|].
    apply Forall_app in Hwf. destruct Hwf as [Hw Hr]. inversion Hr as [|? ? Hr' _]; subst.
    destruct (IH Hw) as (A & B & C). unfold run_records in *.
    rewrite fold_left_app, map_app, count_ev_app, sum_len_app. cbn [fold_left map count_ev sum_len].
    unfold rec_step, rr_wf in *.
    destruct (rr_in r) as [len|len ovf fired [|]], (rr_p r) as [[ks len' fired' drop'|]|]; try contradiction;
      cbn [fst snd ev_delivered ev_len]; [| |subst len'; rewrite (pipes_sum_upd mg p_entered 1), (pipes_sum_upd mg p_entered_b len) by reflexivity];
      (repeat split; [lia..|]); try assumption. apply pipes_bal_upd. exact C. }
  destruct Hinv as (Hn & Hb & Hbal).
  unfold pipes_total_n, pipes_total_b. rewrite <- Hn, <- Hb.
  clear -Hbal. induction (snd st) as [|[k v] m IH]; simpl; [split; reflexivity|].
  inversion Hbal as [|? ? [H1 H2] Hr]; subst. simpl in H1, H2. destruct (IH Hr) as [I1 I2]. split; lia.
Qed.

Lemma zlen_app : forall (A : Type) (a b : list A), zlen (a ++ b) = zlen a + zlen b.
Proof. intros. unfold zlen. rewrite app_length. lia. Qed.
Lemma zlen_cons : forall (A : Type) (x : A) l, zlen (x :: l) = 1 + zlen l.
Proof. intros. unfold zlen. simpl length. lia. Qed.
Lemma zlen_nil : forall (A : Type), zlen (@nil A) = 0.
Proof. reflexivity. Qed.
Lemma zlen_nonneg : forall (A : Type) (l : list A), 0 <= zlen l.
Proof. intros. unfold zlen. lia. Qed.

Fixpoint nsaved (l : list chunk) : Z :=
  match l with [] => 0 | c :: r => bool_Z (ch_saved c) + nsaved r end.
Definition nsaved_opt (o : option chunk) : Z := match o with Some c => bool_Z (ch_saved c) | None => 0 end.

Lemma nsaved_app : forall a b, nsaved (a ++ b) = nsaved a + nsaved b.
Proof. induction a; intros; simpl; [reflexivity|]. rewrite IHa. lia. Qed.

Lemma take_id_spec : forall id l c r, take_id id l = Some (c, r) ->
  zlen l = zlen r + 1 /\ nsaved l = nsaved r + bool_Z (ch_saved c) /\ ch_id c = id.
Proof.
  induction l as [|x l IH]; intros c r H; simpl in H; [discriminate|].
  destruct (ch_id x =? id) eqn:E.
  - inversion H; subst. rewrite zlen_cons. cbn [nsaved]. repeat split; lia.
  - destruct (take_id id l) as [[y r']|] eqn:T; [|discriminate]. inversion H; subst.
    destruct (IH _ _ eq_refl) as (A & B & C). rewrite !zlen_cons. cbn [nsaved]. repeat split; lia.
Qed.

Definition all_saved (l : list chunk) : Prop := Forall (fun c => ch_saved c = true) l.

Lemma all_saved_snoc : forall l c, all_saved l -> ch_saved c = true -> all_saved (l ++ [c]).
Proof. intros l c H Hc. apply Forall_app. split; [exact H|]. constructor; [exact Hc|constructor]. Qed.

(* the chunk counters and the persistent_chunks gauge of m' are those of m plus the given amounts *)
Definition m_delta (m m' : bmetrics) (pending input consumed leftover dropped pchunks : Z) : Prop :=
  m_pending m' = m_pending m + pending /\ m_in_t m' + m_in_p m' = m_in_t m + m_in_p m + input /\
  m_consumed m' = m_consumed m + consumed /\ m_leftover m' = m_leftover m + leftover /\
  m_dropped m' = m_dropped m + dropped /\ m_pchunks m' = m_pchunks m + pchunks.

Lemma op_unload_spec : forall cfg m c wr,
  match op_unload cfg m c wr with
  | (Some (c', m', df), _) =>
    m_delta m m' 0 0 0 0 0 df /\ ch_saved c' = true /\ bool_Z (ch_saved c) + df = 1 /\ (df = 1 -> bc_dir cfg = true)
  | (None, m') => m_delta m m' 0 0 0 0 0 0 /\ ch_saved c = false
  end.
Proof.
  intros cfg m c wr. unfold op_unload, m_delta.
  destruct (ch_saved c) eqn:Hs, (ch_loaded c), (bc_dir cfg), (bc_quota cfg <? m_pbytes m + ch_size c), wr;
    cbn; repeat split; try assumption; lia.
Qed.

Lemma op_remove_spec : forall cfg m c ul,
  let '(m', rm, orph) := op_remove cfg m c ul in
  m_delta m m' 0 0 0 0 0 (- rm) /\ rm + orph = bool_Z (ch_saved c) /\ 0 <= rm /\ 0 <= orph /\
  (ul = true -> bc_dir cfg = true -> orph = 0).
Proof.
  intros cfg m c ul. unfold op_remove, m_delta.
  destruct (ch_saved c), (bc_dir cfg), ul; cbn; repeat split; intros; try discriminate; lia.
Qed.

Definition pipe_n (q : list chunk) (h : option chunk) (w : list chunk) : Z := zlen q + len_opt h + zlen w.
Definition pipe_saved (q : list chunk) (h : option chunk) (w : list chunk) : Z := nsaved q + nsaved_opt h + nsaved w.

(* One step of the buffer, by what becomes of the chunk concerned; the metrics of the new state are known only through
   m_delta.  The constructors with an arbitrary event (BT_pipe: chunks move inside queue / feeder / window or the phase
   changes; BT_drop, BT_park: a chunk of the pipeline is resolved) are those of the buffer-internal events, which leave
   b_held and the consumed / leftover counters alone. *)
Inductive b_trans (cfg : bcfg) (s : bstate) : b_event -> bstate -> Prop :=
| BT_recover id size m' :
    bc_dir cfg = true -> m_delta (b_m s) m' 1 1 0 0 0 1 ->
    b_trans cfg s (BRecover id size)
      (BS m' (b_queue s ++ [CH id size true false]) (b_hand s) (b_window s) (b_held s) (b_parked s) (b_left s) (b_lost s)
          (b_nfiles s) (b_orphans s) (b_phase s) (b_accepted s) (b_recovered s + 1))
| BT_accept id size spill wr c df m' :
    m_delta (b_m s) m' 1 1 0 0 0 df -> bool_Z (ch_saved c) = df -> (df = 1 -> bc_dir cfg = true) ->
    b_trans cfg s (BAccept id size spill wr)
      (BS m' (b_queue s ++ [c]) (b_hand s) (b_window s) (b_held s) (b_parked s) (b_left s) (b_lost s)
          (b_nfiles s + df) (b_orphans s) (b_phase s) (b_accepted s + 1) (b_recovered s))
| BT_accept_drop id size spill wr m' nf orph :
    m_delta (b_m s) m' 0 1 0 0 1 0 -> nf - orph = b_nfiles s - b_orphans s ->
    b_trans cfg s (BAccept id size spill wr)
      (BS m' (b_queue s) (b_hand s) (b_window s) (b_held s) (b_parked s) (b_left s) (b_lost s)
          nf orph (b_phase s) (b_accepted s + 1) (b_recovered s))
| BT_pipe e q h w ph :
    b_internal e = true -> ph <> BDone ->
    pipe_n q h w = pipe_n (b_queue s) (b_hand s) (b_window s) ->
    pipe_saved q h w = pipe_saved (b_queue s) (b_hand s) (b_window s) ->
    b_trans cfg s e
      (BS (b_m s) q h w (b_held s) (b_parked s) (b_left s) (b_lost s)
          (b_nfiles s) (b_orphans s) ph (b_accepted s) (b_recovered s))
| BT_drop e c q h w m' :
    b_internal e = true ->
    pipe_n q h w + 1 = pipe_n (b_queue s) (b_hand s) (b_window s) ->
    pipe_saved q h w + bool_Z (ch_saved c) = pipe_saved (b_queue s) (b_hand s) (b_window s) ->
    m_delta (b_m s) m' (-1) 0 0 0 1 (- bool_Z (ch_saved c)) ->
    b_trans cfg s e
      (BS m' q h w (b_held s) (b_parked s) (b_left s) (b_lost s)
          (b_nfiles s) (b_orphans s + bool_Z (ch_saved c)) (b_phase s) (b_accepted s) (b_recovered s))
| BT_corrupted rd ul c m' rm orph :
    pipe_saved (b_queue s) None (b_window s) + bool_Z (ch_saved c) = pipe_saved (b_queue s) (b_hand s) (b_window s) ->
    pipe_n (b_queue s) None (b_window s) + 1 = pipe_n (b_queue s) (b_hand s) (b_window s) ->
    m_delta (b_m s) m' (-1) 0 0 0 1 (- rm) -> rm + orph = bool_Z (ch_saved c) -> 0 <= rm -> 0 <= orph ->
    (ul = true -> bc_dir cfg = true -> orph = 0) ->
    b_trans cfg s (BFeedLoad rd ul)
      (BS m' (b_queue s) None (b_window s) (b_held s) (b_parked s) (b_left s) (b_lost s)
          (b_nfiles s - rm) (b_orphans s + orph) (b_phase s) (b_accepted s) (b_recovered s))
| BT_park e c c' q h w m' df :
    b_internal e = true ->
    pipe_n q h w + 1 = pipe_n (b_queue s) (b_hand s) (b_window s) ->
    pipe_saved q h w + bool_Z (ch_saved c) = pipe_saved (b_queue s) (b_hand s) (b_window s) ->
    m_delta (b_m s) m' 0 0 0 0 0 df -> ch_saved c' = true -> bool_Z (ch_saved c) + df = 1 ->
    b_trans cfg s e
      (BS m' q h w (b_held s) (b_parked s ++ [c']) (b_left s) (b_lost s)
          (b_nfiles s + df) (b_orphans s) (b_phase s) (b_accepted s) (b_recovered s))
| BT_take c w :
    b_window s = c :: w ->
    b_trans cfg s BTake
      (BS (b_m s) (b_queue s) (b_hand s) w (b_held s ++ [c]) (b_parked s) (b_left s) (b_lost s)
          (b_nfiles s) (b_orphans s) (b_phase s) (b_accepted s) (b_recovered s))
| BT_consumed id ul c held m' rm orph :
    take_id id (b_held s) = Some (c, held) ->
    m_delta (b_m s) m' (-1) 0 1 0 0 (- rm) -> rm + orph = bool_Z (ch_saved c) -> 0 <= rm -> 0 <= orph ->
    (ul = true -> bc_dir cfg = true -> orph = 0) ->
    b_trans cfg s (BConsumed id ul)
      (BS m' (b_queue s) (b_hand s) (b_window s) held (b_parked s) (b_left s) (b_lost s)
          (b_nfiles s - rm) (b_orphans s + orph) (b_phase s) (b_accepted s) (b_recovered s))
| BT_left id wr c c' held m' df :
    take_id id (b_held s) = Some (c, held) ->
    m_delta (b_m s) m' (-1) 0 0 1 0 df -> ch_saved c' = true -> bool_Z (ch_saved c) + df = 1 ->
    b_trans cfg s (BLeftover id wr)
      (BS m' (b_queue s) (b_hand s) (b_window s) held (b_parked s) (b_left s ++ [c']) (b_lost s)
          (b_nfiles s + df) (b_orphans s) (b_phase s) (b_accepted s) (b_recovered s))
| BT_left_drop id wr c held m' :
    take_id id (b_held s) = Some (c, held) -> bc_fix5 cfg = true -> ch_saved c = false ->
    m_delta (b_m s) m' (-1) 0 0 0 1 0 ->
    b_trans cfg s (BLeftover id wr)
      (BS m' (b_queue s) (b_hand s) (b_window s) held (b_parked s) (b_left s) (b_lost s)
          (b_nfiles s) (b_orphans s + bool_Z (ch_saved c)) (b_phase s) (b_accepted s) (b_recovered s))
| BT_left_lost id wr c held m' :
    take_id id (b_held s) = Some (c, held) -> bc_fix5 cfg = false -> ch_saved c = false ->
    m_delta (b_m s) m' (-1) 0 0 1 0 0 ->
    b_trans cfg s (BLeftover id wr)
      (BS m' (b_queue s) (b_hand s) (b_window s) held (b_parked s) (b_left s) (b_lost s ++ [c])
          (b_nfiles s) (b_orphans s) (b_phase s) (b_accepted s) (b_recovered s))
| BT_finish :
    b_queue s = [] -> b_hand s = None -> b_window s = [] -> b_held s = [] ->
    b_trans cfg s BFinish
      (BS (b_m s) (b_queue s) (b_hand s) (b_window s) (b_held s) (b_parked s) (b_left s) (b_lost s)
          (b_nfiles s) (b_orphans s) BDone (b_accepted s) (b_recovered s)).

(* [enabled H G]: H is [(if b then _ else None) = Some _]; keeps the case b = true as G *)
Ltac enabled H G := match type of H with (if ?b then _ else _) = Some _ => destruct b eqn:G; [|discriminate H] end.

Lemma bool_Z_range : forall b, 0 <= bool_Z b <= 1.
Proof. intros [|]; cbn; lia. Qed.

(* arithmetic about pipeline counts and metric deltas, after rewriting with the known saved flags *)
Ltac pipe_arith :=
  unfold pipe_n, pipe_saved, m_delta, m_input, m_resolve in *; cbn [negb] in *;
  cbn [b_m b_queue b_hand b_window b_nfiles b_orphans m_pending m_in_t m_in_p m_consumed m_leftover m_dropped m_pchunks] in *;
  rewrite ?zlen_app, ?zlen_cons, ?zlen_nil, ?nsaved_app in *; cbn [nsaved nsaved_opt len_opt ch_saved] in *;
  repeat match goal with H : ch_saved _ = _ |- _ => rewrite H in *; clear H end;
  cbn [bool_Z] in *; lia.

Lemma man_dropped_delta : forall m c, m_delta m (man_dropped m c) (-1) 0 0 0 1 (- bool_Z (ch_saved c)).
Proof. intros m c. unfold m_delta, man_dropped. destruct (ch_saved c); cbn; lia. Qed.

(* saveEverything on one chunk of the pipeline: parked or dropped *)
Lemma save_chunk_trans : forall cfg s e c wr q h w,
  b_internal e = true ->
  pipe_n q h w + 1 = pipe_n (b_queue s) (b_hand s) (b_window s) ->
  pipe_saved q h w + bool_Z (ch_saved c) = pipe_saved (b_queue s) (b_hand s) (b_window s) ->
  b_trans cfg s e (save_chunk cfg s c wr q h w).
Proof.
  intros cfg s e c wr q h w He Hn Hsv. unfold save_chunk.
  pose proof (op_unload_spec cfg (b_m s) c wr) as U.
  destruct (op_unload cfg (b_m s) c wr) as [[[[c' m'] df]|] m''].
  - destruct U as (U1 & U2 & U3 & _). eapply BT_park; eassumption.
  - destruct U as [U1 _]. pose proof (man_dropped_delta m'' c). apply BT_drop; [assumption..|pipe_arith].
Qed.

Ltac bt_side := first [reflexivity | discriminate | eassumption | pipe_arith].

Lemma b_step_trans : forall cfg s e s', b_step cfg s e = Some s' -> b_trans cfg s e s'.
Proof.
  intros cfg s e s' Hs. unfold b_step in Hs.
  destruct s as [m q h w held parked left lost nf orph ph acc rcv].
  cbn [b_m b_queue b_hand b_window b_held b_parked b_left b_lost b_nfiles b_orphans b_phase b_accepted b_recovered] in Hs.
  (* the events that move chunks along the pipeline or park them *)
  destruct e;
    try (repeat match type of Hs with context [match ?x with _ => _ end] => destruct x eqn:?; try discriminate Hs end;
         injection Hs as <-;
         first [apply BT_take | apply BT_finish | apply save_chunk_trans | apply BT_pipe];
         first [reflexivity | discriminate | intros ->; discriminate | pipe_arith]; fail).
  - (* BRecover *)
    enabled Hs G. injection Hs as <-. apply BT_recover; [|pipe_arith].
    destruct (bc_dir cfg); [reflexivity|]. rewrite !andb_false_r in G. discriminate.
  - (* BAccept *)
    enabled Hs G. set (m1 := m_input m (negb spill)) in Hs.
    assert (H1 : m_delta m m1 1 1 0 0 0 0) by (unfold m1; destruct spill; pipe_arith).
    pose proof (op_unload_spec cfg m1 (CH id size false true) wr) as U. pose proof (man_dropped_delta m1 (CH id size false true)).
    destruct spill; [destruct (op_unload cfg m1 (CH id size false true) wr) as [[[[c' m'] df]|] m'']|];
      [destruct U as (U1 & U2 & U3 & U4); pose proof (man_dropped_delta m' c')|destruct U as [U1 _]; pose proof (man_dropped_delta m'' (CH id size false true))|];
      try destruct (Nat.ltb _ _) in Hs; injection Hs as <-;
      first [eapply BT_accept; bt_side|apply BT_accept_drop; bt_side].
  - (* BFeedLoad *)
    destruct h as [c|]; [|discriminate].
    assert (Hph : feeding ph = true) by (destruct (feeding ph); [reflexivity|rewrite ?andb_false_l in Hs; discriminate]).
    assert (ph <> BDone) by (intros ->; discriminate).
    rewrite Hph in Hs. cbn [andb] in Hs.
    pose proof (op_remove_spec cfg m c ul) as R. pose proof (op_remove_spec cfg m (CH (ch_id c) (ch_size c) true true) ul) as R'.
    destruct (ch_loaded c) eqn:Hl; [|destruct (ch_saved c && bc_dir cfg && rd) eqn:G].
    + destruct (ch_size c =? 0); [destruct (op_remove cfg m c ul) as [[m1 rm] o], R as (R1 & R2 & R3 & R4 & R5)|];
        injection Hs as <-; first [apply BT_corrupted with (c := c) (rm := rm) (orph := o); bt_side|apply BT_pipe; bt_side].
    + apply andb_true_iff in G. destruct G as [G _]. apply andb_true_iff in G. destruct G as [Hsv _].
      destruct (ch_size c =? 0); [destruct (op_remove cfg m _ ul) as [[m1 rm] o], R' as (R1 & R2 & R3 & R4 & R5)|];
        injection Hs as <-; first [apply BT_corrupted with (c := c) (rm := rm) (orph := o); bt_side|apply BT_pipe; bt_side].
    + injection Hs as <-. apply BT_drop; [reflexivity|pipe_arith..|].
      match goal with |- m_delta _ (man_dropped ?x _) _ _ _ _ _ _ => pose proof (man_dropped_delta x c) end.
      destruct (ch_saved c && bc_dir cfg); pipe_arith.
  - (* BConsumed *)
    destruct (take_id id held) as [[c held']|] eqn:Ht; [|destruct ph; discriminate].
    pose proof (op_remove_spec cfg m c ul) as R. destruct (op_remove cfg m c ul) as [[m1 rm] o], R as (R1 & R2 & R3 & R4 & R5).
    destruct ph; try discriminate; injection Hs as <-; (apply BT_consumed with (c := c); bt_side).
  - (* BLeftover *)
    destruct (take_id id held) as [[c held']|] eqn:Ht; [|destruct ph; discriminate].
    pose proof (op_unload_spec cfg m c wr) as U.
    destruct (op_unload cfg m c wr) as [[[[c' m'] df]|] m''];
      [destruct U as (U1 & U2 & U3 & _)|destruct U as [U1 U2]; pose proof (man_dropped_delta m'' c); destruct (bc_fix5 cfg) eqn:Hfix];
      (destruct ph; try discriminate; injection Hs as <-);
      first [apply BT_left with (c := c); bt_side|apply BT_left_drop; bt_side|apply BT_left_lost; bt_side].
Qed.

Lemma b_step_live : forall cfg s e s', b_step cfg s e = Some s' -> b_phase s <> BDone.
Proof.
  intros cfg s e s' Hs Hd. destruct s as [m q h w held parked left lost nf orph ph acc rcv]. cbn in Hd. subst ph.
  destruct e; cbn in Hs; try discriminate Hs; destruct h; discriminate Hs.
Qed.

Record b_inv (cfg : bcfg) (n0 : Z) (s : bstate) : Prop := {
  bi_pending : m_pending (b_m s) = b_holdings s;
  bi_balance : m_in_t (b_m s) + m_in_p (b_m s) = m_consumed (b_m s) + m_leftover (b_m s) + m_dropped (b_m s) + m_pending (b_m s);
  bi_input : m_in_t (b_m s) + m_in_p (b_m s) = b_accepted s + b_recovered s;
  bi_parked : all_saved (b_parked s);
  bi_left : all_saved (b_left s);
  bi_leftover : m_leftover (b_m s) = zlen (b_left s) + zlen (b_lost s);
  bi_fix5 : bc_fix5 cfg = true -> b_lost s = [];
  bi_files : b_nfiles s = (n0 - b_recovered s) + nsaved (b_queue s) + nsaved_opt (b_hand s) + nsaved (b_window s)
                          + nsaved (b_held s) + nsaved (b_parked s) + zlen (b_left s) + b_orphans s;
  bi_done : b_phase s = BDone -> b_queue s = [] /\ b_hand s = None /\ b_window s = [] /\ b_held s = []
}.

Lemma b_init_inv : forall cfg n0, b_inv cfg n0 (b_init n0).
Proof. intros cfg n0. constructor; simpl; intros; try reflexivity; try (constructor; fail); rewrite ?zlen_nil; try lia; try discriminate. Qed.

Lemma b_step_inv : forall cfg n0 s e s', b_inv cfg n0 s -> b_step cfg s e = Some s' -> b_inv cfg n0 s'.
Proof.
  intros cfg n0 s e s' [I1 I2 I3 I4 I5 I6 I7 I8 I9] Hs.
  pose proof (b_step_live _ _ _ _ Hs) as Hlive.
  apply b_step_trans in Hs. unfold b_holdings in I1.
  destruct Hs;
    try match goal with H : take_id _ _ = Some _ |- _ => apply take_id_spec in H; destruct H as (? & ? & _) end;
    try match goal with H : b_window _ = _ |- _ => rewrite H in * end;
    constructor; unfold b_holdings;
    cbn [b_m b_queue b_hand b_window b_held b_parked b_left b_lost b_nfiles b_orphans b_phase b_accepted b_recovered];
    try assumption; try (intros; congruence); try (apply all_saved_snoc; assumption); try (intros _; auto; fail);
    try pipe_arith.
Qed.

Lemma b_run_inv : forall cfg n0 evs s s', b_inv cfg n0 s -> b_run cfg s evs = Some s' -> b_inv cfg n0 s'.
Proof. intros cfg n0. apply (run_inv _ _ (b_step cfg)); [reflexivity..|apply b_step_inv]. Qed.

(* accepted = delivered + left on disk + dropped + still pending, in every reachable state *)
Lemma buffer_balance_lemma : forall cfg n0 evs s,
  b_run cfg (b_init n0) evs = Some s ->
  m_in_t (b_m s) + m_in_p (b_m s) = m_consumed (b_m s) + m_leftover (b_m s) + m_dropped (b_m s) + m_pending (b_m s) /\
  m_in_t (b_m s) + m_in_p (b_m s) = b_accepted s + b_recovered s /\
  m_pending (b_m s) = b_holdings s.
Proof.
  intros cfg n0 evs s Hr. destruct (b_run_inv cfg n0 evs _ _ (b_init_inv cfg n0) Hr) as [I1 I2 I3 _ _ _ _ _ _]. auto.
Qed.

Lemma nsaved_all : forall l, all_saved l -> nsaved l = zlen l.
Proof.
  induction l as [|c l IH]; intros H; [reflexivity|]. inversion H; subst.
  rewrite zlen_cons. cbn [nsaved]. rewrite H2, IH by assumption. simpl. lia.
Qed.

(* after Destroy has completed: nothing is in the queues or with the consumer; what is still counted in
   pending_chunks are exactly the chunks saved by the feeder at shutdown, each of them a file *)
Lemma buffer_done_lemma : forall cfg n0 evs s,
  b_run cfg (b_init n0) evs = Some s -> b_phase s = BDone ->
  m_pending (b_m s) = zlen (b_parked s) /\ all_saved (b_parked s) /\
  b_accepted s + b_recovered s = m_consumed (b_m s) + m_leftover (b_m s) + m_dropped (b_m s) + zlen (b_parked s) /\
  b_nfiles s = (n0 - b_recovered s) + zlen (b_parked s) + zlen (b_left s) + b_orphans s.
Proof.
  intros cfg n0 evs s Hr Hd.
  destruct (b_run_inv cfg n0 evs _ _ (b_init_inv cfg n0) Hr) as [I1 I2 I3 I4 I5 I6 I7 I8 I9].
  destruct (I9 Hd) as (Hq & Hh & Hw & Hheld). unfold b_holdings in I1. rewrite Hq, Hh, Hw, Hheld in *.
  cbn [nsaved nsaved_opt len_opt] in *. rewrite zlen_nil in *. rewrite (nsaved_all _ I4) in I8.
  repeat split; try assumption; lia.
Qed.

(* used by C18 (nothing only in memory): when the feeder has finished nothing is left in the queues or with the
   consumer, and what is still pending has been saved *)
Lemma buffer_done_locations_lemma : forall cfg n0 evs s,
  b_run cfg (b_init n0) evs = Some s -> b_phase s = BDone ->
  b_queue s = [] /\ b_hand s = None /\ b_window s = [] /\ b_held s = [] /\
  all_saved (b_parked s) /\ m_pending (b_m s) = zlen (b_parked s).
Proof.
  intros cfg n0 evs s Hr Hd.
  destruct (b_run_inv cfg n0 evs _ _ (b_init_inv cfg n0) Hr) as [I1 _ _ I4 _ _ _ _ I9].
  destruct (I9 Hd) as (Hq & Hh & Hw & Hheld). unfold b_holdings in I1. rewrite Hq, Hh, Hw, Hheld in I1.
  cbn [len_opt] in I1. rewrite zlen_nil in I1. repeat split; try assumption; lia.
Qed.

(* "pending = 0 after Destroy" does NOT hold: a chunk saved by the feeder at shutdown stays counted *)
Definition bcfg_std (fix5 : bool) : bcfg := BC true 1000000 8 4 fix5.

Lemma pending_zero_after_destroy_refuted_lemma :
  exists evs s, b_run (bcfg_std false) (b_init 0) evs = Some s /\ b_phase s = BDone /\ m_pending (b_m s) <> 0.
Proof.
  exists [BAccept 1 10 false true; BDestroy; BFeedTake; BFeedAbort; BSaveLast true; BFinish].
  eexists. split; [vm_compute; reflexivity|]. split; [reflexivity|]. vm_compute. discriminate.
Qed.

(* original OnChunkLeftover: a hand-back that cannot be stored is counted as leftover although the chunk is
   nowhere (finding of C03, repaired there) *)
Lemma leftover_lost_refuted_lemma :
  exists cfg evs s, bc_fix5 cfg = false /\ b_run cfg (b_init 0) evs = Some s /\
    m_leftover (b_m s) = 1 /\ b_left s = [] /\ b_nfiles s = 0 /\ b_holdings s = 0.
Proof.
  exists (BC false 1000000 8 4 false), [BAccept 1 10 false true; BFeedTake; BFeedPush; BTake; BLeftover 1 true].
  eexists. split; [reflexivity|]. split; [vm_compute; reflexivity|]. vm_compute. repeat split; reflexivity.
Qed.

(* with the repair every chunk counted as leftover is on disk *)
Lemma leftover_on_disk_lemma : forall cfg n0 evs s,
  bc_fix5 cfg = true -> b_run cfg (b_init n0) evs = Some s ->
  m_leftover (b_m s) = zlen (b_left s) /\ all_saved (b_left s).
Proof.
  intros cfg n0 evs s Hf Hr.
  destruct (b_run_inv cfg n0 evs _ _ (b_init_inv cfg n0) Hr) as [_ _ _ _ I5 I6 I7 _ _].
  rewrite (I7 Hf), zlen_nil in I6. split; [lia|exact I5].
Qed.

Definition unlink_ok (e : b_event) : bool :=
  match e with
  | BFeedLoad _ ul => ul
  | BConsumed _ ul => ul
  | _ => true
  end.

Lemma nsaved_nonneg : forall l, 0 <= nsaved l.
Proof. induction l as [|c l IH]; cbn [nsaved]; [lia|]. unfold bool_Z. destruct (ch_saved c); lia. Qed.

Lemma pipe_saved_nonneg : forall q h w, 0 <= pipe_saved q h w.
Proof.
  intros q h w. unfold pipe_saved. pose proof (nsaved_nonneg q). pose proof (nsaved_nonneg w).
  destruct h as [c|]; [pose proof (nsaved_nonneg [c])|]; cbn [nsaved nsaved_opt] in *; lia.
Qed.

(* while no unlink fails: the gauge follows the files; without a directory nothing in the pipeline is saved *)
Definition pg_inv (cfg : bcfg) (n0 : Z) (s : bstate) : Prop :=
  m_pchunks (b_m s) = b_nfiles s - (n0 - b_recovered s) - b_orphans s /\
  (bc_dir cfg = false -> pipe_saved (b_queue s) (b_hand s) (b_window s) + nsaved (b_held s) = 0).

Lemma pg_step : forall cfg n0 s e s',
  pg_inv cfg n0 s -> unlink_ok e = true -> b_step cfg s e = Some s' -> pg_inv cfg n0 s'.
Proof.
  intros cfg n0 s e s' [P1 P2] Hu Hs. apply b_step_trans in Hs.
  pose proof (pipe_saved_nonneg (b_queue s) (b_hand s) (b_window s)). pose proof (nsaved_nonneg (b_held s)).
  pose proof (pipe_saved_nonneg (b_queue s) None (b_window s)).
  destruct (bc_dir cfg) eqn:Hdir; [clear P2|specialize (P2 eq_refl)].
  all: destruct Hs;
    try match goal with H : take_id _ _ = Some (_, ?l) |- _ =>
          pose proof (nsaved_nonneg l); apply take_id_spec in H; destruct H as (_ & ? & _) end;
    try match goal with H : b_window _ = _ |- _ => rewrite H in * end;
    try match goal with _ : context [bool_Z (ch_saved ?x)] |- _ => pose proof (bool_Z_range (ch_saved x)) end;
    cbn [unlink_ok] in Hu;
    (split; cbn [b_m b_queue b_hand b_window b_held b_nfiles b_orphans b_recovered]; [|intros Hd; try discriminate Hd]);
    try assumption; try congruence;
    try match goal with |- pipe_saved ?q ?h ?w + nsaved ?l = 0 => pose proof (pipe_saved_nonneg q h w); pose proof (nsaved_nonneg l) end;
    try pipe_arith.
Qed.

Lemma pg_run : forall cfg n0 evs s s',
  pg_inv cfg n0 s -> forallb unlink_ok evs = true -> b_run cfg s evs = Some s' -> pg_inv cfg n0 s'.
Proof.
  intros cfg n0. induction evs as [|e evs IH]; intros s s' Hi Hu Hr; simpl in Hr, Hu.
  - inversion Hr; subst; exact Hi.
  - apply andb_true_iff in Hu. destruct Hu as [Hu1 Hu2].
    destruct (b_step cfg s e) eqn:Hs; [|discriminate]. eapply IH; [|exact Hu2|exact Hr]. eapply pg_step; eauto.
Qed.

(* persistent_chunks = the saved chunks the buffer still knows (queued, with the feeder, in the window, with the
   consumer, saved at shutdown, handed back), as long as no unlink failed; with the file count of the buffer
   invariant: persistent_chunks = files - (files never recovered) - (files of dropped chunks) *)
Lemma persistent_gauge_lemma : forall cfg n0 evs s,
  forallb unlink_ok evs = true -> b_run cfg (b_init n0) evs = Some s ->
  m_pchunks (b_m s) = b_nfiles s - (n0 - b_recovered s) - b_orphans s.
Proof.
  intros cfg n0 evs s Hu Hr.
  refine (proj1 (pg_run cfg n0 evs _ s _ Hu Hr)). split; [cbn; lia|reflexivity].
Qed.

Definition sending_Z (p : cphase) : Z := match p with CSending _ => 1 | _ => 0 end.
Definition sent_Z (p : cphase) : Z := match p with CSent _ => 1 | _ => 0 end.
Definition idle_stage (p : cphase) : bool := match p with CRecovery | CNormal => true | _ => false end.

Lemma sending_Z_nonneg : forall p, 0 <= sending_Z p.
Proof. intros []; cbn; lia. Qed.
Lemma sent_Z_nonneg : forall p, 0 <= sent_Z p.
Proof. intros []; cbn; lia. Qed.

(* the counters of m' that the balance equations speak of are those of m plus the given amounts *)
Definition k_delta (m m' : cmetrics) (attempts forwarded acked gleft gpack : Z) : Prop :=
  k_attempts m' = k_attempts m + attempts /\ k_fwd_n m' = k_fwd_n m + forwarded /\ k_ack_n m' = k_ack_n m + acked /\
  k_gleft m' = k_gleft m + gleft /\ k_gpack m' = k_gpack m + gpack.

(* the steps that only move the control state *)
Definition ctl (e : c_event) (p : cphase) : option cphase :=
  match e, p with
  | COpen, CIdle => Some COpening
  | COpenFail, COpening => Some CRetryWait
  | COpenStop, COpening => Some CFinal
  | CRetryElapsed, CRetryWait => Some CIdle
  | CRetryStop, CRetryWait => Some CFinal
  | CRecoveryDone, CRecovery => Some CNormal
  | CRecoveryStop, CRecovery => Some (CCollect 0)
  | CInputClosed, CNormal => Some (CCollect 0)
  | CReconnect, CNormal => Some (CCollect 2)
  | CPingFail, CNormal => Some (CCollect 1)
  | CQueueStop, CSent _ => Some (CCollect 0)
  | CQueueAckerEnded, CSent _ => Some (CCollect 1)
  | CFinish, CFinal => Some CStopped
  | _, _ => None
  end.

(* the fields of the client state that the model has no setter for *)
Definition set_chan (s : cstate) (left : list chunk) (last : option chunk) (achan : list chunk) : cstate :=
  CS (c_m s) (c_phase s) (c_acker s) left last achan (c_pmap s) (c_unacked s) (c_stop s)
     (c_taken s) (c_completed s) (c_failed s) (c_unacked_total s) (c_cb_consumed s) (c_cb_left s) (c_dups s) (c_bug s).
Definition set_hist (s : cstate) (taken completed failed consumed handed_back : Z) : cstate :=
  CS (c_m s) (c_phase s) (c_acker s) (c_left s) (c_last s) (c_achan s) (c_pmap s) (c_unacked s) (c_stop s)
     taken completed failed (c_unacked_total s) consumed handed_back (c_dups s) (c_bug s).

(* One step of the client; the metrics of the new state are known only through k_delta.  c_step_inv and variant_decreases
   (ShutdownClientProofs.v) split on the flag of CSending / CSent and on the reason of CCollect under the names r, n that
   the constructors give them. *)
Inductive c_trans (cfg : ccfg) (s : cstate) : c_event -> cstate -> Prop :=
| CT_stop :
    c_trans cfg s CStop
      (CS (c_m s) (c_phase s) (c_acker s) (c_left s) (c_last s) (c_achan s) (c_pmap s) (c_unacked s) true
          (c_taken s) (c_completed s) (c_failed s) (c_unacked_total s) (c_cb_consumed s) (c_cb_left s) (c_dups s) (c_bug s))
| CT_ctl e p' m' :
    ctl e (c_phase s) = Some p' -> (p' = CStopped -> c_left s = []) -> k_delta (c_m s) m' 0 0 0 0 0 ->
    c_trans cfg s e (set_phase (set_cm s m') p')
| CT_open_ok m' :
    c_phase s = COpening -> k_delta (c_m s) m' 0 0 0 0 0 ->
    c_trans cfg s COpenOk (set_chan (set_acker (set_phase (set_cm s m') CRecovery) ARun [] []) (c_left s) None [])
| CT_pop c l m' :
    c_phase s = CRecovery -> c_left s = c :: l -> k_delta (c_m s) m' 1 0 0 (-1) 0 ->
    c_trans cfg s CPopLeft (set_chan (set_phase (set_cm s m') (CSending true)) l (Some c) (c_achan s))
| CT_take c m' :
    c_phase s = CNormal -> k_delta (c_m s) m' 1 0 0 0 0 ->
    c_trans cfg s (CTake c)
      (set_hist (set_chan (set_phase (set_cm s m') (CSending false)) (c_left s) (Some c) (c_achan s))
         (c_taken s + 1) (c_completed s) (c_failed s) (c_cb_consumed s) (c_cb_left s))
| CT_send_fail r m' :
    c_phase s = CSending r -> k_delta (c_m s) m' 0 0 0 0 0 ->
    c_trans cfg s CSendFail
      (set_hist (set_phase (set_cm s m') (CCollect 1)) (c_taken s) (c_completed s) (c_failed s + 1) (c_cb_consumed s) (c_cb_left s))
| CT_send_ok r :
    c_phase s = CSending r ->
    c_trans cfg s CSendOk
      (set_hist (set_phase s (CSent r)) (c_taken s) (c_completed s + 1) (c_failed s) (c_cb_consumed s) (c_cb_left s))
| CT_queue r c m' :
    c_phase s = CSent r -> c_last s = Some c -> k_delta (c_m s) m' 0 1 0 0 1 ->
    c_trans cfg s CQueue
      (set_chan (set_phase (set_cm s m') (if r then CRecovery else CNormal)) (c_left s) None (c_achan s ++ [c]))
| CT_acker_take c l :
    c_acker s = ARun -> c_achan s = c :: l -> in_session (c_phase s) = true ->
    c_trans cfg s AckerTake
      (set_chan (set_acker s (AWait c) (c_pmap s ++ [c]) (c_unacked s)) (c_left s) (c_last s) l)
| CT_ack oid cur c pm m' :
    c_acker s = AWait cur -> in_session (c_phase s) = true ->
    take_id (match oid with Some i => i | None => ch_id cur end) (c_pmap s) = Some (c, pm) ->
    k_delta (c_m s) m' 0 0 1 0 (-1) ->
    c_trans cfg s (AckRead oid)
      (set_hist (set_acker (set_cm s m') ARun pm (c_unacked s))
         (c_taken s) (c_completed s) (c_failed s) (c_cb_consumed s + 1) (c_cb_left s))
| CT_ack_unknown oid cur m' :
    c_acker s = AWait cur -> in_session (c_phase s) = true ->
    take_id (match oid with Some i => i | None => ch_id cur end) (c_pmap s) = None ->
    k_delta (c_m s) m' 0 0 0 0 0 ->
    c_trans cfg s (AckRead oid) (set_acker (set_cm s m') ARun (c_pmap s) (c_unacked s))
| CT_acker_end e m' :
    c_internal e = true -> c_acker s <> AEnded -> in_session (c_phase s) = true -> k_delta (c_m s) m' 0 0 0 0 0 ->
    c_trans cfg s e (set_acker (set_cm s m') AEnded (c_pmap s) (c_pmap s))
| CT_collect_done n :
    c_phase s = CCollect n -> c_acker s = AEnded ->
    c_trans cfg s CCollectDone (collect s n (c_unacked s) 0)
| CT_collect_bug n :
    c_phase s = CCollect n -> c_acker s <> AEnded ->
    c_trans cfg s CCollectBug (collect s n [] 1)
| CT_final_pop c l m' :
    c_phase s = CFinal -> c_left s = c :: l -> k_delta (c_m s) m' 0 0 0 (-1) 0 ->
    c_trans cfg s CFinalPop
      (set_hist (set_chan (set_phase (set_cm s m') CFinal) l (c_last s) (c_achan s))
         (c_taken s) (c_completed s) (c_failed s) (c_cb_consumed s) (c_cb_left s + 1)).

Lemma k_delta_refl : forall m, k_delta m m 0 0 0 0 0.
Proof. intros m. unfold k_delta. lia. Qed.
Lemma k_delta_error : forall m, k_delta m (km_error m) 0 0 0 0 0.
Proof. intros m. unfold k_delta. cbn. lia. Qed.

(* destructs what the step function in H inspects (variables excepted), keeping the enabled cases *)
Ltac step_cases H :=
  repeat match type of H with
  | context [match ?x with _ => _ end] =>
    lazymatch type of x with
    | (_ * _)%type => destruct x
    | _ => tryif is_var x then fail else (destruct x eqn:?; try discriminate H)
    end
  end.

Lemma c_step_trans : forall cfg s e s', c_step cfg s e = Some s' -> c_trans cfg s e s'.
Proof.
  intros cfg s e s' Hs. unfold c_step in Hs.
  destruct e; step_cases Hs; injection Hs as <-; econstructor;
    first [eassumption | reflexivity | apply k_delta_refl | apply k_delta_error | congruence
          | unfold k_delta; cbn; lia
          | match goal with H : c_phase _ = _ |- _ => rewrite H end; reflexivity
          | intros E; (discriminate E || assumption) ].
Qed.

Lemma ctl_facts : forall e p p', ctl e p = Some p' ->
  in_session p = in_session p' /\ sending_Z p' = 0 /\ sending_Z p = 0 /\ sent_Z p' <= sent_Z p /\
  (idle_stage p' = true -> idle_stage p = true).
Proof. intros e p p' H. destruct e, p; try discriminate H; injection H as <-; cbn; repeat split; auto; lia. Qed.

(* rewrite with the equations [field s = value] that a constructor of the step relation provides *)
Ltac use_eqs := repeat match goal with H : ?f ?x = _ |- _ => is_var x; rewrite H in * end.

Record c_inv (s : cstate) : Prop := {
  ci_bug : 0 <= c_bug s;
  ci_unacked_nonneg : 0 <= c_unacked_total s;
  ci_gpack : c_bug s = 0 -> k_gpack (c_m s) = zlen (c_achan s) + zlen (c_pmap s);
  ci_gleft : k_gleft (c_m s) = zlen (c_left s) + c_dups s;
  ci_fwd : c_bug s = 0 -> k_fwd_n (c_m s) = k_ack_n (c_m s) + c_unacked_total s + zlen (c_achan s) + zlen (c_pmap s);
  ci_attempts : k_attempts (c_m s) = c_completed s + c_failed s + sending_Z (c_phase s);
  ci_completed : k_fwd_n (c_m s) + sent_Z (c_phase s) <= c_completed s;
  ci_ack : k_ack_n (c_m s) = c_cb_consumed s;
  ci_taken : c_bug s = 0 -> c_taken s = c_cb_consumed s + c_cb_left s + c_holdings s + c_dups s;
  ci_snapshot : in_session (c_phase s) = true -> c_acker s = AEnded -> c_unacked s = c_pmap s;
  ci_last : idle_stage (c_phase s) = true -> c_last s = None;
  ci_outside : in_session (c_phase s) = false -> c_achan s = [] /\ c_pmap s = [] /\ c_last s = None;
  ci_stopped : c_phase s = CStopped -> c_left s = [];
  ci_failed_nonneg : 0 <= c_failed s
}.

Lemma c_init_inv : c_inv c_init.
Proof. constructor; simpl; intros; try reflexivity; try lia; try discriminate; auto. Qed.

Lemma zlen_opt_list : forall (A : Type) (o : option A), zlen (opt_list o) = len_opt o.
Proof. intros A [a|]; reflexivity. Qed.

Lemma c_step_inv : forall cfg s e s', c_inv s -> c_step cfg s e = Some s' -> c_inv s'.
Proof.
  intros cfg s e s' [J1 J2 J3 J4 J5 J6 J7 J8 J9 J10 J11 J12 J13 J14] Hs. apply c_step_trans in Hs.
  unfold c_holdings in J9.
  pose proof (zlen_nonneg _ (c_achan s)). pose proof (zlen_nonneg _ (c_pmap s)).
  destruct Hs;
    try match goal with H : take_id _ _ = Some _ |- _ => apply take_id_spec in H; destruct H as (? & _ & _) end;
    try match goal with H : ctl _ _ = Some _ |- _ => apply ctl_facts in H; destruct H as (E & ? & ? & ? & ?); rewrite E in * end;
    try destruct r; try destruct n as [|[|n]];
    use_eqs; cbn [in_session idle_stage sending_Z sent_Z] in *;
    try specialize (J11 eq_refl); try (destruct (J12 eq_refl) as (? & ? & ?)); try specialize (J10 eq_refl eq_refl);
    use_eqs; rewrite ?zlen_cons, ?zlen_nil in *; cbn [len_opt] in *;
    constructor; unfold c_holdings, k_delta in *;
    cbn [collect km_session_ended set_hist set_chan set_acker set_phase set_cm c_m c_phase c_acker c_left c_last c_achan c_pmap c_unacked c_stop c_taken c_completed c_failed c_unacked_total
         c_cb_consumed c_cb_left c_dups c_bug k_attempts k_fwd_n k_ack_n k_gleft k_gpack next_phase];
    use_eqs; cbn [in_session idle_stage sending_Z sent_Z]; try assumption;
    rewrite ?zlen_app, ?zlen_cons, ?zlen_nil, ?zlen_opt_list; cbn [len_opt];
    intros; try congruence; try lia; auto.
Qed.

Lemma c_run_inv : forall cfg evs s s', c_inv s -> c_run cfg s evs = Some s' -> c_inv s'.
Proof. intros cfg. apply (run_inv _ _ (c_step cfg)); [reflexivity..|apply c_step_inv]. Qed.

(* the client's counters in every reachable state (the acknowledger contract "Close makes pending operations
   return" is the hypothesis c_bug = 0: the BUG branch of collectLeftovers was never taken) *)
Lemma client_invariants_lemma : forall cfg evs s,
  c_run cfg c_init evs = Some s -> c_bug s = 0 ->
  k_fwd_n (c_m s) = k_ack_n (c_m s) + c_unacked_total s + zlen (c_achan s) + zlen (c_pmap s) /\
  k_gpack (c_m s) = zlen (c_achan s) + zlen (c_pmap s) /\
  k_gleft (c_m s) = zlen (c_left s) + c_dups s /\
  k_attempts (c_m s) = c_completed s + c_failed s + sending_Z (c_phase s) /\
  k_fwd_n (c_m s) <= c_completed s /\ k_ack_n (c_m s) <= k_fwd_n (c_m s) /\
  k_ack_n (c_m s) = c_cb_consumed s /\
  c_taken s = c_cb_consumed s + c_cb_left s + c_holdings s + c_dups s.
Proof.
  intros cfg evs s Hr Hb.
  destruct (c_run_inv cfg evs _ _ c_init_inv Hr) as [J1 J2 J3 J4 J5 J6 J7 J8 J9 J10 J11 J12 J13 J14].
  specialize (J3 Hb). specialize (J5 Hb). specialize (J9 Hb).
  pose proof (zlen_nonneg _ (c_achan s)). pose proof (zlen_nonneg _ (c_pmap s)).
  pose proof (sent_Z_nonneg (c_phase s)).
  repeat split; try assumption; lia.
Qed.

(* at the end of run(): nothing is held; with distinct chunk ids (no duplicate removed) the gauges are zero *)
Lemma client_final_lemma : forall cfg evs s,
  c_run cfg c_init evs = Some s -> c_phase s = CStopped -> c_bug s = 0 ->
  c_holdings s = 0 /\
  k_fwd_n (c_m s) = k_ack_n (c_m s) + c_unacked_total s /\
  k_gpack (c_m s) = 0 /\ k_gleft (c_m s) = c_dups s /\
  k_attempts (c_m s) = c_completed s + c_failed s /\
  c_taken s = c_cb_consumed s + c_cb_left s + c_dups s.
Proof.
  intros cfg evs s Hr Hp Hb.
  destruct (c_run_inv cfg evs _ _ c_init_inv Hr) as [J1 J2 J3 J4 J5 J6 J7 J8 J9 J10 J11 J12 J13 J14].
  specialize (J3 Hb). specialize (J5 Hb). specialize (J9 Hb).
  rewrite Hp in *. destruct (J12 eq_refl) as (Ha & Hpm & Hl).
  unfold c_holdings in *. rewrite Ha, Hpm, Hl in *. rewrite zlen_nil in *. cbn [len_opt sending_Z] in *.
  assert (Hleft : c_left s = []) by (apply J13; reflexivity).
  rewrite Hleft, zlen_nil in *. repeat split; lia.
Qed.

(* the acknowledger contract is needed: if the acknowledger does not end in time (BUG branch of
   collectLeftovers) the chunks it holds are forgotten and the pendingAck gauge never returns to zero *)
Lemma acker_stuck_refuted_lemma :
  exists evs s, c_run (CC 3) c_init evs = Some s /\ c_phase s = CStopped /\ c_bug s = 1 /\
                k_gpack (c_m s) = 1 /\ c_taken s = 1 /\ c_cb_consumed s + c_cb_left s = 0.
Proof.
  exists [COpen; COpenOk; CRecoveryDone; CTake (CH 1 10 false true); CSendOk; CQueue; AckerTake; CStop; CInputClosed;
          CCollectBug; CFinish].
  eexists. split; [vm_compute; reflexivity|]. vm_compute. repeat split; reflexivity.
Qed.

(* what an event of the buffer adds to the consumed counter, to the chunks with the consumer and (original
   OnChunkLeftover) to the leftover counter *)
Definition bd_consumed (e : b_event) : Z := match e with BConsumed _ _ => 1 | _ => 0 end.
Definition bd_held (e : b_event) : Z := match e with BTake => 1 | BConsumed _ _ | BLeftover _ _ => -1 | _ => 0 end.
Definition bd_leftover (e : b_event) : Z := match e with BLeftover _ _ => 1 | _ => 0 end.

Lemma b_internal_quiet : forall e, b_internal e = true ->
  bd_consumed e = 0 /\ bd_held e = 0 /\ bd_leftover e = 0 /\ e <> BFinish.
Proof. intros [] H; try discriminate H; repeat split; discriminate. Qed.

(* what a step of the buffer does to the quantities that couple it to the client *)
Lemma b_coupling : forall cfg s e s', b_step cfg s e = Some s' ->
  m_consumed (b_m s') = m_consumed (b_m s) + bd_consumed e /\
  zlen (b_held s') = zlen (b_held s) + bd_held e /\
  (bc_fix5 cfg = false -> m_leftover (b_m s') = m_leftover (b_m s) + bd_leftover e) /\
  (b_phase s' = BDone -> e = BFinish).
Proof.
  intros cfg s e s' Hs.
  pose proof (b_step_live _ _ _ _ Hs) as Hlive.
  apply b_step_trans in Hs.
  destruct Hs;
    try match goal with H : b_internal _ = true |- _ => destruct (b_internal_quiet _ H) as (-> & -> & -> & _) end;
    try match goal with H : take_id _ _ = Some _ |- _ => apply take_id_spec in H; destruct H as (? & _ & _) end;
    unfold m_delta in *; cbn [b_m b_held b_phase bd_consumed bd_held bd_leftover];
    rewrite ?zlen_app, ?zlen_cons, ?zlen_nil;
    repeat split; intros; try lia; congruence.
Qed.

Definition acked (s : cstate) (e : c_event) : Z :=
  match e, c_acker s with
  | AckRead oid, AWait cur =>
    match take_id (match oid with Some i => i | None => ch_id cur end) (c_pmap s) with Some _ => 1 | None => 0 end
  | _, _ => 0
  end.

Definition cd_taken (e : c_event) : Z := match e with CTake _ => 1 | _ => 0 end.
Definition cd_left (e : c_event) : Z := match e with CFinalPop => 1 | _ => 0 end.

Lemma c_internal_quiet : forall s e, c_internal e = true -> cd_taken e = 0 /\ acked s e = 0 /\ cd_left e = 0.
Proof. intros s [] H; try discriminate H; repeat split. Qed.

Lemma c_coupling : forall cfg s e s', c_step cfg s e = Some s' ->
  c_taken s' = c_taken s + cd_taken e /\
  c_cb_consumed s' = c_cb_consumed s + acked s e /\
  c_cb_left s' = c_cb_left s + cd_left e /\
  (c_phase s = CStopped -> c_phase s' = CStopped).
Proof.
  intros cfg s e s' Hs. apply c_step_trans in Hs. unfold acked.
  destruct Hs; try (destruct e; try discriminate);
    cbn [collect set_hist set_chan set_acker set_phase set_cm c_taken c_cb_consumed c_cb_left c_phase cd_taken cd_left];
    use_eqs; try match goal with H : take_id _ _ = _ |- _ => rewrite H end;
    repeat split; try lia; intros Hp; try congruence; rewrite Hp in *; discriminate.
Qed.

Record sys_inv (bc : bcfg) (n0 : Z) (s : sys) : Prop := {
  si_b : b_inv bc n0 (s_b s);
  si_c : c_inv (s_c s);
  si_consumed : m_consumed (b_m (s_b s)) = c_cb_consumed (s_c s);
  si_held : zlen (b_held (s_b s)) = c_taken (s_c s) - c_cb_consumed (s_c s) - c_cb_left (s_c s);
  si_leftover : bc_fix5 bc = false -> m_leftover (b_m (s_b s)) = c_cb_left (s_c s);
  si_done : b_phase (s_b s) = BDone -> c_phase (s_c s) = CStopped
}.

Lemma sys_init_inv : forall bc n0, sys_inv bc n0 (sys_init n0).
Proof.
  intros bc n0. constructor; simpl; try reflexivity; try discriminate.
  - apply b_init_inv.
  - apply c_init_inv.
Qed.

(* sys_inv of the new state from the invariants and the couplings of the component steps that are in the context *)
Ltac sys_close :=
  try match goal with H : b_step _ _ _ = Some _ |- _ => destruct (b_coupling _ _ _ _ H) as (? & ? & ? & ?) end;
  try match goal with H : c_step _ _ _ = Some _ |- _ => destruct (c_coupling _ _ _ _ H) as (? & ? & ? & ?) end;
  constructor; cbn [s_b s_c acked bd_consumed bd_held bd_leftover cd_taken cd_left] in *;
  eauto using b_step_inv, c_step_inv; intros; try lia;
  match goal with B : b_phase _ = BDone -> _ = BFinish |- _ => specialize (B ltac:(assumption)); congruence end.

Lemma sys_step_inv : forall bc cc n0 s e s', sys_inv bc n0 s -> sys_step bc cc s e = Some s' -> sys_inv bc n0 s'.
Proof.
  intros bc cc n0 [b c] e s' [Hb Hc L1 L2 L3 L4] Hs. cbn [s_b s_c] in *.
  destruct e as [be|ce| |oid ul|wr| | |]; cbn [sys_step s_b s_c] in Hs.
  - destruct (b_internal be) eqn:Hi; [|discriminate].
    destruct (b_step bc b be) as [b'|] eqn:Hbs; [|discriminate]. injection Hs as <-.
    destruct (b_internal_quiet be Hi) as (? & ? & ? & ?). sys_close.
  - destruct (c_internal ce) eqn:Hi; [|discriminate].
    destruct (c_step cc c ce) as [c'|] eqn:Hcs; [|discriminate]. injection Hs as <-.
    destruct (c_internal_quiet c ce Hi) as (? & ? & ?). sys_close.
  - (* STake *)
    destruct (b_window b) as [|x w]; [discriminate|].
    destruct (b_step bc b BTake) as [b'|] eqn:Hbs; [|discriminate].
    destruct (c_step cc c (CTake x)) as [c'|] eqn:Hcs; [|discriminate]. injection Hs as <-.
    sys_close.
  - (* SAck *)
    destruct (c_acker c) as [|cur|] eqn:Hak; try discriminate.
    destruct (c_step cc c (AckRead oid)) as [c'|] eqn:Hcs; [|destruct (take_id _ _); discriminate].
    destruct (c_coupling _ _ _ _ Hcs) as (C1 & C2 & C3 & C4). unfold acked in C2. rewrite Hak in C2.
    destruct (take_id _ (c_pmap c)); [destruct (b_step bc b (BConsumed _ ul)) as [b'|] eqn:Hbs; [|discriminate]|]; injection Hs as <-;
      sys_close.
  - (* SHandBack *)
    destruct (c_left c) as [|x l]; [discriminate|].
    destruct (c_step cc c CFinalPop) as [c'|] eqn:Hcs; [|discriminate].
    destruct (b_step bc b (BLeftover (ch_id x) wr)) as [b'|] eqn:Hbs; [|discriminate]. injection Hs as <-.
    sys_close.
  - (* SStop *)
    destruct (closed_out (b_phase b)); [|discriminate].
    destruct (c_step cc c CStop) as [c'|] eqn:Hcs; [|discriminate]. injection Hs as <-.
    sys_close.
  - (* SInputClosed *)
    destruct (b_window b); [|discriminate]. destruct (closed_out (b_phase b)); [|discriminate].
    destruct (c_step cc c CInputClosed) as [c'|] eqn:Hcs; [|discriminate]. injection Hs as <-.
    sys_close.
  - (* SFinish *)
    destruct (c_phase c) eqn:Hcp; try discriminate.
    destruct (b_step bc b BFinish) as [b'|] eqn:Hbs; [|discriminate]. injection Hs as <-.
    sys_close.
Qed.

Lemma sys_run_inv : forall bc cc n0 evs s s', sys_inv bc n0 s -> sys_run bc cc s evs = Some s' -> sys_inv bc n0 s'.
Proof. intros bc cc n0. apply (run_inv _ _ (sys_step bc cc)); [reflexivity..|apply sys_step_inv]. Qed.

(* the counters of one pipeline x output in every reachable state of the system *)
Lemma system_invariants_lemma : forall bc cc n0 evs s,
  sys_run bc cc (sys_init n0) evs = Some s ->
  let b := s_b s in let c := s_c s in
  m_in_t (b_m b) + m_in_p (b_m b) = m_consumed (b_m b) + m_leftover (b_m b) + m_dropped (b_m b) + m_pending (b_m b) /\
  m_in_t (b_m b) + m_in_p (b_m b) = b_accepted b + b_recovered b /\
  k_ack_n (c_m c) = m_consumed (b_m b) /\
  zlen (b_held b) = c_taken c - c_cb_consumed c - c_cb_left c /\
  k_attempts (c_m c) >= c_completed c /\ c_completed c >= k_fwd_n (c_m c).
Proof.
  intros bc cc n0 evs s Hr b c.
  destruct (sys_run_inv bc cc n0 evs _ _ (sys_init_inv bc n0) Hr) as [Hb Hc L1 L2 L3 L4].
  destruct Hb as [I1 I2 I3 _ _ _ _ _ _]. destruct Hc as [J1 J2 J3 J4 J5 J6 J7 J8 J9 J10 J11 J12 J13 J14].
  fold b in I1, I2, I3, L1, L2. fold c in J6, J7, J8, J14, L1, L2.
  pose proof (sending_Z_nonneg (c_phase c)). pose proof (sent_Z_nonneg (c_phase c)).
  repeat split; try assumption; lia.
Qed.

(* at quiescence (the feeder has finished, which requires the client to have returned), under the connection
   contract (no BUG branch) and with distinct chunk ids (no duplicate removed):
   accepted = acknowledged + leftover + dropped + saved-at-shutdown, every gauge of the client is zero,
   forwarded = acknowledged + unacknowledged-at-session-ends, attempts >= completed sends >= forwarded >= acknowledged *)
Lemma system_final_lemma : forall bc cc n0 evs s,
  sys_run bc cc (sys_init n0) evs = Some s ->
  let b := s_b s in let c := s_c s in
  b_phase b = BDone -> c_bug c = 0 -> c_dups c = 0 ->
  b_accepted b + b_recovered b = k_ack_n (c_m c) + m_leftover (b_m b) + m_dropped (b_m b) + zlen (b_parked b) /\
  m_pending (b_m b) = zlen (b_parked b) /\ all_saved (b_parked b) /\
  k_ack_n (c_m c) = m_consumed (b_m b) /\
  k_gpack (c_m c) = 0 /\ k_gleft (c_m c) = 0 /\
  k_fwd_n (c_m c) = k_ack_n (c_m c) + c_unacked_total c /\
  k_attempts (c_m c) = c_completed c + c_failed c /\ c_completed c >= k_fwd_n (c_m c) /\ k_fwd_n (c_m c) >= k_ack_n (c_m c) /\
  c_taken c = k_ack_n (c_m c) + c_cb_left c /\
  (bc_fix5 bc = false -> m_leftover (b_m b) = c_cb_left c).
Proof.
  intros bc cc n0 evs s Hr b c Hd Hbug Hdup.
  destruct (sys_run_inv bc cc n0 evs _ _ (sys_init_inv bc n0) Hr) as [Hb Hc L1 L2 L3 L4].
  fold b in Hb, L1, L2, L3, L4. fold c in Hc, L1, L2, L3, L4.
  specialize (L4 Hd).
  destruct Hb as [I1 I2 I3 I4 I5 I6 I7 I8 I9]. destruct Hc as [J1 J2 J3 J4 J5 J6 J7 J8 J9 J10 J11 J12 J13 J14].
  destruct (I9 Hd) as (Hq & Hh & Hw & Hheld). unfold b_holdings in I1. rewrite Hq, Hh, Hw, Hheld in *.
  specialize (J3 Hbug). specialize (J5 Hbug). specialize (J9 Hbug).
  rewrite L4 in *. destruct (J12 eq_refl) as (Ha & Hpm & Hl). specialize (J13 eq_refl).
  unfold c_holdings in J9. rewrite Ha, Hpm, Hl, J13 in *. rewrite zlen_nil in *. cbn [len_opt sending_Z sent_Z] in *.
  repeat split; try assumption; try lia.
Qed.

Lemma insert_chunk_perm : forall c l, Permutation (insert_chunk c l) (c :: l).
Proof.
  induction l as [|x l IH]; simpl; [apply Permutation_refl|].
  destruct (ch_id c <=? ch_id x); [apply Permutation_refl|].
  eapply Permutation_trans; [apply perm_skip; exact IH|apply perm_swap].
Qed.

Lemma sort_chunks_perm : forall l, Permutation (sort_chunks l) l.
Proof.
  induction l as [|c l IH]; simpl; [apply Permutation_refl|].
  eapply Permutation_trans; [apply insert_chunk_perm|apply perm_skip; exact IH].
Qed.

Lemma dedup_adj_nodup : forall l, NoDup (map ch_id l) -> dedup_adj l = l.
Proof.
  induction l as [|c l IH]; intros H; [reflexivity|].
  cbn [dedup_adj]. destruct l as [|x l']; [reflexivity|].
  inversion H as [|? ? Hn Hr]; subst.
  destruct (ch_id c =? ch_id x) eqn:E.
  - exfalso. apply Hn. simpl. left. lia.
  - rewrite IH by exact Hr. reflexivity.
Qed.

Lemma new_leftover_channel_nodup : forall l, NoDup (map ch_id l) ->
  Permutation (new_leftover_channel l) l /\ zlen (new_leftover_channel l) = zlen l.
Proof.
  intros l H. unfold new_leftover_channel.
  assert (Hp : Permutation (sort_chunks l) l) by apply sort_chunks_perm.
  assert (Hn : NoDup (map ch_id (sort_chunks l))).
  { eapply Permutation_NoDup; [|exact H]. apply Permutation_map. apply Permutation_sym. exact Hp. }
  rewrite (dedup_adj_nodup _ Hn). split; [exact Hp|].
  unfold zlen. rewrite (Permutation_length Hp). reflexivity.
Qed.

Lemma take_id_perm : forall id l c r, take_id id l = Some (c, r) -> Permutation l (c :: r).
Proof.
  induction l as [|x l IH]; intros c r H; simpl in H; [discriminate|].
  destruct (ch_id x =? id).
  - inversion H; subst. apply Permutation_refl.
  - destruct (take_id id l) as [[y r']|] eqn:T; [|discriminate]. inversion H; subst.
    eapply Permutation_trans; [apply perm_skip; apply IH; reflexivity|apply perm_swap].
Qed.

Definition held (s : cstate) : list chunk := c_left s ++ opt_list (c_last s) ++ c_achan s ++ c_pmap s.
Definition held_ids (s : cstate) : list Z := map ch_id (held s).

(* the environment hypothesis: a chunk received from the input channel has an id the client does not hold *)
Fixpoint takes_fresh (cfg : ccfg) (s : cstate) (evs : list c_event) : Prop :=
  match evs with
  | [] => True
  | e :: r =>
    match e with CTake c => ~ In (ch_id c) (held_ids s) | _ => True end /\
    match c_step cfg s e with Some s' => takes_fresh cfg s' r | None => True end
  end.

Definition nd_inv (s : cstate) : Prop := c_bug s = 0 -> NoDup (held_ids s) /\ c_dups s = 0.

Lemma nodup_perm : forall (a b : list chunk), Permutation a b -> NoDup (map ch_id a) -> NoDup (map ch_id b).
Proof. intros a b Hp Hn. eapply Permutation_NoDup; [apply Permutation_map; exact Hp|exact Hn]. Qed.

Lemma nodup_tail : forall (c : chunk) l, NoDup (map ch_id (c :: l)) -> NoDup (map ch_id l).
Proof. intros c l H. inversion H; assumption. Qed.

Section PermLemmas.
Variable A : Type.
Implicit Types (c : A) (l a p o left : list A).

Lemma perm_queue : forall c left a p, Permutation (left ++ [c] ++ a ++ p) (left ++ [] ++ (a ++ [c]) ++ p).
Proof.
  intros. simpl. apply Permutation_app_head. rewrite <- app_assoc. simpl. apply Permutation_middle.
Qed.

Lemma perm_ackertake : forall c left o l p, Permutation (left ++ o ++ (c :: l) ++ p) (left ++ o ++ l ++ p ++ [c]).
Proof.
  intros. apply Permutation_app_head. apply Permutation_app_head. simpl.
  rewrite app_assoc. apply Permutation_cons_append.
Qed.

Lemma perm_ackread : forall c left o a p l, Permutation p (c :: l) ->
  Permutation (left ++ o ++ a ++ p) (c :: (left ++ o ++ a ++ l)).
Proof.
  intros c left o a p l H.
  eapply Permutation_trans.
  - apply Permutation_app_head. apply Permutation_app_head. apply Permutation_app_head. exact H.
  - rewrite !app_assoc. apply Permutation_sym. apply Permutation_middle.
Qed.

Lemma perm_collect : forall left o a p, Permutation (left ++ o ++ a ++ p) (left ++ a ++ p ++ o).
Proof.
  intros. apply Permutation_app_head. rewrite (app_assoc a p o). apply Permutation_app_comm.
Qed.
End PermLemmas.

Lemma c_step_nd : forall cfg s e s',
  c_inv s -> nd_inv s -> c_step cfg s e = Some s' ->
  match e with CTake c => ~ In (ch_id c) (held_ids s) | _ => True end -> nd_inv s'.
Proof.
  intros cfg s e s' [J1 _ _ _ _ _ _ _ _ J10 J11 J12 _ _] Hnd Hs Hfresh. apply c_step_trans in Hs.
  unfold nd_inv, held_ids, held in *.
  destruct Hs; cbn [collect set_hist set_chan set_acker set_phase set_cm c_left c_last c_achan c_pmap c_dups c_bug]; use_eqs;
    try specialize (J11 eq_refl); try (destruct (J12 eq_refl) as (? & ? & ?)); try specialize (J10 eq_refl eq_refl); use_eqs;
    cbn [opt_list] in *;
    intros Hb; try exact (Hnd Hb); try (exfalso; lia);
    (destruct Hnd as [Hn Hd]; [lia|]).
  - split; [|lia]. eapply nodup_perm; [apply Permutation_middle|exact Hn].
  - split; [|lia]. eapply nodup_perm; [apply Permutation_middle|]. cbn [map]. apply NoDup_cons; [exact Hfresh|exact Hn].
  - split; [|lia]. eapply nodup_perm; [apply perm_queue|exact Hn].
  - split; [|lia]. eapply nodup_perm; [apply perm_ackertake|exact Hn].
  - split; [|lia]. eapply nodup_tail, nodup_perm; [eapply perm_ackread, take_id_perm; eassumption|exact Hn].
  - (* CCollectDone: the merged list has the ids of what was held, so nothing is removed from it *)
    eapply nodup_perm in Hn; [|apply perm_collect].
    destruct (new_leftover_channel_nodup _ Hn) as [Hp Hz].
    split; [rewrite !app_nil_r; eapply nodup_perm; [apply Permutation_sym; exact Hp|exact Hn]|lia].
  - split; [|lia]. exact (nodup_tail _ _ Hn).
Qed.

Lemma c_run_nd : forall cfg evs s s',
  c_inv s -> nd_inv s -> c_run cfg s evs = Some s' -> takes_fresh cfg s evs -> nd_inv s'.
Proof.
  intros cfg. induction evs as [|e evs IH]; intros s s' Hi Hn Hr Hf; simpl in Hr.
  - inversion Hr; subst; exact Hn.
  - destruct (c_step cfg s e) as [s1|] eqn:Hs; [|discriminate].
    simpl in Hf. rewrite Hs in Hf. destruct Hf as [Hf1 Hf2].
    eapply IH; [eapply c_step_inv; eauto| |exact Hr|exact Hf2].
    eapply c_step_nd; eauto.
Qed.

(* with distinct chunk ids nothing is ever removed as a duplicate *)
Lemma client_no_dups_lemma : forall cfg evs s,
  c_run cfg c_init evs = Some s -> takes_fresh cfg c_init evs -> c_bug s = 0 -> c_dups s = 0.
Proof.
  intros cfg evs s Hr Hf Hb.
  assert (H : nd_inv s).
  { eapply c_run_nd; [apply c_init_inv| |exact Hr|exact Hf]. intros _. split; [constructor|reflexivity]. }
  destruct (H Hb) as [_ Hd]. exact Hd.
Qed.

(* non-vacuity: a concrete run of the system that reaches quiescence *)
Definition example_run : list sys_event :=
  [SB (BAccept 0 100 false true); SB (BAccept 1 50 true true);
   SC COpen; SC COpenOk; SC CRecoveryDone;
   SB BFeedTake; SB BFeedPush; STake; SC CSendOk; SC CQueue; SC AckerTake; SAck (Some 0) true;
   SB BFeedTake; SB (BFeedLoad true true); SB BFeedPush; STake; SC CSendFail; SC AckerEnd; SC CCollectDone;
   SB BDestroy; SB BFeedEnd; SStop; SC CRetryStop; SHandBack true; SC CFinish; SFinish].

Lemma example_run_lemma :
  exists s, sys_run (bcfg_std false) (CC 3) (sys_init 0) example_run = Some s /\
    b_phase (s_b s) = BDone /\ c_bug (s_c s) = 0 /\ c_dups (s_c s) = 0 /\
    b_accepted (s_b s) = 2 /\ k_ack_n (c_m (s_c s)) = 1 /\ m_leftover (b_m (s_b s)) = 1 /\
    k_attempts (c_m (s_c s)) = 2 /\ k_fwd_n (c_m (s_c s)) = 1.
Proof. eexists. split; [vm_compute; reflexivity|]. vm_compute. repeat split; reflexivity. Qed.

Definition example_records : list rec_run :=
  [RR (InParsed 70 false [] false) [[107;97]]%N (Some (PRec [[104;49]]%N 70 [] false));
   RR (InParsed 74 false [label_xmarker] true) [[107;97]]%N None;
   RR (InMalformed 60) [] None;
   RR (InParsed 66 false [] false) [[107;98]]%N (Some (PRec [[104;50]]%N 66 [label_marker] true))].

Lemma example_records_lemma :
  Forall rr_wf example_records /\
  ic_pn (i_cnt (fst (run_records true (merge_key false) example_records))) = 2 /\
  ic_dn (i_cnt (fst (run_records true (merge_key false) example_records))) = 2.
Proof. split; [repeat constructor|]. vm_compute. split; reflexivity. Qed.
