(* Facts about Model/ConfigTemplate.v: NewExpander never panics (after the fix), the parts it
   builds index inside the record, the run-time solver is total, and an accepted template is
   one of the grammar of Spec/ConfigSpec.v.  The Config proofs speak of outcomes through two
   predicates defined here: np (no panic) and yields (success, with a postcondition). *)
From SV Require Import Model.Common Model.ConfigTemplate Model.ConfigExtractor Model.Config Spec.ConfigSpec Proofs.CommonFacts.
From Coq Require Import Lia ZifyBool ZifyN ZifyNat.
(* ZifyBool sets this hook to its case split on every boolean, which no lia below needs and which is slow; this replaces it *)
Ltac Zify.zify_post_hook ::= Z.div_mod_to_equations.
Open Scope Z_scope.

Definition np {A} (o : outcome A) : Prop := is_panic o = false.

Definition yields {A} (o : outcome A) (P : A -> Prop) : Prop := exists a, o = Ok a /\ P a.

Lemma yields_ok : forall A (a : A) (P : A -> Prop), P a -> yields (Ok a) P.
Proof. intros A a P H. exists a. auto. Qed.

Lemma yields_bind : forall A B (o : outcome A) (f : A -> outcome B) (P : A -> Prop) (Q : B -> Prop),
  yields o P -> (forall a, P a -> yields (f a) Q) -> yields (obind o f) Q.
Proof. intros A B o f P Q [a [E Ha]] H. rewrite E. apply H. assumption. Qed.

#[export] Hint Resolve yields_ok : core.

Lemma obind_ok : forall A B (o : outcome A) (f : A -> outcome B) v,
  obind o f = Ok v -> exists a, o = Ok a /\ f a = Ok v.
Proof. intros A B [a|e|s] f v H; simpl in H; try discriminate. eauto. Qed.

Lemma np_bind : forall A B (o : outcome A) (f : A -> outcome B),
  np o -> (forall a, o = Ok a -> np (f a)) -> np (obind o f).
Proof. intros A B [a|e|s] f H1 H2; simpl; auto. Qed.

Lemma np_ok : forall A (a : A), np (Ok a). Proof. reflexivity. Qed.
Lemma np_err : forall A e, np (@Err A e). Proof. reflexivity. Qed.
Lemma np_check : forall b e, np (check b e). Proof. intros [|] e; reflexivity. Qed.
Lemma check_ok : forall b e u, check b e = Ok u -> b = true.
Proof. intros [|] e u H; [reflexivity|discriminate]. Qed.
Lemma check_true : forall e, check true e = Ok tt. Proof. reflexivity. Qed.

#[export] Hint Resolve np_ok np_err np_check : np.

(* Inverting  H : (let* x := a in b) = Ok v  by obind_ok.  bind_inv takes one let, with the names given, and
   leaves the rest in H; binds takes them all, the values named ub, ub0, .. and the equations Hb, Hb0, .. in
   the order of the lets, and turns the units bound on the way into tt. *)
Tactic Notation "bind_inv" hyp(H) "as" ident(a) ident(Ha) :=
  apply obind_ok in H; destruct H as [a [Ha H]].

Ltac binds H :=
  repeat match type of H with
         | obind _ _ = Ok _ =>
           let a := fresh "ub" in let Ha := fresh "Hb" in
           apply obind_ok in H; destruct H as [a [Ha H]]
         end;
  repeat match goal with u : unit |- _ => destruct u end.

Lemma span_spec : forall p s a b, span p s = (a, b) ->
  s = a ++ b /\ Forall (fun c => p c = true) a /\ (match b with [] => True | c :: _ => p c = false end).
Proof.
  induction s as [|c s IH]; intros a b H; simpl in H.
  - inversion H; subst. repeat split; constructor.
  - destruct (p c) eqn:E.
    + destruct (span p s) as [a' b'] eqn:E2. inversion H; subst.
      destruct (IH a' b eq_refl) as [H1 [H2 H3]]. subst s. repeat split; auto.
    + inversion H; subst. repeat split; auto.
Qed.

Lemma span_length : forall p s a b, span p s = (a, b) -> (length b <= length s)%nat.
Proof.
  intros p s a b H. apply span_spec in H. destruct H as [H _]. subst. rewrite app_length. lia.
Qed.

Lemma break_at_spec : forall c s a b, break_at c s = Some (a, b) -> s = a ++ c :: b.
Proof.
  induction s as [|x s IH]; intros a b H; simpl in H; [discriminate|].
  destruct (x =? c)%N eqn:E.
  - inversion H; subst. apply N.eqb_eq in E. subst. reflexivity.
  - destruct (break_at c s) as [[a' b']|] eqn:E2; [|discriminate]. inversion H; subst.
    rewrite (IH a' b eq_refl). reflexivity.
Qed.

Lemma break_at_length : forall c s a b, break_at c s = Some (a, b) -> (length b < length s)%nat.
Proof. intros c s a b H. apply break_at_spec in H. subst. rewrite app_length. simpl. lia. Qed.

Lemma locate_from_spec : forall names name pos i,
  locate_from names name pos = Some i -> In name names /\ (pos <= i < pos + length names)%nat.
Proof.
  induction names as [|x r IH]; intros name pos i H; simpl in H; [discriminate|].
  destruct (bytes_eqb x name) eqn:E.
  - inversion H; subst. apply bytes_eqb_eq in E. subst. split; [left; reflexivity|simpl; lia].
  - apply IH in H. destruct H as [H1 H2]. split; [right; assumption|simpl; lia].
Qed.

Lemma locate_spec : forall names name i, locate names name = Some i -> In name names /\ (i < length names)%nat.
Proof. intros names name i H. apply locate_from_spec in H. destruct H as [H1 H2]. split; [assumption|lia]. Qed.

Lemma locate_from_none : forall names name pos, locate_from names name pos = None -> ~ In name names.
Proof.
  induction names as [|x r IH]; intros name pos H; simpl in *; [tauto|].
  destruct (bytes_eqb x name) eqn:E; [discriminate|].
  intros [Hx|Hr]; [subst; rewrite bytes_eqb_refl in E; discriminate|]. eapply IH; eauto.
Qed.

Lemma locate_in : forall names name, In name names -> exists i, locate names name = Some i.
Proof.
  intros names name H. destruct (locate names name) eqn:E; [eauto|].
  exfalso. eapply locate_from_none; eauto.
Qed.

Lemma np_slice_bound : forall s d, np (slice_bound false s d).
Proof. intros [|c s] d; simpl; [reflexivity|]. destruct (atoi (c :: s)); reflexivity. Qed.

Lemma np_expander_parts : forall resolve ps, np (expander_parts false resolve ps).
Proof.
  induction ps as [|p ps IH]; simpl; [reflexivity|].
  destruct p as [s|name|body|].
  - apply np_bind; auto with np.
  - destruct (resolve name); [apply np_bind; auto with np|reflexivity].
  - destruct (parse_vexpr body) as [[name bounds]|]; [|reflexivity].
    destruct (resolve name); [|reflexivity].
    destruct bounds as [[a b]|].
    + apply np_bind; [apply np_slice_bound|intros]. apply np_bind; [apply np_slice_bound|intros].
      apply np_bind; auto with np.
    + apply np_bind; auto with np.
  - assumption.
Qed.

Lemma np_new_expander : forall resolve t, np (new_expander false resolve t).
Proof.
  intros. unfold new_expander. destruct (has_dollar2 t); [reflexivity|].
  apply np_bind; [apply np_expander_parts|intros]. destruct (has_skip _); reflexivity.
Qed.

Lemma expander_parts_safe : forall ap resolve (n : Z) ps r,
  (forall name i, resolve name = Some i -> Z.of_nat i < n) ->
  expander_parts ap resolve ps = Ok r -> forallb (rpart_safe n) r = true.
Proof.
  intros ap resolve n ps. induction ps as [|p ps IH]; intros r Hres H; simpl in H.
  - inversion H; reflexivity.
  - destruct p as [s|name|body|].
    + bind_inv H as a Ha. inversion H; subst. simpl. eauto.
    + destruct (resolve name) eqn:E; [|discriminate]. apply Hres, Z.ltb_lt in E.
      bind_inv H as a Ha. inversion H; subst. simpl. rewrite (IH a Hres Ha), E. reflexivity.
    + destruct (parse_vexpr body) as [[name bounds]|]; [|discriminate].
      destruct (resolve name) eqn:E; [|discriminate]. apply Hres, Z.ltb_lt in E.
      destruct bounds as [[a b]|].
      * bind_inv H as z1 Hz1. bind_inv H as z2 Hz2. bind_inv H as a2 Ha2. inversion H; subst. simpl.
        rewrite (IH a2 Hres Ha2), E. reflexivity.
      * bind_inv H as a Ha. inversion H; subst. simpl. rewrite (IH a Hres Ha), E. reflexivity.
    + eauto.
Qed.

Lemma new_expander_safe : forall ap scope t r,
  new_expander ap (locate scope) t = Ok r -> forallb (rpart_safe (Z.of_nat (length scope))) r = true.
Proof.
  intros ap scope t r H. unfold new_expander in H. destruct (has_dollar2 t); [discriminate|].
  bind_inv H as a Ha. destruct (has_skip _); [discriminate|]. inversion H; subst.
  eapply expander_parts_safe; [|eassumption].
  intros name i Hl. apply locate_spec in Hl. lia.
Qed.

Lemma rpart_safe_mono : forall n m p, n <= m -> rpart_safe n p = true -> rpart_safe m p = true.
Proof. intros n m [s|i|i a b] H Hs; simpl in *; [reflexivity| |]; lia. Qed.

Lemma rparts_safe_mono : forall n m ps, n <= m -> forallb (rpart_safe n) ps = true -> forallb (rpart_safe m) ps = true.
Proof.
  intros n m ps H. induction ps as [|p ps IH]; simpl; [reflexivity|]. intro Hs.
  apply andb_true_iff in Hs. destruct Hs as [H1 H2]. rewrite (rpart_safe_mono _ _ _ H H1), (IH H2). reflexivity.
Qed.

Lemma fget_ok : forall (f : list bytes) i, (i < length f)%nat -> yields (fget f i) (fun _ => True).
Proof.
  intros f i H. unfold fget. destruct (nth_error f i) eqn:E; [auto|].
  apply nth_error_None in E. lia.
Qed.

Lemma slice_z_ok : forall v a b, 0 <= a -> a <= b -> b <= Z.of_nat (length v) -> yields (slice_z v a b) (fun _ => True).
Proof.
  intros v a b H1 H2 H3. unfold slice_z.
  destruct ((0 <=? a) && (a <=? b) && (b <=? Z.of_nat (length v))) eqn:E; [auto|lia].
Qed.

Lemma solve_slice_ok : forall v a b, yields (solve_slice v a b) (fun _ => True).
Proof.
  intros v a b. unfold solve_slice.
  assert (Hlen : 0 <= Z.of_nat (length v)) by lia.
  remember (Z.of_nat (length v)) as len eqn:Elen.
  repeat match goal with
         | |- context [if ?c then _ else _] => destruct c eqn:?
         end; auto; (apply slice_z_ok; try rewrite <- Elen; lia).
Qed.

Lemma run_part_ok : forall f p, rpart_safe (Z.of_nat (length f)) p = true -> yields (run_part f p) (fun _ => True).
Proof.
  intros f [s|i|i a b] H; simpl in *; [auto|apply fget_ok; lia|].
  eapply yields_bind; [apply fget_ok; lia|intros v _]. apply solve_slice_ok.
Qed.

Lemma expand_ok : forall f ps, forallb (rpart_safe (Z.of_nat (length f))) ps = true -> yields (expand f ps) (fun _ => True).
Proof.
  intros f ps. induction ps as [|p ps IH]; simpl; intro H; [auto|].
  apply andb_true_iff in H. destruct H as [H1 H2].
  eapply yields_bind; [exact (run_part_ok f p H1)|intros a _]. eapply yields_bind; [exact (IH H2)|auto].
Qed.

Definition tpart_text (p : tpart) : bytes :=
  match p with
  | PLit s => s
  | PVar name => ch_dollar :: name
  | PExpr body => ch_dollar :: ch_lbrace :: body ++ [ch_rbrace]
  | PSkip => []
  end.

Definition tpart_wf (p : tpart) : Prop :=
  match p with
  | PLit s => s <> [] /\ Forall (fun c => c <> ch_dollar) s
  | PVar name => word name
  | PExpr _ => True
  | PSkip => False
  end.

Lemma not_dollar_neq : forall c, not_dollar c = true -> c <> ch_dollar.
Proof. intros c H. unfold not_dollar in H. intro E. subst. discriminate. Qed.

Lemma tokenize_sound : forall fuel s, (length s < fuel)%nat -> has_skip (tokenize fuel s) = false ->
  s = concat (map tpart_text (tokenize fuel s)) /\ Forall tpart_wf (tokenize fuel s).
Proof.
  induction fuel as [|fuel IH]; intros s Hlen Hskip; [lia|].
  destruct s as [|c rest]; [simpl; split; [reflexivity|constructor]|].
  cbn [tokenize] in *.
  destruct (c =? ch_dollar)%N eqn:Ec.
  - apply N.eqb_eq in Ec. subst c.
    destruct rest as [|w rest1]; [simpl in Hskip; discriminate|].
    destruct (is_word w) eqn:Ew.
    + destruct (span is_word (w :: rest1)) as [name after] eqn:Es.
      pose proof (span_spec _ _ _ _ Es) as [Hs1 [Hs2 Hs3]]. pose proof (span_length _ _ _ _ Es) as Hl.
      simpl in Hskip. simpl in Hlen.
      destruct (IH after ltac:(simpl in Hl; lia) Hskip) as [IH1 IH2].
      split.
      * simpl. rewrite <- IH1. rewrite Hs1. reflexivity.
      * constructor; [|assumption]. split; [|assumption].
        simpl in Es. rewrite Ew in Es. destruct (span is_word rest1). inversion Es. discriminate.
    + destruct (w =? ch_lbrace)%N eqn:Eb; [|simpl in Hskip; discriminate].
      apply N.eqb_eq in Eb. subst w.
      destruct rest1 as [|w1 rest2]; [simpl in Hskip; discriminate|].
      destruct (is_word w1) eqn:Ew1; [|simpl in Hskip; discriminate].
      destruct (break_at ch_rbrace (w1 :: rest2)) as [[body after]|] eqn:Ebr; [|simpl in Hskip; discriminate].
      pose proof (break_at_spec _ _ _ _ Ebr) as Hb. pose proof (break_at_length _ _ _ _ Ebr) as Hl.
      simpl in Hskip. simpl in Hlen.
      destruct (IH after ltac:(simpl in Hl; lia) Hskip) as [IH1 IH2].
      split.
      * simpl. rewrite <- IH1. rewrite Hb. rewrite <- app_assoc. reflexivity.
      * constructor; [exact I|assumption].
  - destruct (span not_dollar (c :: rest)) as [lit after] eqn:Es.
    pose proof (span_spec _ _ _ _ Es) as [Hs1 [Hs2 Hs3]]. pose proof (span_length _ _ _ _ Es) as Hl.
    assert (Hne : lit <> []).
    { simpl in Es. unfold not_dollar at 1 in Es. rewrite Ec in Es. simpl in Es.
      destruct (span not_dollar rest). inversion Es. discriminate. }
    simpl in Hskip.
    assert (Hl2 : (length after < length (c :: rest))%nat).
    { rewrite Hs1. rewrite app_length. destruct lit; [congruence|simpl; lia]. }
    destruct (IH after ltac:(simpl in *; lia) Hskip) as [IH1 IH2].
    split.
    + simpl. rewrite <- IH1. exact Hs1.
    + constructor; [|assumption]. split; [assumption|].
      eapply Forall_impl; [|exact Hs2]. intros a Ha. apply not_dollar_neq. exact Ha.
Qed.

(* what parse_optint takes: nothing, or '-'? digits+ *)
Definition optint_text (a : bytes) : Prop :=
  a = [] \/ exists (neg : bool) (ds : bytes), a = (if neg then ch_minus :: ds else ds) /\ ds <> [] /\ Forall (fun c => is_digit c = true) ds.

Lemma parse_optint_spec : forall s a r, parse_optint s = (a, r) ->
  s = a ++ r /\ optint_text a.
Proof.
  intros s a r H. unfold parse_optint in H. destruct s as [|c s']; [inversion H; split; [reflexivity|left; reflexivity]|].
  destruct (c =? ch_minus)%N eqn:E.
  - apply N.eqb_eq in E. subst c.
    destruct (span is_digit s') as [ds after] eqn:Es. pose proof (span_spec _ _ _ _ Es) as [H1 [H2 _]].
    destruct ds as [|d ds]; inversion H; subst a r; [split; [reflexivity|left; reflexivity]|].
    split; [simpl; rewrite H1; reflexivity|]. right. exists true, (d :: ds). repeat split; [discriminate|assumption].
  - pose proof (span_spec _ _ _ _ H) as [H1 [H2 _]]. split; [assumption|].
    destruct a as [|d ds]; [left; reflexivity|]. right. exists false, (d :: ds). repeat split; [discriminate|assumption].
Qed.

Lemma N_of_dec_acc_digits : forall ds acc, Forall (fun c => is_digit c = true) ds -> exists n, N_of_dec_acc ds acc = Some n.
Proof.
  induction ds as [|d ds IH]; intros acc H; simpl; [eauto|].
  inversion H; subst. rewrite H2. apply IH. assumption.
Qed.

Lemma digit_not_sign : forall d, is_digit d = true -> (d =? ch_minus)%N = false /\ (d =? ch_plus)%N = false.
Proof. intros d H. unfold is_digit, ch_minus, ch_plus in *. lia. Qed.

Lemma atoi_bound_text : forall (neg : bool) (ds : bytes) z, ds <> [] -> Forall (fun c => is_digit c = true) ds ->
  atoi (if neg then ch_minus :: ds else ds) = Some z ->
  bound_text (Some z) (if neg then ch_minus :: ds else ds).
Proof.
  intros neg ds z Hne Hd H. destruct ds as [|d ds']; [congruence|].
  inversion Hd as [|? ? Hd1 Hd2]; subst. destruct (digit_not_sign d Hd1) as [E1 E2].
  assert (Hcore : match N_of_dec_acc (d :: ds') 0%N with
                  | Some n => let z0 := if neg then - Z.of_N n else Z.of_N n in if in_int64 z0 then Some z0 else None
                  | None => None
                  end = Some z).
  { destruct neg; unfold atoi in H.
    - rewrite N.eqb_refl in H. exact H.
    - rewrite E1, E2 in H. exact H. }
  destruct (N_of_dec_acc (d :: ds') 0%N) as [n|] eqn:En; [|discriminate]. cbv zeta in Hcore.
  destruct (in_int64 (if neg then - Z.of_N n else Z.of_N n)) eqn:Er; [|discriminate].
  inversion Hcore; subst. exists neg, (d :: ds'), n.
  repeat split; try assumption; try discriminate; unfold in_int64 in Er; lia.
Qed.

Lemma slice_bound_text : forall a d z,
  optint_text a ->
  slice_bound false a d = Ok z ->
  bound_text (match a with [] => None | _ => Some z end) a.
Proof.
  intros a d z [Ha|[neg [ds [Ha [Hne Hd]]]]] H.
  - subst. reflexivity.
  - assert (Hn : a <> []) by (subst; destruct neg; [discriminate|assumption]).
    destruct a as [|c a']; [congruence|]. cbn [slice_bound] in H.
    destruct (atoi (c :: a')) as [z'|] eqn:E; [|discriminate]. inversion H; subst z'.
    rewrite Ha in *. apply atoi_bound_text; assumption.
Qed.

Lemma parse_vexpr_spec : forall body name bounds, parse_vexpr body = Some (name, bounds) ->
  word name /\
  match bounds with
  | None => body = name
  | Some (a, b) =>
    body = name ++ ch_lbracket :: a ++ ch_colon :: b ++ [ch_rbracket] /\
    optint_text a /\
    optint_text b
  end.
Proof.
  intros body name bounds H. unfold parse_vexpr in H.
  destruct (span is_word body) as [nm rest] eqn:Es. pose proof (span_spec _ _ _ _ Es) as [H1 [H2 _]].
  destruct nm as [|n0 nm]; [discriminate|].
  destruct rest as [|c r1].
  - inversion H; subst. split; [split; [discriminate|assumption]|]. rewrite app_nil_r. reflexivity.
  - destruct (c =? ch_lbracket)%N eqn:Ec; [|discriminate]. apply N.eqb_eq in Ec. subst c.
    destruct (parse_optint r1) as [a r2] eqn:Ea. pose proof (parse_optint_spec _ _ _ Ea) as [Ha1 Ha2].
    destruct r2 as [|c2 r3]; [discriminate|].
    destruct (c2 =? ch_colon)%N eqn:Ec2; [|discriminate]. apply N.eqb_eq in Ec2. subst c2.
    destruct (parse_optint r3) as [b r4] eqn:Eb. pose proof (parse_optint_spec _ _ _ Eb) as [Hb1 Hb2].
    destruct r4 as [|c4 [|? ?]]; try discriminate.
    destruct (c4 =? ch_rbracket)%N eqn:Ec4; [|discriminate]. apply N.eqb_eq in Ec4. subst c4.
    inversion H; subst name bounds. split; [split; [discriminate|assumption]|].
    split; [|split; assumption]. rewrite H1, Ha1, Hb1. reflexivity.
Qed.

Lemma expander_parts_valid : forall scope ps r,
  Forall tpart_wf ps -> expander_parts false (locate scope) ps = Ok r ->
  exists sps, Forall2 part_text sps (map tpart_text ps) /\
              Forall (fun p => match part_var p with Some n => In n scope | None => True end) sps.
Proof.
  intros scope ps. induction ps as [|p ps IH]; intros r Hwf H.
  - exists []. split; constructor.
  - inversion Hwf as [|? ? Hp Hps]; subst. simpl in H.
    destruct p as [s|name|body|]; [| | |destruct Hp].
    + bind_inv H as a Ha. destruct (IH a Hps Ha) as [sps [F1 F2]].
      exists (SLit s :: sps). split; constructor; auto; simpl; try tauto. destruct Hp. auto.
    + destruct (locate scope name) eqn:E; [|discriminate]. bind_inv H as a Ha.
      destruct (IH a Hps Ha) as [sps [F1 F2]]. apply locate_spec in E.
      exists (SVar name :: sps). split; constructor; auto; simpl; tauto.
    + destruct (parse_vexpr body) as [[name bounds]|] eqn:Ep; [|discriminate].
      destruct (locate scope name) eqn:E; [|discriminate]. apply locate_spec in E.
      pose proof (parse_vexpr_spec _ _ _ Ep) as [Hw Hb].
      destruct bounds as [[a b]|].
      * destruct Hb as [Hbody [Hsa Hsb]]. bind_inv H as z1 Hz1. bind_inv H as z2 Hz2. bind_inv H as a2 Ha2.
        destruct (IH a2 Hps Ha2) as [sps [F1 F2]].
        exists (SBrace name (Some (match a with [] => None | _ => Some z1 end, match b with [] => None | _ => Some z2 end)) :: sps).
        split; constructor; auto; [|simpl; tauto].
        simpl. split; [assumption|]. exists a, b.
        split; [eapply slice_bound_text; eassumption|]. split; [eapply slice_bound_text; eassumption|].
        rewrite Hbody. repeat (rewrite <- app_assoc || rewrite <- app_comm_cons). reflexivity.
      * bind_inv H as a Ha. destruct (IH a Hps Ha) as [sps [F1 F2]].
        exists (SBrace name None :: sps). split; constructor; auto; [|simpl; tauto].
        simpl. subst body. split; [reflexivity|assumption].
Qed.

Theorem new_expander_valid : forall scope t r,
  new_expander false (locate scope) t = Ok r -> template_valid scope t.
Proof.
  intros scope t r H. unfold new_expander in H. destruct (has_dollar2 t); [discriminate|].
  bind_inv H as a Ha. destruct (has_skip (template_parts t)) eqn:Es; [discriminate|].
  unfold template_parts in *.
  destruct (tokenize_sound (S (length t)) t ltac:(lia) Es) as [T1 T2].
  destruct (expander_parts_valid scope _ _ T2 Ha) as [sps [F1 F2]].
  exists sps, (map tpart_text (tokenize (S (length t)) t)). auto.
Qed.
