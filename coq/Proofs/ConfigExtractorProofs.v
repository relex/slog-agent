(* Facts about Model/ConfigExtractor.v: building an extractor never panics; an extractor
   accepted with the bounded rule never indexes the nil table, whatever the text. *)
From SV Require Import Model.Common Model.ConfigTemplate Model.ConfigExtractor Model.Config Spec.ConfigSpec
  Proofs.CommonFacts Proofs.ConfigTemplateProofs.
From Coq Require Import Lia ZifyBool ZifyN ZifyNat.
(* ZifyBool sets this hook to its case split on every boolean, which no lia below needs and which is slow; this replaces it *)
Ltac Zify.zify_post_hook ::= Z.div_mod_to_equations.
Open Scope nat_scope.

Lemma np_split_pattern : forall p, np (split_pattern p).
Proof.
  intro p. unfold split_pattern.
  destruct (find_first_unescaped p ch_star 0); [reflexivity|].
  destruct (find_first_unescaped p ch_lbracket 0); [|reflexivity].
  destruct (find_first_unescaped _ ch_rbracket 0); reflexivity.
Qed.

Lemma np_fill_loop : forall e first prev lo rs acc, np (fill_loop e first prev lo rs acc).
Proof.
  induction e as [|c r IH]; intros; simpl; [reflexivity|].
  destruct (c =? ch_minus)%N.
  - destruct rs; [reflexivity|]. destruct (negb first && _); apply IH.
  - destruct rs; apply IH.
Qed.

Lemma np_fill_valid_chars : forall w, np (fill_valid_chars w).
Proof.
  intro w. unfold fill_valid_chars. destruct (unescape_run _) as [|c r]; [reflexivity|].
  destruct (c =? ch_caret)%N; (apply np_bind; [apply np_fill_loop|intros; reflexivity]).
Qed.

Lemma np_new_string_extractor : forall b pos parts maxr, np (new_string_extractor b pos parts maxr).
Proof.
  intros b pos [[l w] r] maxr. unfold new_string_extractor.
  apply np_bind.
  - destruct w as [|c w']; [reflexivity|]. destruct (bytes_eqb _ _); [reflexivity|].
    destruct (_ || _ || _); [reflexivity|]. apply np_bind; [apply np_fill_valid_chars|intros; reflexivity].
  - intros t _. destruct (b && _); reflexivity.
Qed.

Lemma np_new_string_extractor_simple : forall b pos pattern maxr, np (new_string_extractor_simple b pos pattern maxr).
Proof.
  intros. unfold new_string_extractor_simple. apply np_bind; [apply np_split_pattern|intros; apply np_new_string_extractor].
Qed.

Lemma new_string_extractor_safe : forall pos parts maxr ex,
  new_string_extractor true pos parts maxr = Ok ex -> (0 <= maxr)%Z -> extractor_safe ex = true.
Proof.
  intros pos [[l w] r] maxr ex H Hm. unfold new_string_extractor in H.
  bind_inv H as a Ha. simpl in H.
  destruct a as [tb|]; destruct pos; destruct l; destruct r; simpl in H; try discriminate;
    inversion H; subst; unfold extractor_safe; simpl; lia.
Qed.

Lemma new_string_extractor_simple_safe : forall pos pattern maxr ex,
  new_string_extractor_simple true pos pattern maxr = Ok ex -> (0 <= maxr)%Z -> extractor_safe ex = true.
Proof.
  intros pos pattern maxr ex H Hm. unfold new_string_extractor_simple in H. bind_inv H as a Ha.
  eapply new_string_extractor_safe; eassumption.
Qed.

(* the unbounded rule is all that separates the original from the fixed constructor *)
Lemma new_string_extractor_relax : forall pos parts maxr ex,
  new_string_extractor true pos parts maxr = Ok ex -> new_string_extractor false pos parts maxr = Ok ex.
Proof.
  intros pos [[l w] r] maxr ex H. unfold new_string_extractor in *.
  destruct (match w with [] => _ | _ => _ end) as [t|e|s]; simpl in *; try discriminate.
  destruct (match t with None => _ | _ => _ end); simpl in *; [discriminate|assumption].
Qed.

Lemma match_from_start_some : forall s tb pos, yields (match_from_start s (Some tb) pos) (fun _ => True).
Proof. induction s as [|c r IH]; intros tb pos; simpl; [auto|]. destruct (table_get tb c); auto. Qed.

Lemma match_from_end_some : forall s tb, yields (match_from_end s (Some tb)) (fun _ => True).
Proof. intros s tb. unfold match_from_end. eapply yields_bind; [apply match_from_start_some|auto]. Qed.

Lemma window_start_ok : forall s maxr, (0 <= maxr)%Z -> yields (window_start s maxr) (fun _ => True).
Proof.
  intros s maxr H. unfold window_start. destruct (Z.of_nat (length s) >? maxr)%Z eqn:E; [|auto].
  apply slice_z_ok; lia.
Qed.

Lemma start_go_ok : forall text rbound maxr t s, (0 <= maxr)%Z ->
  (t = None -> rbound <> []) -> yields (start_go text rbound maxr t s) (fun _ => True).
Proof.
  intros text rbound maxr t s Hm Ht. unfold start_go. cbv zeta.
  eapply yields_bind with (P := fun _ => True); [destruct s, t; auto|intros fast _].
  destruct fast; [auto|]. destruct rbound as [|rc rr].
  - destruct t as [tb|]; [|exfalso; apply Ht; reflexivity].
    eapply yields_bind; [apply match_from_start_some|intros n _]. destruct (Nat.eqb n 0); auto.
  - eapply yields_bind; [exact (window_start_ok s maxr Hm)|intros w _].
    destruct (index_of w (rc :: rr) 0) as [iend|]; [|auto].
    eapply yields_bind with (P := fun _ => True); [|intros bad _; destruct bad; auto].
    destruct t as [tb|]; [|auto]. eapply yields_bind; [apply match_from_start_some|auto].
Qed.

Lemma end_go_ok : forall text lbound maxr t s, (0 <= maxr)%Z ->
  (t = None -> lbound <> []) -> yields (end_go text lbound maxr t s) (fun _ => True).
Proof.
  intros text lbound maxr t s Hm Ht. unfold end_go. cbv zeta.
  eapply yields_bind with (P := fun _ => True); [destruct (rev s), t; auto|intros fast _].
  destruct fast; [auto|]. destruct lbound as [|lc lr].
  - destruct t as [tb|]; [|exfalso; apply Ht; reflexivity].
    eapply yields_bind; [apply match_from_end_some|intros n _]. destruct (Nat.eqb n (length s)); auto.
  - eapply yields_bind with (P := fun _ => True); [|intros fo _].
    + destruct (Z.of_nat (length s) >? maxr)%Z eqn:E; [|auto].
      eapply yields_bind; [apply slice_z_ok; lia|auto].
    + destruct fo as [iend|]; [|auto].
      eapply yields_bind with (P := fun _ => True); [|intros bad _; destruct bad; auto].
      destruct t as [tb|]; [|auto]. eapply yields_bind; [apply match_from_end_some|auto].
Qed.

Theorem extract_total : forall ex text, extractor_safe ex = true -> yields (extract ex text) (fun _ => True).
Proof.
  intros [pos lb rb maxr t] text H. unfold extractor_safe in H. simpl in H.
  apply andb_true_iff in H. destruct H as [Hm Hb]. apply Z.leb_le in Hm.
  unfold extract. simpl. destruct pos.
  - unfold extract_at_start.
    assert (Ht : t = None -> rb <> []). { intros E. subst. destruct rb; discriminate. }
    destruct lb as [|lc lr]; [apply start_go_ok; assumption|].
    destruct (is_prefix _ _); [apply start_go_ok; assumption|auto].
  - unfold extract_at_end.
    assert (Ht : t = None -> lb <> []). { intros E. subst. destruct lb; discriminate. }
    destruct rb as [|rc rr]; [apply end_go_ok; assumption|].
    destruct (has_suffix _ _); [apply end_go_ok; assumption|auto].
Qed.

Theorem special_pattern_valid_of_ok : forall pos pattern maxr0 ex0,
  new_string_extractor_simple true pos pattern maxr0 = Ok ex0 -> special_pattern_valid pos pattern.
Proof.
  intros pos pattern maxr0 ex0 H maxr Hm.
  unfold new_string_extractor_simple in *. bind_inv H as a Ha.
  destruct a as [[l w] r]. rewrite Ha. simpl.
  (* the range does not influence acceptance *)
  unfold new_string_extractor in *.
  destruct (match w with [] => _ | _ => _ end) as [t|e|s]; simpl in *; try discriminate.
  destruct (match t with None => _ | _ => _ end) eqn:Eu; simpl in *; [discriminate|].
  eexists. split; [reflexivity|]. intro text.
  destruct (extract_total {| ex_pos := pos; ex_left := l; ex_right := r; ex_max := maxr; ex_table := t |} text) as [res [Hres _]].
  - unfold extractor_safe. simpl. apply andb_true_iff. split; [lia|].
    destruct t; destruct pos; destruct l; destruct r; simpl in *; try reflexivity; discriminate.
  - rewrite Hres. reflexivity.
Qed.
