(* The property-level lemmas for C03 and C04, derived from the invariant (Proofs/BufferProofs.v):
   [conservation_lemma], [fifo_lemma], [memory_bound_lemma], [intact_lemma] and the others named [..._lemma].
   At the end the soundness of the replay/acceptor: with [visible] (a run without its hidden events) and
   [ops_events] (the events of a list of observed operations), [accept_sound_lemma] says that what the replayer
   accepts is a run of the LTS whose visible events are exactly the observed operations. *)
From SV Require Import Model.Common Model.FileWrite Model.Buffer Spec.BufferSpec
     Proofs.CommonFacts Proofs.FileWriteProofs Proofs.BufferInv Proofs.BufferProofs.
From Coq Require Import Lia ZifyBool ZifyN ZifyNat Sorting.Sorted.
Ltac Zify.zify_post_hook ::= Z.div_mod_to_equations.

(* Order-preserving selection (Spec.BufferSpec.subseq): the list facts behind the FIFO properties here and the
   consumer's order in Proofs/BufferStartProofs.v. *)
Lemma subseq_refl : forall {A} (l : list A), subseq l l.
Proof. induction l; constructor; assumption. Qed.

Lemma subseq_filter_map : forall {A} (l : list (A * bool)),
  subseq (map fst (filter (fun p => snd p) l)) (map fst l).
Proof.
  induction l as [|[a b] l IH]; cbn [filter map fst snd]; [constructor|].
  destruct b; cbn [map fst]; constructor; exact IH.
Qed.

Lemma subseq_app_r : forall {A} (l1 l2 l3 : list A), subseq l1 l2 -> subseq l1 (l2 ++ l3).
Proof.
  intros A l1 l2 l3 H. induction H; cbn [app].
  - induction l3; constructor; assumption.
  - constructor; assumption.
  - constructor; assumption.
Qed.

Lemma subseq_trans : forall {A} (l2 l3 : list A), subseq l2 l3 -> forall l1, subseq l1 l2 -> subseq l1 l3.
Proof.
  intros A l2 l3 H. induction H as [|x l2 l3 H IH|x l2 l3 H IH]; intros l1 H1.
  - exact H1.
  - apply subseq_skip. apply IH. exact H1.
  - inversion H1; subst.
    + apply subseq_skip. apply IH. assumption.
    + apply subseq_take. apply IH. assumption.
Qed.

Lemma subseq_map : forall {A B} (f : A -> B) (l1 l2 : list A), subseq l1 l2 -> subseq (map f l1) (map f l2).
Proof.
  intros A B f l1 l2 H. induction H; cbn [map].
  - apply subseq_nil.
  - apply subseq_skip. assumption.
  - apply subseq_take. assumption.
Qed.

Lemma subseq_length : forall {A} (l1 l2 : list A), subseq l1 l2 -> (length l1 <= length l2)%nat.
Proof. intros A l1 l2 H. induction H; cbn [length]; lia. Qed.

Lemma subseq_full : forall {A} (l1 l2 : list A), subseq l1 l2 -> length l1 = length l2 -> l1 = l2.
Proof.
  intros A l1 l2 H. induction H as [|x l1 l2 H IH|x l1 l2 H IH]; intros Hl; cbn [length] in Hl.
  - reflexivity.
  - pose proof (subseq_length _ _ H). lia.
  - f_equal. apply IH. lia.
Qed.

Section Theorems.
Variable matchf : name -> bool.
Variable dirsize : Z.
Hypothesis Hmatch : matcher_ok matchf.

Notation reachable := (reachable matchf dirsize).
Notation step := (step matchf dirsize).
Notation run := (run matchf dirsize).

Lemma reachable_good : forall s, reachable s -> Good matchf dirsize s.
Proof.
  intros s (d0 & evs & Hs & Hr). destruct Hmatch as [H1 H2].
  eapply good_run; [exact H1|exact H2|apply good_init; exact Hs|exact Hr].
Qed.

Lemma reachable_inv : forall s, reachable s -> st_up s = true -> Inv matchf dirsize [] s.
Proof. intros s Hr Hup. destruct (reachable_good s Hr) as [_ Hi]. apply Hi. exact Hup. Qed.

Lemma run_app : forall e1 e2 s, run s (e1 ++ e2) = match run s e1 with Some s1 => run s1 e2 | None => None end.
Proof.
  induction e1 as [|e e1 IH]; intros e2 s; cbn [app Buffer.run]; [reflexivity|].
  destruct (step s e); [apply IH|reflexivity].
Qed.

Lemma reachable_step : forall s e s', reachable s -> step s e = Some s' -> reachable s'.
Proof.
  intros s e s' (d0 & evs & Hs & Hr) Hst. exists d0, (evs ++ [e]). split; [exact Hs|].
  rewrite run_app, Hr. cbn [Buffer.run]. rewrite Hst. reflexivity.
Qed.

(* ---------- C03: conservation ---------- *)

(* when Destroy has completed and the consumers have reported every chunk they took *)
Definition settled (s : state) : Prop := st_up s = true /\ st_fpc s = FStopped /\ st_hold s = [].

Lemma conservation_lemma : forall s, reachable s -> settled s ->
  let g := st_gh s in
  (* the three classes partition the chunks that entered: none twice, none missing, none invented *)
  NoDup (g_confirmed g ++ g_retained g ++ g_dropped g) /\
  (forall x, In x (entered g) <-> In x (g_confirmed g ++ g_retained g ++ g_dropped g)) /\
  NoDup (entered g) /\
  (* confirmed: the file is gone *)
  (forall x, In x (g_confirmed g) -> dir_get (st_dir s) x = None) /\
  (* retained: the file holds the original content *)
  (forall x, In x (g_retained g) -> exists e, dir_get (st_dir s) x = Some e /\ is_orig g x e) /\
  (* dropped: every one is counted, and nothing else is *)
  m_dropped (st_met s) = Z.of_nat (length (g_dropped g)) /\
  m_consumed (st_met s) = Z.of_nat (length (g_confirmed g)).
Proof.
  intros s Hr (Hup & Hf & Hh) g. subst g. pose proof (reachable_inv s Hr Hup) as Hinv.
  destruct (i_empty _ _ _ _ Hinv) as [Hq Hw]. specialize (Hw Hf).
  rewrite Hf in Hq. specialize (Hq eq_refl).
  destruct (cnt_eq_nodup (g_confirmed (st_gh s) ++ g_retained (st_gh s) ++ g_dropped (st_gh s)) (entered (st_gh s)))
    as [Hnd Hin]; [|apply (i_nodup _ _ _ _ Hinv)|].
  { intros x. pose proof (i_count _ _ _ _ Hinv x) as Hx. unfold inflight in Hx. rewrite Hq, Hw, Hh, Hf in Hx.
    cbn [hand app ids map] in Hx. rewrite cnt_nil in Hx. rewrite !cnt_app. lia. }
  split; [exact Hnd|]. split; [exact Hin|].
  repeat split; [apply (i_nodup _ _ _ _ Hinv)|apply (i_conf _ _ _ _ Hinv)|apply (i_ret _ _ _ _ Hinv)
                |apply (i_dropped _ _ _ _ Hinv)|apply (i_consumed _ _ _ _ Hinv)].
Qed.

(* at every moment, not only at the end: chunks in flight + the three classes = what entered *)
Lemma accounting_lemma : forall s, reachable s -> st_up s = true ->
  let g := st_gh s in
  NoDup (ids (inflight s) ++ g_confirmed g ++ g_retained g ++ g_dropped g) /\
  (forall x, In x (entered g) <-> In x (ids (inflight s) ++ g_confirmed g ++ g_retained g ++ g_dropped g)).
Proof.
  intros s Hr Hup g. subst g. pose proof (reachable_inv s Hr Hup) as Hinv.
  apply cnt_eq_nodup; [|apply (i_nodup _ _ _ _ Hinv)].
  intros x. pose proof (i_count _ _ _ _ Hinv x) as Hx. rewrite app_nil_r in Hx. rewrite !cnt_app. lia.
Qed.

(* ---------- C03: FIFO ---------- *)
Lemma fifo_lemma : forall s, reachable s -> st_up s = true ->
  let g := st_gh s in
  (* the queue was filled with the recovered chunks (sorted by ID), then the accepted, non-dropped ones in order *)
  g_rec g = ids (firstn (st_Q s) (scan matchf (st_dirok s) (g_init g))) /\
  StronglySorted name_lt (g_rec g) /\
  (* the feeder has worked through a prefix of that sequence ... *)
  (exists rest, g_rec g ++ enq_ids g = map fst (g_proc g) ++ rest) /\
  (* ... and offered all of it to the consumer, in the same order, except what it dropped (and counted) *)
  ids (g_offered g) = offered_ids g /\
  (* byte for byte: what is offered under an ID is the content that entered under that ID *)
  (forall c, In c (g_offered g) -> exists d, c_data c = Some d /\ is_orig g (c_id c) (EFile d)) /\
  (* what the consumers received is an order-preserving selection of what was offered *)
  subseq (taken g) (g_offered g).
Proof.
  intros s Hr Hup g. subst g. pose proof (reachable_inv s Hr Hup) as Hinv. repeat split.
  - apply (i_rec_def _ _ _ _ Hinv).
  - apply (i_recsorted _ _ _ _ Hinv).
  - destruct (i_fifo _ _ _ _ Hinv) as (rest & H1 & _). exists rest. exact H1.
  - apply (i_offered_ids _ _ _ _ Hinv).
  - apply (i_offered_orig _ _ _ _ Hinv).
  - unfold taken. rewrite (i_win _ _ _ _ Hinv). apply subseq_app_r. apply subseq_filter_map.
Qed.

(* while the feeder is in its main loop, nothing queued is skipped: the rest is exactly its hand and the queue *)
Lemma fifo_no_gap_lemma : forall s, reachable s -> st_up s = true -> main_loop (st_fpc s) = true ->
  let g := st_gh s in
  g_rec g ++ enq_ids g = map fst (g_proc g) ++ feeder_ids (st_fpc s) ++ ids (st_queue s).
Proof.
  intros s Hr Hup Hml g. subst g. pose proof (reachable_inv s Hr Hup) as Hinv.
  destruct (i_fifo _ _ _ _ Hinv) as (rest & H1 & H2). rewrite <- (H2 Hml). exact H1.
Qed.

(* ---------- C03: Accept never blocks ---------- *)
Lemma accept_nonblocking_lemma : forall s id data ws,
  st_up s = true -> st_closed s = false -> fresh matchf id s = true ->
  exists s', step s (EAccept id data ws) = Some s'.
Proof.
  intros s id data ws Hup Hcl Hfr. unfold step. rewrite Hup. unfold do_accept. rewrite Hup, Hcl, Hfr.
  cbn [andb negb]. cbv zeta.
  destruct (Nat.leb _ _).
  - destruct (unload _ _ _ _ _ _) as [d m c [|]|d]; eexists; reflexivity.
  - eexists; reflexivity.
Qed.

(* ---------- C03: the window ---------- *)
Lemma window_bound_lemma : forall s, reachable s -> st_up s = true ->
  (length (st_win s) <= st_M s)%nat /\ (length (st_queue s) <= st_Q s)%nat.
Proof.
  intros s Hr Hup. pose proof (reachable_inv s Hr Hup) as Hinv.
  split; [apply (i_winbound _ _ _ _ Hinv)|apply (i_qbound _ _ _ _ Hinv)].
Qed.

(* a chunk accepted while at least half of the window is in use is queued unloaded (its bytes are in
   its file, not in memory) or dropped and counted - or the process died in the write *)
Lemma spill_rule_lemma : forall s id data ws s',
  step s (EAccept id data ws) = Some s' ->
  (st_M s / 2 <= length (st_win s))%nat ->
  st_up s' = false \/
  st_queue s' = st_queue s ++ [{| c_id := id; c_data := None; c_saved := true |}] \/
  (st_queue s' = st_queue s /\ g_dropped (st_gh s') = g_dropped (st_gh s) ++ [id]).
Proof.
  intros s id data ws s' H Hhalf. unfold step in H. destruct (st_up s); [|discriminate].
  unfold do_accept in H. destruct (_ && _ && _); [|discriminate]. cbv zeta in H.
  apply Nat.leb_le in Hhalf. simp_state. rewrite Hhalf in H.
  set (c0 := {| c_id := id; c_data := Some data; c_saved := false |}) in *.
  destruct (unload_cases (st_dirok s) (st_max s) ws (st_dir s) (add_in_p 1 (add_pending 1 (st_met s))) c0)
    as [[Hck Hu]|[[Hck Hu]|(dat & Hck & Hu)]]; rewrite Hu in H; clear Hu.
  - apply unload_check_yes in Hck. discriminate.
  - inversion H; subst s'. right. right. simp_state. split; reflexivity.
  - destruct (unload_write ws (st_dir s) (add_in_p 1 (add_pending 1 (st_met s))) c0 dat) as [d m c' ok|d] eqn:Ew.
    + destruct (unload_write_ret _ _ _ _ _ _ _ _ _ Ew) as (_ & _ & Hyes & Hno). destruct ok.
      * destruct (Hyes eq_refl) as (Hc' & _). subst c'. unfold enqueue in H. simp_state.
        destruct (Nat.ltb _ _); inversion H; subst s'; simp_state.
        -- right. left. reflexivity.
        -- right. right. split; reflexivity.
      * inversion H; subst s'. right. right. simp_state. split; reflexivity.
    + inversion H; subst s'. left. reflexivity.
Qed.

(* ---------- C03: memory ---------- *)
Definition loaded (c : chunk) : bool := match c_data c with Some _ => true | None => false end.
Definition loaded_in_buffer (s : state) : nat :=
  length (filter loaded (st_queue s ++ hand (st_fpc s) ++ st_win s)).

(* what is bounded: the capacities.  Not bounded by the window alone - see the witness in Props/C03.v *)
Lemma memory_bound_lemma : forall s, reachable s -> st_up s = true ->
  (loaded_in_buffer s <= st_Q s + st_M s + 2)%nat.
Proof.
  intros s Hr Hup. destruct (window_bound_lemma s Hr Hup) as [Hw Hq].
  unfold loaded_in_buffer. etransitivity; [apply filter_length_le|].
  rewrite !app_length.
  assert (length (hand (st_fpc s)) <= 2)%nat by (destruct (st_fpc s) as [| | |[?|]|[?|] ?| | | |]; cbn [hand length]; lia).
  lia.
Qed.

(* ---------- C03: space ---------- *)
Lemma space_bound_lemma : forall s, reachable s -> st_up s = true ->
  let g := st_gh s in
  (* the gauge is exactly the size of the files the queue owns (including dropped chunks whose file stays) *)
  m_pbytes (st_met s) = owned_sum dirsize (st_dir s) (entered g) /\
  (* and stays within the limit (or what was found at start-up), plus at most the largest chunk the feeder
     was writing at shutdown while another save went on *)
  (owned_sum dirsize (st_dir s) (entered g) <= Z.max (g_initbytes g) (st_max s) + g_maxfw g)%Z /\
  (0 <= g_maxfw g)%Z.
Proof.
  intros s Hr Hup g. subst g. pose proof (reachable_inv s Hr Hup) as Hinv.
  pose proof (i_space _ _ _ _ Hinv) as Hs. pose proof (i_bound _ _ _ _ Hinv) as [Hb1 Hb2].
  repeat split; [exact Hs|lia|exact Hb2].
Qed.

(* ---------- C04: intact or not at all ---------- *)

(* whatever is offered to a consumer under an ID that was ever given to Accept on this directory - in this or
   in an earlier generation, whatever faults and crashes happened in between - carries exactly the accepted bytes *)
Lemma intact_lemma : forall s, reachable s -> st_up s = true ->
  forall c d, In c (g_offered (st_gh s)) -> In (c_id c, d) (st_ever s) -> c_data c = Some d.
Proof.
  intros s Hr Hup c d Hc Hev. destruct (reachable_good s Hr) as [Hp Hi]. specialize (Hi Hup).
  destruct (i_offered_orig _ _ _ _ Hi c Hc) as (d' & Hd & Ho). rewrite Hd. f_equal.
  destruct Ho as [(d0 & b & Hin & He)|[Hin Hg]].
  - inversion He; subst d0. apply (i_acc_ever _ _ _ _ Hi) in Hin.
    injection (NoDup_map_inj fst _ _ _ (p_ever_nodup _ _ Hp) Hin Hev eq_refl) as ->. reflexivity.
  - pose proof (i_rec_ever _ _ _ _ Hi _ _ _ Hev Hin Hg) as E. inversion E. reflexivity.
Qed.

(* the same for files: under the ID of a chunk ever accepted there is nothing, or the complete chunk *)
Lemma files_intact_lemma : forall s, reachable s ->
  forall x d, In (x, d) (st_ever s) -> dir_get (st_dir s) x = None \/ dir_get (st_dir s) x = Some (EFile d).
Proof. intros s Hr x d Hx. destruct (reachable_good s Hr) as [Hp _]. apply (p_ever_files _ _ Hp). exact Hx. Qed.

(* ---------- C04: a damaged file does not block the others ---------- *)

(* start-up enqueues by name only: contents are not looked at *)
Lemma restart_enqueues_lemma : forall s Q M maxb,
  st_queue (restart matchf dirsize Q M maxb true s) =
  firstn Q (map (fun n => {| c_id := n; c_data := None; c_saved := true |})
                (filter (fun n => negb (name_eqb n id_file_name) && matchf n) (dir_names (st_dir s)))).
Proof. reflexivity. Qed.

(* the feeder is never stuck on the chunk it holds: loading always makes a step, and when the chunk cannot be
   loaded (unreadable, a directory, vanished) or is empty it is dropped and counted, the feeder is back at the
   queue, and queue and window are untouched *)
Lemma damaged_skipped_lemma : forall s c rerr,
  st_up s = true -> st_fpc s = FLoad c ->
  exists s', step s (EFeedLoad rerr) = Some s' /\
    ((exists c', st_fpc s' = FPush c c' /\ c_id c' = c_id c /\ zero_length c' = false) \/
     (st_fpc s' = FRecv /\ st_queue s' = st_queue s /\ st_win s' = st_win s /\
      g_dropped (st_gh s') = g_dropped (st_gh s) ++ [c_id c] /\
      m_dropped (st_met s') = (m_dropped (st_met s) + 1)%Z)).
Proof.
  intros s c rerr Hup Hf. unfold step. rewrite Hup. unfold do_feed_load. rewrite Hf.
  destruct (op_load (st_dirok s) rerr (st_dir s) (st_met s) c) as [[m c'] ok] eqn:El.
  assert (Hm : m_dropped m = m_dropped (st_met s) /\ (ok = true -> c_id c' = c_id c)).
  { unfold op_load in El. destruct (c_data c); [inversion El; subst; split; reflexivity|].
    destruct (negb (c_saved c)); [inversion El; subst; split; [reflexivity|discriminate]|].
    destruct (negb (st_dirok s)); [inversion El; subst; split; [reflexivity|discriminate]|].
    destruct (read_file_at rerr (st_dir s) (c_id c)); inversion El; subst; split; try reflexivity; discriminate. }
  destruct Hm as [Hm Hid]. destruct ok.
  - destruct (zero_length c') eqn:Ez.
    + destruct (op_remove (st_dirok s) (st_dir s) m c') as [d m1] eqn:Er. eexists. split; [reflexivity|]. right.
      assert (m_dropped m1 = m_dropped m).
      { unfold op_remove in Er. destruct (negb (c_saved c')); [inversion Er; reflexivity|].
        destruct (negb (st_dirok s)); [inversion Er; reflexivity|].
        destruct (unlink_file_at (st_dir s) (c_id c')) as [d' [|]]; inversion Er; reflexivity. }
      simp_state. repeat split. lia.
    + eexists. split; [reflexivity|]. left. exists c'. simp_state. repeat split; [apply Hid; reflexivity|exact Ez].
  - eexists. split; [reflexivity|]. right. simp_state. repeat split.
    unfold op_on_dropped. destruct (c_saved c); simp_state; lia.
Qed.

Lemma feeder_takes_lemma : forall s c q,
  st_up s = true -> st_fpc s = FRecv -> st_queue s = c :: q ->
  exists s', step s EFeedTake = Some s' /\ st_fpc s' = FLoad c /\ st_queue s' = q /\ st_win s' = st_win s.
Proof.
  intros s c q Hup Hf Hq. unfold step. rewrite Hup. unfold do_feed_take. rewrite Hf, Hq.
  eexists. split; [reflexivity|]. simp_state. repeat split.
Qed.

Lemma quiesce_sound : forall hold fuel s s', quiesce matchf dirsize hold fuel s = Some s' ->
  exists hidden, Forall (fun e => is_hidden e = true) hidden /\ run s hidden = Some s'.
Proof.
  intros hold. induction fuel as [|fuel IH]; intros s s' H; cbn [quiesce] in H.
  - destruct (stalled hold s); [inversion H; subst; exists []; split; [constructor|reflexivity]|].
    destruct (next_hidden s) as [e|] eqn:En; [discriminate|]. inversion H; subst. exists []. split; [constructor|reflexivity].
  - destruct (stalled hold s); [inversion H; subst; exists []; split; [constructor|reflexivity]|].
    destruct (next_hidden s) as [e|] eqn:En.
    + destruct (step s e) as [s1|] eqn:Es; [|discriminate].
      destruct (IH s1 s' H) as (hid & Hh & Hr). exists (e :: hid). split.
      * constructor; [|exact Hh]. unfold next_hidden in En. destruct (st_up s); [|discriminate].
        destruct (st_fpc s); try discriminate;
          repeat match type of En with
                 | context [match ?x with _ => _ end] => destruct x
                 | context [if ?x then _ else _] => destruct x
                 end; inversion En; reflexivity.
      * cbn [Buffer.run]. rewrite Es. exact Hr.
    + inversion H; subst. exists []. split; [constructor|reflexivity].
Qed.

Definition visible (evs : list event) : list event := filter (fun e => negb (is_hidden e)) evs.

Lemma visible_hidden : forall l, Forall (fun e => is_hidden e = true) l -> visible l = [].
Proof.
  induction l as [|e l IH]; intros H; [reflexivity|]. inversion H; subst. unfold visible. cbn [filter].
  rewrite H2. cbn [negb]. apply IH. assumption.
Qed.

Lemma visible_app : forall a b, visible (a ++ b) = visible a ++ visible b.
Proof. intros. unfold visible. apply filter_app. Qed.

(* the events the observed operations stand for *)
Definition ops_events (ops : list (rop)) : list event := concat (map events_of ops).

(* what the replayer accepts is a run of the LTS whose visible events are exactly the observed operations *)
Lemma accept_sound_lemma : forall ops i hold s h s' h',
  replay matchf dirsize i ops hold s h = inl (s', h') ->
  exists evs, run s evs = Some s' /\ visible evs = ops_events ops.
Proof.
  induction ops as [|o ops IH]; intros i hold s h s' h' H; cbn [replay] in H.
  - inversion H; subst. exists []. split; reflexivity.
  - (* after the operation: the feeder's hidden steps, then the other operations *)
    assert (Hgo : forall s1 hold' h0,
              match quiesce matchf dirsize hold' (quiesce_fuel s1) s1 with
              | None => inr i
              | Some s2 => replay matchf dirsize (S i) ops hold' s2 (fold_left mix (observe s2) h0)
              end = inl (s', h') ->
              exists evs, run s1 evs = Some s' /\ visible evs = ops_events ops).
    { intros s1 hold' h0 Hg. destruct (quiesce matchf dirsize hold' (quiesce_fuel s1) s1) as [s2|] eqn:Eq; [|discriminate].
      destruct (quiesce_sound _ _ _ _ Eq) as (hid & Hh & Hr). destruct (IH _ _ _ _ _ _ Hg) as (evs & Hrun & Hvis).
      exists (hid ++ evs). split; [rewrite run_app, Hr; exact Hrun|rewrite visible_app, (visible_hidden _ Hh); exact Hvis]. }
    unfold ops_events. cbn [map concat]. fold (ops_events ops). destruct o as [e|n Q M maxb| |].
    + destruct (is_hidden e) eqn:Eh; [discriminate|].
      destruct (match hold with Some _ => negb (allowed_while_held matchf e) | None => false end); [discriminate|].
      destruct (step s e) as [s1|] eqn:Es; [|discriminate].
      destruct (Hgo _ _ _ H) as (evs & Hrun & Hvis). exists (e :: evs). split.
      * cbn [Buffer.run]. rewrite Es. exact Hrun.
      * unfold visible in *. cbn [filter events_of app]. rewrite Eh, Hvis. reflexivity.
    + destruct hold; [discriminate|]. destruct (sorts_first matchf n (st_dir s)); [|discriminate].
      destruct (Buffer.run matchf dirsize s (events_of (RHold n Q M maxb))) as [s1|] eqn:Es; [|discriminate].
      destruct (Hgo _ _ _ H) as (evs & Hrun & Hvis). exists (events_of (RHold n Q M maxb) ++ evs). split.
      * rewrite run_app, Es. exact Hrun.
      * rewrite visible_app, Hvis. reflexivity.
    + destruct (stalled hold s); [|discriminate]. exact (Hgo _ _ _ H).
    + destruct hold; [discriminate|]. destruct (st_win s); [|discriminate]. exact (Hgo _ _ _ H).
Qed.

End Theorems.

(* ---------- the matcher of the outputs: strings.HasSuffix(id, ".ff") ---------- *)
Lemma has_suffix_spec : forall sfx s, has_suffix sfx s = true -> exists p, s = p ++ sfx.
Proof.
  intros sfx. induction s as [|a s IH]; intros H; cbn [has_suffix] in H.
  - destruct (bytes_eqb sfx []) eqn:E; [|discriminate]. apply bytes_eqb_eq in E. subst. exists []. reflexivity.
  - destruct (bytes_eqb sfx (a :: s)) eqn:E.
    + apply bytes_eqb_eq in E. subst. exists []. reflexivity.
    + destruct (IH H) as (p & Hp). exists (a :: p). subst. reflexivity.
Qed.

Lemma match_ff_ok : matcher_ok match_ff.
Proof.
  split.
  - intros n _. destruct (match_ff (tmp_name n)) eqn:E; [|reflexivity]. exfalso.
    apply has_suffix_spec in E. destruct E as (p & Hp). unfold tmp_name, tmp_suffix, ff_suffix in Hp.
    apply (f_equal (@rev N)) in Hp. rewrite !rev_app_distr in Hp. cbn [rev app] in Hp. discriminate.
  - reflexivity.
Qed.
