(* C15: the interpreter of the transform language (Model/Transforms.v): composition law,
   switch / if / block, drop sampling, mapValue / delFields / addFields, match operators,
   truncate, unescape, and panic-freedom of well-formed programs. *)
From SV Require Import Model.Common Model.TfUtf8 Model.TfUnescape Model.Template Model.Extractor
     Model.TinyRegex Model.TfDropLong Model.Transforms
     Spec.TfUtf8Spec Spec.TfUnescapeSpec Spec.TransformsSpec
     Proofs.CommonFacts Proofs.TfUtf8Proofs Proofs.TfUnescapeProofs Proofs.TemplateProofs
     Proofs.TfStringFacts Proofs.ExtractorProofs.
From Coq Require Import Lia ZifyBool ZifyN ZifyNat Permutation.
Ltac Zify.zify_post_hook ::= Z.div_mod_to_equations.
Open Scope N_scope.

Scheme tf_ind' := Induction for tf Sort Prop
  with tfs_ind' := Induction for tfs Sort Prop
  with tcases_ind' := Induction for tcases Sort Prop.
Combined Scheme tf_mutind from tf_ind', tfs_ind', tcases_ind'.

Lemma set_nth_length : forall fs loc v, length (set_nth fs loc v) = length fs.
Proof. induction fs as [|x t IH]; intros [|n] v; cbn [set_nth length]; try reflexivity. rewrite IH. reflexivity. Qed.

Lemma get_set_same : forall fs loc v, (loc < length fs)%nat -> get_field (set_nth fs loc v) loc = v.
Proof.
  unfold get_field. induction fs as [|x t IH]; intros [|n] v H; cbn in *; try lia; [reflexivity|]. apply IH. lia.
Qed.

Lemma get_set_other : forall fs loc loc' v, loc <> loc' -> get_field (set_nth fs loc v) loc' = get_field fs loc'.
Proof.
  unfold get_field. induction fs as [|x t IH]; intros [|n] [|n'] v H; cbn; try reflexivity; try congruence.
  apply IH. congruence.
Qed.

Lemma set_nth_out : forall fs loc v, (length fs <= loc)%nat -> set_nth fs loc v = fs.
Proof. induction fs as [|x t IH]; intros [|n] v H; cbn in *; try reflexivity; try lia. f_equal. apply IH. lia. Qed.

Definition getf (r : rec) (loc : nat) : bytes := get_field (r_fields r) loc.
Definition nfields (r : rec) : nat := length (r_fields r).

Lemma getf_set_same : forall r loc v, (loc < nfields r)%nat -> getf (set_field r loc v) loc = v.
Proof. intros. apply get_set_same. assumption. Qed.

Lemma getf_set_other : forall r loc loc' v, loc <> loc' -> getf (set_field r loc v) loc' = getf r loc'.
Proof. intros. apply get_set_other. assumption. Qed.

Lemma nfields_set : forall r loc v, nfields (set_field r loc v) = nfields r.
Proof. intros. apply set_nth_length. Qed.

Lemma rec_eta : forall r, {| r_fields := r_fields r; r_rawlen := r_rawlen r; r_unesc := r_unesc r |} = r.
Proof. intros []. reflexivity. Qed.

Section Laws.
Variable O : oracles.

Lemma index_of_occurs : forall s v,
  match index_of s v with Some _ => true | None => false end = true <-> occurs s v.
Proof.
  intros s v. pose proof (index_of_least s v) as H. destruct (index_of s v) as [i|].
  - split; [intros _|reflexivity]. destruct H as [(a & b & Hab & _) _]. exists a, b. exact Hab.
  - split; [discriminate|]. intros (a & b & Hab). destruct (H (length a)). exists a, b. split; [exact Hab|reflexivity].
Qed.

Lemma match_ops_spec_lemma : forall v,
  (vm_match O VAny v = true <-> v <> []) /\
  (forall s, vm_match O (VEq s) v = true <-> v = s) /\
  (forall s, vm_match O (VNot s) v = true <-> v <> s) /\
  (forall s, vm_match O (VStart s) v = true <-> exists x, v = s ++ x) /\
  (forall s, vm_match O (VEnd s) v = true <-> exists x, v = x ++ s) /\
  (forall s, s <> [] -> (vm_match O (VContain s) v = true <-> exists a b, v = a ++ s ++ b)) /\
  (forall n, vm_match O (VLenGt n) v = true <-> (Z.of_nat (length v) > n)%Z) /\
  (forall n, vm_match O (VLenLt n) v = true <-> (Z.of_nat (length v) < n)%Z) /\
  (forall s, vm_match O (VGlob s) v = o_glob_match O s v) /\
  (forall s, vm_match O (VRegex s) v = o_re_match O s v).
Proof.
  intros v.
  split. { cbn. destruct v; split; try congruence; try discriminate; intros; reflexivity. }
  split. { intros s. cbn [vm_match]. apply bytes_eqb_eq. }
  split. { intros s. cbn [vm_match]. rewrite negb_true_iff, <- not_true_iff_false, bytes_eqb_eq. reflexivity. }
  split. { intros s. cbn [vm_match]. apply is_prefix_iff. }
  split. { intros s. cbn [vm_match]. apply is_suffix_iff. }
  split. { intros s _. apply index_of_occurs. }
  split. { intros n. cbn [vm_match]. lia. }
  split. { intros n. cbn [vm_match]. lia. }
  split; intros s; reflexivity.
Qed.

(* a matcher is the conjunction of its field matches *)
Lemma matches_forall : forall m fields,
  matches O m fields = true <-> Forall (fun lv => vm_match O (snd lv) (get_field fields (fst lv)) = true) m.
Proof.
  induction m as [|[loc v] m IH]; intros fields; cbn [matches].
  - split; [constructor|reflexivity].
  - destruct (vm_match O v (get_field fields loc)) eqn:E.
    + rewrite IH. split; [intros H; constructor; [exact E|exact H]|intros H; inversion H; assumption].
    + split; [discriminate|]. intros H. inversion H; subst. cbn in *. congruence.
Qed.

(* the order of the field matches (NewMatcher sorts them by cost) is irrelevant *)
Lemma matches_perm : forall m m' fields, Permutation m m' -> matches O m fields = matches O m' fields.
Proof.
  intros m m' fields Hp. apply Bool.eq_true_iff_eq. rewrite !matches_forall.
  split; apply Permutation_Forall; [|apply Permutation_sym]; exact Hp.
Qed.

End Laws.

Section Control.
Variable O : oracles.

Fixpoint tapp (a b : tfs) : tfs :=
  match a with TNil => b | TCons t a' => TCons t (tapp a' b) end.

Fixpoint kapp (a b : tcases) : tcases :=
  match a with KNil => b | KCons m th a' => KCons m th (kapp a' b) end.

Lemma run_tfs_nil : forall cs r, run_tfs O TNil cs r = Ok (TNil, cs, r, true).
Proof. reflexivity. Qed.

Lemma run_tfs_cons : forall t ts cs r,
  run_tfs O (TCons t ts) cs r =
  match run_tf O t cs r with
  | Ok (t', cs', r', true) =>
    match run_tfs O ts cs' r' with
    | Ok (ts'', cs'', r'', b) => Ok (TCons t' ts'', cs'', r'', b)
    | Err e => Err e
    | Panic s => Panic s
    end
  | Ok (t', cs', r', false) => Ok (TCons t' ts, cs', r', false)
  | Err e => Err e
  | Panic s => Panic s
  end.
Proof. reflexivity. Qed.

Lemma run_cases_nil : forall cs r, run_cases O KNil cs r = Ok (KNil, cs, r, true).
Proof. reflexivity. Qed.

Lemma run_cases_cons : forall m th ks cs r,
  run_cases O (KCons m th ks) cs r =
  if matches O m (r_fields r) then
    match run_tfs O th cs r with
    | Ok (th', cs', r', b) => Ok (KCons m th' ks, cs', r', b)
    | Err e => Err e
    | Panic s => Panic s
    end
  else
    match run_cases O ks cs r with
    | Ok (ks'', cs', r', b) => Ok (KCons m th ks'', cs', r', b)
    | Err e => Err e
    | Panic s => Panic s
    end.
Proof. reflexivity. Qed.

Lemma run_tf_switch : forall ks cs r,
  run_tf O (TSwitch ks) cs r =
  match run_cases O ks cs r with
  | Ok (ks', cs', r', b) => Ok (TSwitch ks', cs', r', b)
  | Err e => Err e
  | Panic s => Panic s
  end.
Proof. reflexivity. Qed.

Lemma run_tf_drop : forall m rate label matched dropped cs r,
  run_tf O (TDrop m rate label matched dropped) cs r =
  if matches O m (r_fields r) then
    let '(t', cs', b) := run_drop_matched m rate label matched dropped cs (r_rawlen r) in Ok (t', cs', r, b)
  else Ok (TDrop m rate label matched dropped, cs, r, true).
Proof. reflexivity. Qed.

(* running a b = running a, then b on its result unless a dropped the record *)
Lemma run_app_lemma : forall a b cs r,
  run_tfs O (tapp a b) cs r =
  match run_tfs O a cs r with
  | Ok (a', cs', r', true) =>
    match run_tfs O b cs' r' with
    | Ok (b', cs'', r'', p) => Ok (tapp a' b', cs'', r'', p)
    | Err e => Err e
    | Panic s => Panic s
    end
  | Ok (a', cs', r', false) => Ok (tapp a' b, cs', r', false)
  | Err e => Err e
  | Panic s => Panic s
  end.
Proof.
  induction a as [|t a IH]; intros b cs r.
  - cbn [tapp]. rewrite run_tfs_nil. destruct (run_tfs O b cs r) as [[[[b' cs'] r'] p]| |]; reflexivity.
  - cbn [tapp]. rewrite !run_tfs_cons. destruct (run_tf O t cs r) as [[[[t' cs'] r'] [|]]| |]; try reflexivity.
    rewrite IH. destruct (run_tfs O a cs' r') as [[[[a' cs''] r''] [|]]| |]; try reflexivity.
    destruct (run_tfs O b cs'' r'') as [[[[b' cs3] r3] p]| |]; reflexivity.
Qed.

(* RunTransforms: the first DROP wins — the steps after it are not run (their state is unchanged) *)
Lemma first_drop_wins_lemma : forall t ts cs r t' cs' r',
  run_tf O t cs r = Ok (t', cs', r', false) ->
  run_tfs O (TCons t ts) cs r = Ok (TCons t' ts, cs', r', false).
Proof. intros. rewrite run_tfs_cons. rewrite H. reflexivity. Qed.

Fixpoint none_match (ks : tcases) (fields : list bytes) : Prop :=
  match ks with
  | KNil => True
  | KCons m _ ks' => matches O m fields = false /\ none_match ks' fields
  end.

(* switch: the first case whose matcher holds is run, and only that one *)
Lemma switch_first_match_lemma : forall pre m th post cs r,
  none_match pre (r_fields r) -> matches O m (r_fields r) = true ->
  run_tf O (TSwitch (kapp pre (KCons m th post))) cs r =
  match run_tfs O th cs r with
  | Ok (th', cs', r', b) => Ok (TSwitch (kapp pre (KCons m th' post)), cs', r', b)
  | Err e => Err e
  | Panic s => Panic s
  end.
Proof.
  intros pre m th post cs r Hpre Hm. rewrite run_tf_switch.
  assert (H : run_cases O (kapp pre (KCons m th post)) cs r =
              match run_tfs O th cs r with
              | Ok (th', cs', r', b) => Ok (kapp pre (KCons m th' post), cs', r', b)
              | Err e => Err e
              | Panic s => Panic s
              end).
  { induction pre as [|m0 th0 pre IH]; cbn [kapp]; rewrite run_cases_cons.
    - rewrite Hm. reflexivity.
    - destruct Hpre as [H0 Hpre]. rewrite H0. rewrite (IH Hpre).
      destruct (run_tfs O th cs r) as [[[[th' cs'] r'] b]| |]; reflexivity. }
  rewrite H. destruct (run_tfs O th cs r) as [[[[th' cs'] r'] b]| |]; reflexivity.
Qed.

(* switch: no case matches -> PASS, nothing changes *)
Lemma switch_no_match_lemma : forall ks cs r,
  none_match ks (r_fields r) -> run_tf O (TSwitch ks) cs r = Ok (TSwitch ks, cs, r, true).
Proof.
  intros ks cs r H. rewrite run_tf_switch.
  assert (Hc : run_cases O ks cs r = Ok (ks, cs, r, true)).
  { induction ks as [|m th ks IH]; [reflexivity|]. rewrite run_cases_cons.
    destruct H as [H0 H]. rewrite H0, (IH H). reflexivity. }
  rewrite Hc. reflexivity.
Qed.

Lemma if_spec_lemma : forall m th cs r,
  run_tf O (TIf m th) cs r =
  if matches O m (r_fields r) then
    match run_tfs O th cs r with
    | Ok (th', cs', r', b) => Ok (TIf m th', cs', r', b)
    | Err e => Err e
    | Panic s => Panic s
    end
  else Ok (TIf m th, cs, r, true).
Proof. reflexivity. Qed.

Lemma block_spec_lemma : forall b cs r,
  run_tf O (TBlock b) cs r =
  match run_tfs O b cs r with
  | Ok (b', cs', r', p) => Ok (TBlock b', cs', r', p)
  | Err e => Err e
  | Panic s => Panic s
  end.
Proof. reflexivity. Qed.

(* block steps = the same steps inlined in the surrounding list *)
Lemma block_inline_lemma : forall b ts cs r,
  match run_tfs O (TCons (TBlock b) ts) cs r, run_tfs O (tapp b ts) cs r with
  | Ok (_, cs1, r1, p1), Ok (_, cs2, r2, p2) => cs1 = cs2 /\ r1 = r2 /\ p1 = p2
  | Err e1, Err e2 => e1 = e2
  | Panic s1, Panic s2 => s1 = s2
  | _, _ => False
  end.
Proof.
  intros b ts cs r. rewrite run_app_lemma. rewrite run_tfs_cons, block_spec_lemma.
  destruct (run_tfs O b cs r) as [[[[b' cs'] r'] [|]]| |]; try reflexivity; [|repeat split].
  destruct (run_tfs O ts cs' r') as [[[[ts' cs''] r''] p]| |]; try reflexivity. repeat split.
Qed.

Definition dev (rate matched dropped : Z) : Z := (100 * dropped - rate * matched)%Z.

(* the invariant of every sampled drop node: |100*dropped - rate*matched| < 100 *)
Definition drop_ok (rate matched dropped : Z) : Prop :=
  rate = 100%Z \/ ((1 <= rate <= 99)%Z /\ (0 <= dropped <= matched)%Z /\ (-100 < dev rate matched dropped < 100)%Z).

(* the integer division of the code decides "dropped so far is below rate % of matched so far" *)
Lemma drop_decide_eq : forall rate matched dropped,
  drop_decide rate matched dropped = ((0 <? matched) && (100 * dropped <? rate * matched))%Z.
Proof.
  intros rate m d. unfold drop_decide. destruct (Z.ltb_spec 0 m) as [Hpos|Hle].
  - replace (m >? 0)%Z with true by lia. cbn [andb].
    destruct (Z.ltb_spec (100 * d / m) rate), (Z.ltb_spec (100 * d) (rate * m)); try reflexivity; exfalso.
    + pose proof (Z.div_le_lower_bound (100 * d) m rate Hpos). lia.
    + pose proof (Z.div_lt_upper_bound (100 * d) m rate Hpos). lia.
  - replace (m >? 0)%Z with false by lia. reflexivity.
Qed.

(* one matched record through a sampled drop: b = the record passes *)
Lemma drop_step : forall m rate label matched dropped cs rawlen,
  drop_ok rate matched dropped -> rate <> 100%Z ->
  exists b : bool,
    run_drop_matched m rate label matched dropped cs rawlen =
      (TDrop m rate label (matched + 1)%Z (dropped + (if b then 0 else 1))%Z,
       cnt_add cs (if b then 33 :: label else label) 1%Z rawlen, b) /\
    drop_ok rate (matched + 1) (dropped + (if b then 0 else 1)).
Proof.
  intros m rate label matched dropped cs rawlen [->|(Hr & Hd & Hv)] Hn; [congruence|].
  unfold run_drop_matched, drop_ok, dev in *. replace (rate =? 100)%Z with false by lia.
  change ((matched >? 0) && (100 * dropped / matched <? rate))%Z with (drop_decide rate matched dropped).
  rewrite drop_decide_eq.
  destruct ((0 <? matched) && (100 * dropped <? rate * matched))%Z eqn:E; [exists false|exists true; rewrite Z.add_0_r];
    (split; [reflexivity|right; lia]).
Qed.

Fixpoint dinv_tf (t : tf) : Prop :=
  match t with
  | TIf _ th => dinv_tfs th
  | TSwitch ks => dinv_cases ks
  | TBlock b => dinv_tfs b
  | TDrop _ rate _ matched dropped => drop_ok rate matched dropped
  | _ => True
  end
with dinv_tfs (ts : tfs) : Prop :=
  match ts with TNil => True | TCons t ts' => dinv_tf t /\ dinv_tfs ts' end
with dinv_cases (ks : tcases) : Prop :=
  match ks with KNil => True | KCons _ th ks' => dinv_tfs th /\ dinv_cases ks' end.

Lemma drop_ok_step : forall m rate label matched dropped cs rawlen t' cs' b,
  drop_ok rate matched dropped ->
  run_drop_matched m rate label matched dropped cs rawlen = (t', cs', b) -> dinv_tf t'.
Proof.
  intros m rate label matched dropped cs rawlen t' cs' b Hok H. destruct (Z.eq_dec rate 100) as [->|Hn].
  - inversion H; subst. exact Hok.
  - destruct (drop_step m rate label matched dropped cs rawlen Hok Hn) as (b0 & Heq & Hok').
    rewrite Heq in H. inversion H; subst. exact Hok'.
Qed.

End Control.

Section DropStream.
Variable O : oracles.

Definition is_drop (x : rec_result) : bool := match x with RDrop _ => true | _ => false end.
Definition count_matched (m : matcher) (rs : list rec) : Z :=
  Z.of_nat (length (filter (fun r => matches O m (r_fields r)) rs)).
Definition count_dropped (out : list rec_result) : Z := Z.of_nat (length (filter is_drop out)).

Lemma count_matched_cons : forall m r rs,
  count_matched m (r :: rs) = ((if matches O m (r_fields r) then 1 else 0) + count_matched m rs)%Z.
Proof. intros. unfold count_matched. cbn [filter]. destruct (matches O m (r_fields r)); cbn [length]; lia. Qed.

Lemma count_dropped_cons : forall (b : bool) r out,
  count_dropped ((if b then RPass r else RDrop r) :: out) = ((if b then 0 else 1) + count_dropped out)%Z.
Proof. intros. unfold count_dropped. cbn [filter]. destruct b; cbn [is_drop length]; lia. Qed.

Lemma drop_node_step : forall m rate label matched dropped cs r,
  drop_ok rate matched dropped -> rate <> 100%Z ->
  exists cs' (b : bool),
    let matched' := (matched + (if matches O m (r_fields r) then 1 else 0))%Z in
    let dropped' := (dropped + (if b then 0 else 1))%Z in
    run_tfs O (TCons (TDrop m rate label matched dropped) TNil) cs r =
      Ok (TCons (TDrop m rate label matched' dropped') TNil, cs', r, b) /\
    drop_ok rate matched' dropped'.
Proof.
  intros m rate label matched dropped cs r Hok Hn.
  rewrite run_tfs_cons, run_tf_drop. destruct (matches O m (r_fields r)).
  - destruct (drop_step m rate label matched dropped cs (r_rawlen r) Hok Hn) as (b & Heq & Hok').
    rewrite Heq. exists (cnt_add cs (if b then 33 :: label else label) 1%Z (r_rawlen r)), b.
    split; [destruct b; reflexivity|exact Hok'].
  - exists cs, true. cbv zeta. rewrite !Z.add_0_r. split; [reflexivity|exact Hok].
Qed.

(* the node's counters are the counts of the stream so far, so its invariant speaks of every prefix *)
Lemma drop_stream_prefix : forall m rate label rs k matched dropped cs out cs',
  drop_ok rate matched dropped -> rate <> 100%Z ->
  run_records O (TCons (TDrop m rate label matched dropped) TNil) cs rs = (out, cs') ->
  length out = length rs /\
  drop_ok rate (matched + count_matched m (firstn k rs)) (dropped + count_dropped (firstn k out)).
Proof.
  intros m rate label. induction rs as [|r rs IH]; intros k matched dropped cs out cs' Hok Hn H.
  - inversion H; subst. rewrite !firstn_nil, !Z.add_0_r. split; [reflexivity|exact Hok].
  - cbn [run_records] in H.
    destruct (drop_node_step m rate label matched dropped cs r Hok Hn) as (cs1 & b & Heq & Hok'). rewrite Heq in H.
    destruct (run_records O _ cs1 rs) as [out1 cs2] eqn:E. inversion H; subst out cs'. clear H.
    destruct (IH (pred k) _ _ cs1 out1 cs2 Hok' Hn E) as (Hl & Hk). split; [cbn [length]; lia|].
    destruct k as [|k]; [rewrite !Z.add_0_r; exact Hok|].
    cbn [firstn]. rewrite count_matched_cons, count_dropped_cons, !Z.add_assoc. exact Hk.
Qed.

(* rate 100 drops every matched record *)
Lemma drop_all_lemma : forall m label matched dropped cs r,
  run_tf O (TDrop m 100%Z label matched dropped) cs r =
  if matches O m (r_fields r)
  then Ok (TDrop m 100%Z label matched dropped, cnt_add cs label 1%Z (r_rawlen r), r, false)
  else Ok (TDrop m 100%Z label matched dropped, cs, r, true).
Proof. intros. rewrite run_tf_drop. destruct (matches O m (r_fields r)); reflexivity. Qed.

End DropStream.

Lemma mapvalue_spec_lemma : forall loc m d r, (loc < nfields r)%nat ->
  let r' := run_mapvalue loc m d r in
  nfields r' = nfields r /\ r_unesc r' = r_unesc r /\ r_rawlen r' = r_rawlen r /\
  (forall j, j <> loc -> getf r' j = getf r j) /\
  (getf r loc = [] -> r' = r) /\
  (getf r loc <> [] -> getf r' loc = match assoc m (getf r loc) with Some v => v | None => d end).
Proof.
  intros loc m d r Hloc. unfold run_mapvalue. fold (getf r loc).
  destruct (getf r loc) as [|c v] eqn:E.
  - repeat split; try reflexivity; intros; congruence.
  - split; [apply nfields_set|]. split; [reflexivity|]. split; [reflexivity|]. split.
    + intros j Hj. apply getf_set_other. congruence.
    + split; [discriminate|]. intros _. apply getf_set_same. assumption.
Qed.

Lemma delfields_spec_lemma : forall locs r,
  let r' := run_delfields locs r in
  nfields r' = nfields r /\ r_unesc r' = r_unesc r /\ r_rawlen r' = r_rawlen r /\
  forall j, (j < nfields r)%nat -> getf r' j = if existsb (Nat.eqb j) locs then [] else getf r j.
Proof.
  induction locs as [|l locs IH]; intros r; cbn [run_delfields existsb].
  - repeat split; reflexivity.
  - destruct (IH (set_field r l [])) as (Hn & Hu & Hl & Hf). rewrite nfields_set in *.
    split; [assumption|]. split; [assumption|]. split; [assumption|].
    intros j Hj. rewrite (Hf j Hj). destruct (Nat.eqb j l) eqn:E; cbn [orb].
    + apply Nat.eqb_eq in E. subst. destruct (existsb (Nat.eqb l) locs); [reflexivity|]. apply getf_set_same. assumption.
    + apply Nat.eqb_neq in E. destruct (existsb (Nat.eqb j) locs); [reflexivity|]. apply getf_set_other. congruence.
Qed.

(* one field of addFields: an empty expansion leaves the field alone *)
Lemma addfields_one_lemma : forall dst tpl r, (dst < nfields r)%nat ->
  exists v, expand (r_fields r) tpl = Ok v /\
    run_addfields [(dst, tpl)] r = Ok (match v with [] => r | _ => set_field r dst v end) /\
    (v = [] -> run_addfields [(dst, tpl)] r = Ok r) /\
    (v <> [] -> exists r', run_addfields [(dst, tpl)] r = Ok r' /\ getf r' dst = v /\
                  nfields r' = nfields r /\ forall j, j <> dst -> getf r' j = getf r j).
Proof.
  intros dst tpl r Hd. destruct (expand_no_panic (r_fields r) tpl) as [v Hv]. exists v.
  split; [assumption|]. cbn [run_addfields]. rewrite Hv. cbn [obind]. split; [reflexivity|]. split.
  - intros ->. reflexivity.
  - intros Hne. destruct v as [|c v]; [congruence|]. eexists. split; [reflexivity|].
    split; [apply getf_set_same; assumption|]. split; [apply nfields_set|].
    intros j Hj. apply getf_set_other. congruence.
Qed.

Lemma addfields_no_panic : forall pairs r, exists r', run_addfields pairs r = Ok r' /\ nfields r' = nfields r.
Proof.
  induction pairs as [|[dst tpl] ps IH]; intros r; [exists r; split; reflexivity|].
  cbn [run_addfields]. destruct (expand_no_panic (r_fields r) tpl) as [v Hv]. rewrite Hv. cbn [obind].
  destruct (IH (match v with [] => r | _ :: _ => set_field r dst v end)) as (r' & Hr' & Hn).
  exists r'. split; [assumption|]. rewrite Hn. destruct v; [reflexivity|apply nfields_set].
Qed.

(* a list of fields = one field after the other *)
Lemma addfields_seq_lemma : forall p ps r,
  run_addfields (p :: ps) r = match run_addfields [p] r with Ok r1 => run_addfields ps r1 | Err e => Err e | Panic s => Panic s end.
Proof.
  intros [dst tpl] ps r. cbn [run_addfields]. destruct (expand (r_fields r) tpl); reflexivity.
Qed.

(* the fields a template reads *)
Definition part_reads (loc : nat) (p : part) : bool :=
  match p with PLit _ => false | PVar l => Nat.eqb l loc | PSlice l _ _ => Nat.eqb l loc end.
Definition tpl_reads (loc : nat) (tpl : list part) : bool := existsb (part_reads loc) tpl.

Lemma part_value_indep : forall fields dst v p, part_reads dst p = false ->
  part_value (set_nth fields dst v) p = part_value fields p.
Proof.
  intros fields dst v p H. destruct p as [s|l|l a b]; cbn in *; [reflexivity| |];
    apply Nat.eqb_neq in H; rewrite get_set_other by congruence; reflexivity.
Qed.

Lemma expand_all_indep : forall fields dst v tpl, tpl_reads dst tpl = false ->
  expand_all (set_nth fields dst v) tpl = expand_all fields tpl.
Proof.
  intros fields dst v. induction tpl as [|p tpl IH]; intros H; [reflexivity|].
  cbn [tpl_reads existsb] in H. apply orb_false_iff in H. destruct H as [Hp Ht].
  cbn [expand_all]. rewrite part_value_indep by assumption. rewrite IH by assumption. reflexivity.
Qed.

Lemma set_nth_comm : forall fs a b va vb, a <> b ->
  set_nth (set_nth fs a va) b vb = set_nth (set_nth fs b vb) a va.
Proof.
  induction fs as [|x t IH]; intros [|a] [|b] va vb H; cbn; try reflexivity; try congruence.
  f_equal. apply IH. congruence.
Qed.

(* two fields whose templates do not read each other's destination commute *)
Lemma addfields_swap_lemma : forall d1 t1 d2 t2 ps r, d1 <> d2 ->
  tpl_reads d1 t2 = false -> tpl_reads d2 t1 = false ->
  run_addfields ((d1, t1) :: (d2, t2) :: ps) r = run_addfields ((d2, t2) :: (d1, t1) :: ps) r.
Proof.
  intros d1 t1 d2 t2 ps r Hd H12 H21. cbn [run_addfields]. rewrite !expand_eq_all.
  destruct (expand_all_no_panic (r_fields r) t1) as [v1 Hv1].
  destruct (expand_all_no_panic (r_fields r) t2) as [v2 Hv2].
  rewrite Hv1, Hv2. cbn [obind].
  destruct v1 as [|c1 v1]; destruct v2 as [|c2 v2]; rewrite ?expand_eq_all; cbn [set_field r_fields];
    rewrite ?expand_all_indep by assumption; rewrite ?Hv1, ?Hv2; cbn [obind]; try reflexivity.
  unfold set_field. cbn [r_fields r_rawlen r_unesc]. rewrite set_nth_comm by assumption. reflexivity.
Qed.

Lemma go_slice_prefix : forall (v : bytes) n, (0 <= n <= Z.of_nat (length v))%Z ->
  go_slice v 0 n = Ok (firstn (Z.to_nat n) v).
Proof.
  intros v n H. unfold go_slice.
  replace ((0 <=? 0) && (0 <=? n) && (n <=? Z.of_nat (length v)))%Z%bool with true by lia.
  cbn [Z.to_nat skipn]. rewrite Z.sub_0_r. reflexivity.
Qed.

(* the value truncate writes: CleanUTF8 of the first maxlen bytes, then the suffix *)
Lemma truncate_value : forall loc maxlen suffix r, (0 <= maxlen)%Z ->
  (Z.of_nat (length (getf r loc)) > maxlen + Z.of_nat (length suffix))%Z ->
  exists p, clean_utf8 (firstn (Z.to_nat maxlen) (getf r loc)) = Ok p /\
            run_truncate loc maxlen suffix r = Ok (set_field r loc (p ++ suffix)).
Proof.
  intros loc maxlen suffix r Hm Hlen. unfold run_truncate. fold (getf r loc).
  set (v := getf r loc) in *.
  replace (Z.of_nat (length v) >? maxlen + Z.of_nat (length suffix))%Z with true by lia.
  replace (maxlen <? 0)%Z with false by lia.
  destruct (clean_utf8_never_panics (firstn (Z.to_nat maxlen) v)) as [p Hp].
  exists p. split; [assumption|]. rewrite Hp. reflexivity.
Qed.

Lemma truncate_spec_lemma : forall loc maxlen suffix r, (0 < maxlen)%Z ->
  let v := getf r loc in
  ((Z.of_nat (length v) <= maxlen + Z.of_nat (length suffix))%Z -> run_truncate loc maxlen suffix r = Ok r) /\
  ((Z.of_nat (length v) > maxlen + Z.of_nat (length suffix))%Z ->
   exists p, run_truncate loc maxlen suffix r = Ok (set_field r loc (p ++ suffix)) /\
     (Z.of_nat (length p) <= maxlen)%Z /\
     (* p = an untouched prefix of v up to its last ASCII byte, then a well-formed non-ASCII run *)
     (exists head tail, p = head ++ tail /\ is_prefix_of head v /\ valid_utf8 tail /\
                        Forall (fun b => 128 <= b) tail /\ (head = [] \/ exists h b, head = h ++ [b] /\ b <= 127)) /\
     (* on valid UTF-8 the result is a prefix of v cut at a rune boundary, at most 3 bytes short *)
     (valid_utf8 v -> is_prefix_of p v /\ valid_utf8 p /\ (maxlen - 3 <= Z.of_nat (length p))%Z /\
        forall q, is_prefix_of q v -> valid_utf8 q -> (Z.of_nat (length q) <= maxlen)%Z -> (length q <= length p)%nat)).
Proof.
  intros loc maxlen suffix r Hm v. split.
  - intros Hle. unfold run_truncate. fold (getf r loc). fold v.
    replace (Z.of_nat (length v) >? maxlen + Z.of_nat (length suffix))%Z with false by lia. reflexivity.
  - intros Hgt. destruct (truncate_value loc maxlen suffix r ltac:(lia) Hgt) as (p & Hp & Hrun). fold v in Hp.
    exists p. split; [assumption|].
    pose proof (clean_utf8_length _ _ Hp) as Hpl. rewrite firstn_length in Hpl. split; [lia|]. split.
    + destruct (clean_utf8_shape _ _ Hp) as (head & tail & Heq & Hpre & Hval & Hhigh & Hhead).
      exists head, tail. split; [assumption|]. split; [|tauto].
      destruct Hpre as [x Hx]. exists (x ++ skipn (Z.to_nat maxlen) v).
      rewrite <- (firstn_skipn (Z.to_nat maxlen) v) at 1. rewrite Hx, <- app_assoc. reflexivity.
    + intros Hv. destruct (valid_cut v Hv (Z.to_nat maxlen)) as (w & rr & Hcut & Hw & Hrr & Hrl).
      rewrite Hcut in Hp. rewrite (clean_valid_incomplete w rr Hw Hrr) in Hp. inversion Hp; subst p.
      split; [|split; [assumption|split]].
      * exists (rr ++ skipn (Z.to_nat maxlen) v). rewrite <- (firstn_skipn (Z.to_nat maxlen) v) at 1.
        rewrite Hcut, <- app_assoc. reflexivity.
      * apply (f_equal (@length N)) in Hcut. rewrite firstn_length, app_length in Hcut. lia.
      * intros q [x Hx] Hq Hql. apply (longest_valid_prefix w rr q Hw Hrr); [|assumption].
        rewrite <- Hcut. exists (firstn (Z.to_nat maxlen - length q) x).
        rewrite Hx, firstn_app. rewrite firstn_all2 by lia. reflexivity.
Qed.

Lemma unescape_transform_lemma : forall loc r, (loc < nfields r)%nat ->
  (r_unesc r = true -> run_unescape loc r = Ok r) /\
  (r_unesc r = false ->
   exists r', run_unescape loc r = Ok r' /\ r_unesc r' = true /\ r_rawlen r' = r_rawlen r /\
     nfields r' = nfields r /\
     getf r' loc = unesc_ref 92 (u_map syslog_unescaper) (getf r loc) /\
     (forall j, j <> loc -> getf r' j = getf r j) /\
     (length (getf r' loc) <= length (getf r loc))%nat).
Proof.
  intros loc r Hloc. unfold run_unescape. split; [intros ->; reflexivity|]. intros ->.
  cbn [r_fields]. fold (getf r loc). set (v := getf r loc) in *.
  set (r1 := {| r_fields := r_fields r; r_rawlen := r_rawlen r; r_unesc := true |}).
  assert (Hr1 : forall j, getf r1 j = getf r j) by reflexivity.
  pose proof (unesc_ref_length 92 (u_map syslog_unescaper) v) as Hlen.
  destruct v as [|c v'] eqn:Ev.
  - exists r1. repeat split; try reflexivity.
    + rewrite Hr1. fold v. rewrite Ev. reflexivity.
    + rewrite Hr1. fold v. rewrite Ev. cbn. lia.
  - rewrite <- Ev in *. destruct (index_byte v (u_esc syslog_unescaper)) as [first|] eqn:Ei.
    + rewrite (run_from_first_spec syslog_unescaper v first Ei).
      exists (set_field r1 loc (unesc_ref (u_esc syslog_unescaper) (u_map syslog_unescaper) v)).
      split; [reflexivity|]. split; [reflexivity|]. split; [reflexivity|]. split; [rewrite nfields_set; reflexivity|].
      split; [apply getf_set_same; exact Hloc|]. split.
      * intros j Hj. rewrite getf_set_other by congruence. apply Hr1.
      * rewrite getf_set_same by exact Hloc. exact Hlen.
    + exists r1. repeat split; try reflexivity.
      rewrite Hr1. fold v. symmetry. apply unesc_ref_no_esc_all. apply index_byte_none. assumption.
Qed.

Lemma extractre_loop_skip : forall l locs' a b idx v r0, (a < 0 \/ b < 0)%Z ->
  run_extractre_loop (Some l :: locs') ((a, b) :: idx) v r0 = run_extractre_loop locs' idx v r0.
Proof.
  intros l locs' a b idx v r0 H. cbn [run_extractre_loop].
  replace ((a <? 0) || (b <? 0))%Z%bool with true by lia. reflexivity.
Qed.

Lemma extractre_loop_set : forall l locs' a b idx (v : bytes) r0, (0 <= a <= b)%Z -> (b <= Z.of_nat (length v))%Z ->
  run_extractre_loop (Some l :: locs') ((a, b) :: idx) v r0 =
  run_extractre_loop locs' idx v (set_field r0 l (firstn (Z.to_nat (b - a)) (skipn (Z.to_nat a) v))).
Proof.
  intros l locs' a b idx v r0 H1 H2. cbn [run_extractre_loop].
  replace ((a <? 0) || (b <? 0))%Z%bool with false by lia. unfold go_slice.
  replace ((0 <=? a) && (a <=? b) && (b <=? Z.of_nat (length v)))%Z%bool with true by lia. reflexivity.
Qed.

Section NoPanic.
Variable O : oracles.

(* what the regexp oracle must deliver for the extract plumbing: one index pair per
   subexpression, each either "no match" (negative) or a range inside the value *)
Definition find_sane (pat : bytes) (nlocs : nat) : Prop :=
  forall v idx, o_re_find O pat v = Some idx ->
    length idx = nlocs /\
    Forall (fun ab => (fst ab < 0 \/ snd ab < 0)%Z \/ (0 <= fst ab <= snd ab /\ snd ab <= Z.of_nat (length v))%Z) idx.

Definition wf_extractor (ex : extractor) : Prop :=
  (0 <= ex_max ex)%Z /\
  (if ex_head ex then ex_right ex <> [] \/ ex_table ex <> None else ex_left ex <> [] \/ ex_table ex <> None).

Fixpoint wf_tf (t : tf) : Prop :=
  match t with
  | TIf _ th => wf_tfs th
  | TSwitch ks => wf_cases ks
  | TBlock b => wf_tfs b
  | TExtractSp ex _ _ => wf_extractor ex
  | TTruncate _ maxlen _ => (0 <= maxlen)%Z
  | TExtractRe _ pat locs => find_sane pat (length locs)
  | _ => True
  end
with wf_tfs (ts : tfs) : Prop :=
  match ts with TNil => True | TCons t ts' => wf_tf t /\ wf_tfs ts' end
with wf_cases (ks : tcases) : Prop :=
  match ks with KNil => True | KCons _ th ks' => wf_tfs th /\ wf_cases ks' end.

Lemma truncate_no_panic : forall loc maxlen suffix r, (0 <= maxlen)%Z ->
  exists r', run_truncate loc maxlen suffix r = Ok r'.
Proof.
  intros loc maxlen suffix r Hm.
  destruct (Z.of_nat (length (getf r loc)) >? maxlen + Z.of_nat (length suffix))%Z eqn:E.
  - destruct (truncate_value loc maxlen suffix r Hm ltac:(lia)) as (p & _ & H). eexists. exact H.
  - unfold run_truncate. fold (getf r loc). rewrite E. eexists. reflexivity.
Qed.

Lemma unescape_no_panic : forall loc r, exists r', run_unescape loc r = Ok r'.
Proof.
  intros loc r. unfold run_unescape. destruct (r_unesc r); [eexists; reflexivity|].
  cbn [r_fields]. destruct (get_field (r_fields r) loc) as [|c v] eqn:Ev; [eexists; reflexivity|].
  destruct (index_byte (c :: v) (u_esc syslog_unescaper)) as [first|] eqn:Ei; [|eexists; reflexivity].
  rewrite (run_from_first_spec syslog_unescaper (c :: v) first Ei). eexists. reflexivity.
Qed.

Lemma extractsp_no_panic : forall ex src dst r, wf_extractor ex -> exists r', run_extractsp ex src dst r = Ok r'.
Proof.
  intros ex src dst r [Hm Hb]. unfold run_extractsp.
  destruct (get_field (r_fields r) src) as [|c v]; [eexists; reflexivity|].
  destruct (extract_no_panic ex (c :: v) Hm Hb) as [[e rem] Hp]. rewrite Hp. cbn [obind].
  destruct (length rem =? length (c :: v))%nat; eexists; reflexivity.
Qed.

Lemma extractre_loop_no_panic : forall locs idx value r,
  length idx = length locs ->
  Forall (fun ab => (fst ab < 0 \/ snd ab < 0)%Z \/ (0 <= fst ab <= snd ab /\ snd ab <= Z.of_nat (length value))%Z) idx ->
  exists r', run_extractre_loop locs idx value r = Ok r'.
Proof.
  induction locs as [|l locs IH]; intros idx value r Hl Hs; [eexists; reflexivity|].
  destruct idx as [|[a b] idx]; [discriminate|]. inversion Hs as [|? ? Hab Hs']; subst. cbn [fst snd] in Hab.
  injection Hl as Hl. destruct l as [loc|]; [|apply IH; assumption].
  destruct Hab as [Hab|[Hab1 Hab2]]; [rewrite extractre_loop_skip by assumption|rewrite extractre_loop_set by assumption];
    apply IH; assumption.
Qed.

(* one run keeps the drop invariant and well-formedness of the program, and fails only on an ill-formed one *)
Definition preserved {T : Type} (dinv wf : T -> Prop) (t : T) (o : outcome (T * counters * rec * bool)) : Prop :=
  match o with Ok (t', _, _, _) => (dinv t -> dinv t') /\ (wf t -> wf t') | _ => ~ wf t end.

Lemma preserved_lift : forall t cs o, (wf_tf t -> exists r', o = Ok r') -> preserved dinv_tf wf_tf t (lift t cs o).
Proof. intros t cs [r'| |] H; cbn; [tauto| |]; intros Hw; destruct (H Hw); discriminate. Qed.

Lemma preserved_ok : forall T dinv wf (t : T) o, preserved dinv wf t o -> wf t ->
  exists t' cs' r' b, o = Ok (t', cs', r', b) /\ wf t'.
Proof. intros T dinv wf t [[[[t' cs'] r'] b]| |] H Hw; cbn in H; [|tauto..]. exists t', cs', r', b. tauto. Qed.

Lemma run_preserves :
  (forall t cs r, preserved dinv_tf wf_tf t (run_tf O t cs r)) /\
  (forall ts cs r, preserved dinv_tfs wf_tfs ts (run_tfs O ts cs r)) /\
  (forall ks cs r, preserved dinv_cases wf_cases ks (run_cases O ks cs r)).
Proof.
  apply tf_mutind.
  - intros pairs cs r. apply preserved_lift. intros _. destruct (addfields_no_panic pairs r) as (r' & H & _). eauto.
  - intros locs cs r. cbn. tauto.
  - intros loc m d cs r. cbn. tauto.
  - intros m th IH cs r. rewrite if_spec_lemma. destruct (matches O m (r_fields r)); [|cbn; tauto].
    specialize (IH cs r). destruct (run_tfs O th cs r) as [[[[th' cs'] r'] b]| |]; exact IH.
  - intros ks IH cs r. rewrite run_tf_switch.
    specialize (IH cs r). destruct (run_cases O ks cs r) as [[[[ks' cs'] r'] b]| |]; exact IH.
  - intros bl IH cs r. rewrite block_spec_lemma.
    specialize (IH cs r). destruct (run_tfs O bl cs r) as [[[[b' cs'] r'] b]| |]; exact IH.
  - intros m rate label matched dropped cs r. rewrite run_tf_drop. destruct (matches O m (r_fields r)); [|cbn; tauto].
    pose proof (drop_ok_step m rate label matched dropped cs (r_rawlen r)) as Hd. unfold run_drop_matched in *.
    destruct (rate =? 100)%Z; [|destruct (_ && _)%bool]; (split; [intros H; exact (Hd _ _ _ H eq_refl)|trivial]).
  - intros ex src dst cs r. apply preserved_lift, extractsp_no_panic.
  - intros loc maxlen suffix cs r. apply preserved_lift, truncate_no_panic.
  - intros loc cs r. apply preserved_lift. intros _. apply unescape_no_panic.
  - intros loc pat repl cs r. cbn. tauto.
  - intros loc pat locs cs r. apply preserved_lift. intros Hw. unfold run_extractre.
    destruct (o_re_find O pat (get_field (r_fields r) loc)) as [idx|] eqn:E; [|eexists; reflexivity].
    destruct (Hw _ _ E). apply extractre_loop_no_panic; assumption.
  - intros cs r. cbn. tauto.
  - intros t IHt ts IHts cs r. rewrite run_tfs_cons. specialize (IHt cs r).
    destruct (run_tf O t cs r) as [[[[t' cs'] r'] [|]]| |]; [specialize (IHts cs' r')| | |]; unfold preserved in *;
      try destruct (run_tfs O ts cs' r') as [[[[ts' cs''] r''] b]| |]; cbn; tauto.
  - intros cs r. cbn. tauto.
  - intros m th IHth ks IHks cs r. rewrite run_cases_cons. destruct (matches O m (r_fields r)).
    + specialize (IHth cs r). unfold preserved in *. destruct (run_tfs O th cs r) as [[[[th' cs'] r'] b]| |]; cbn; tauto.
    + specialize (IHks cs r). unfold preserved in *. destruct (run_cases O ks cs r) as [[[[ks' cs'] r'] b]| |]; cbn; tauto.
Qed.

Lemma no_panic_lemma :
  (forall t, wf_tf t -> forall cs r, exists t' cs' r' b, run_tf O t cs r = Ok (t', cs', r', b) /\ wf_tf t') /\
  (forall ts, wf_tfs ts -> forall cs r, exists ts' cs' r' b, run_tfs O ts cs r = Ok (ts', cs', r', b) /\ wf_tfs ts') /\
  (forall ks, wf_cases ks -> forall cs r, exists ks' cs' r' b, run_cases O ks cs r = Ok (ks', cs', r', b) /\ wf_cases ks').
Proof.
  destruct run_preserves as (Ht & Hts & Hks).
  repeat split; intros x Hw cs r; eapply preserved_ok; eauto.
Qed.

(* hence a whole stream of records through one instance never panics *)
Lemma run_records_no_panic : forall rs ts cs, wf_tfs ts ->
  Forall (fun x => x <> RPanic) (fst (run_records O ts cs rs)) /\
  length (fst (run_records O ts cs rs)) = length rs.
Proof.
  induction rs as [|r rs IH]; intros ts cs Hw; [split; [constructor|reflexivity]|].
  cbn [run_records]. destruct (proj1 (proj2 no_panic_lemma) ts Hw cs r) as (ts' & cs' & r' & b & H & Hw').
  rewrite H. destruct (run_records O ts' cs' rs) as [out cs''] eqn:E.
  specialize (IH ts' cs' Hw'). rewrite E in IH. cbn [fst] in *. destruct IH as [IH1 IH2].
  split; [constructor; [destruct b; discriminate|assumption]|cbn [length]; lia].
Qed.

End NoPanic.

Section DropProgram.
Variable O : oracles.

(* the successive states of one transform instance fed with a stream *)
Fixpoint run_states (ts : tfs) (cs : counters) (rs : list rec) : list tfs :=
  match rs with
  | [] => []
  | r :: rs' =>
    match run_tfs O ts cs r with
    | Ok (ts', cs', _, _) => ts' :: run_states ts' cs' rs'
    | _ => []
    end
  end.

Lemma dinv_stream : forall rs ts cs, dinv_tfs ts -> Forall dinv_tfs (run_states ts cs rs).
Proof.
  induction rs as [|r rs IH]; intros ts cs H; [constructor|].
  cbn [run_states]. pose proof (proj1 (proj2 (run_preserves O)) ts cs r) as Hp.
  destruct (run_tfs O ts cs r) as [[[[ts' cs'] r'] b]| |]; try constructor; [|apply IH]; apply Hp, H.
Qed.

(* a freshly constructed drop (counters 0/0, percentage accepted by VerifyConfig) satisfies it *)
Lemma drop_fresh_lemma : forall m rate label, (1 <= rate <= 100)%Z -> dinv_tf (TDrop m rate label 0 0).
Proof.
  intros m rate label H. cbn. unfold drop_ok, dev.
  destruct (Z.eq_dec rate 100); [left; assumption|right; lia].
Qed.

(* the invariant is the bound of the property: within one record (100 percent-points) of the rate *)
Lemma drop_ok_bound : forall rate matched dropped, drop_ok rate matched dropped -> rate <> 100%Z ->
  (Z.abs (100 * dropped - rate * matched) <= 100)%Z.
Proof. intros rate matched dropped [->|(Hr & Hd & Hv)] Hn; [congruence|]. unfold dev in Hv. lia. Qed.

End DropProgram.

Lemma drop_sampling_within_one_lemma : forall O m rate label rs k cs out cs',
  (1 <= rate <= 99)%Z ->
  run_records O (TCons (TDrop m rate label 0 0) TNil) cs rs = (out, cs') ->
  length out = length rs /\
  (Z.abs (100 * count_dropped (firstn k out) - rate * count_matched O m (firstn k rs)) <= 100)%Z /\
  (0 <= count_dropped (firstn k out) <= count_matched O m (firstn k rs))%Z.
Proof.
  intros O m rate label rs k cs out cs' Hr H.
  destruct (drop_stream_prefix O m rate label rs k 0%Z 0%Z cs out cs'
              (drop_fresh_lemma m rate label ltac:(lia)) ltac:(lia) H) as (Hl & [Hc|(_ & Hd & Hv)]); [lia|].
  unfold dev in Hv. rewrite !Z.add_0_l in *. split; [exact Hl|]. split; [lia|exact Hd].
Qed.

Definition ex_schema : list bytes := [[108;111;103]; [97;117;120]].
Definition ex_items : list item := [ILit [120;61]; IBrace [108;111;103] (Some ([45;51], [45;49])); IVar [97;117;120]].
Definition ex_fields : list bytes := [[53;54;55;56;57]; [33]].

Lemma example_items_ok : items_ok ex_items.
Proof.
  unfold ex_items. cbn.
  assert (Hw : forall n, Forall (fun c => (97 <= c <= 122)%N) n -> Forall word_char n).
  { intros n H. eapply Forall_impl; [|exact H]. intros c Hc. cbv beta in Hc. unfold word_char. lia. }
  repeat split; try discriminate; try exact I.
  - repeat constructor; lia.
  - apply Hw. repeat constructor; lia.
  - apply BT_neg. repeat constructor; unfold digit_byte; lia.
  - apply BT_neg. repeat constructor; unfold digit_byte; lia.
  - apply Hw. repeat constructor; lia.
Qed.

(* "x=${log[-3:-1]}$aux" on log=56789, aux=! gives "x=78!"; "[Foo ] - msg" with pattern \[*\] - gives (Foo, msg);
   a 60 % drop passes, drops, drops, passes, drops, passes, drops, drops, passes, drops (the unit test's sequence) *)
Lemma example_values :
  new_expander ex_schema (render_items ex_items) = Ok [PLit [120;61]; PSlice 0 (-3) (-1); PVar 1] /\
  expand ex_fields [PLit [120;61]; PSlice 0 (-3) (-1); PVar 1] = Ok [120;61;55;56;33] /\
  head_match [91] [93;32;45;32] 100 None [91;70;111;111;32;93;32;45;32;109;115;103] [70;111;111;32] [109;115;103] /\
  extract_at_start [91;70;111;111;32;93;32;45;32;109;115;103] [91] [93;32;45;32] 100 None = Ok ([70;111;111], [109;115;103]) /\
  map is_drop (fst (run_records tiny_oracles (TCons (TDrop [] 60 [108] 0 0) TNil) []
         (repeat {| r_fields := []; r_rawlen := 10; r_unesc := false |} 10))) =
    [false; true; true; false; true; false; true; true; false; true].
Proof.
  split; [vm_compute; reflexivity|]. split; [vm_compute; reflexivity|]. split.
  - apply (HM_bounded [91] [93;32;45;32] 100 None [91;70;111;111;32;93;32;45;32;109;115;103] [70;111;111;32] [109;115;103]); try discriminate; try reflexivity; try exact I.
    + apply index_of_iff. vm_compute. reflexivity.
    + left. cbn. lia.
  - split; vm_compute; reflexivity.
Qed.

Lemma replace_spec_lemma : forall O loc pat repl r, (loc < nfields r)%nat ->
  let r' := run_replace O loc pat repl r in
  (getf r loc = [] -> r' = r) /\
  (getf r loc <> [] -> getf r' loc = o_re_replace O pat repl (getf r loc)) /\
  (forall j, j <> loc -> getf r' j = getf r j) /\ nfields r' = nfields r.
Proof.
  intros O loc pat repl r Hloc. unfold run_replace. fold (getf r loc).
  destruct (getf r loc) as [|c v] eqn:E.
  - repeat split; try reflexivity; intros; congruence.
  - split; [discriminate|]. split; [intros _; apply getf_set_same; assumption|].
    split; [intros j Hj; apply getf_set_other; congruence|apply nfields_set].
Qed.

(* extract: no match -> nothing changes; a named group that took part sets its field to the
   matched substring, an unnamed or absent group is skipped *)
Lemma extractre_spec_lemma : forall O loc pat locs r,
  (o_re_find O pat (getf r loc) = None -> run_extractre O loc pat locs r = Ok r) /\
  (forall idx, o_re_find O pat (getf r loc) = Some idx ->
     run_extractre O loc pat locs r = run_extractre_loop locs idx (getf r loc) r) /\
  (forall locs' idx v r0, run_extractre_loop (None :: locs') idx v r0 = run_extractre_loop locs' (tl idx) v r0) /\
  (forall l locs' a b idx v r0, (a < 0 \/ b < 0)%Z ->
     run_extractre_loop (Some l :: locs') ((a, b) :: idx) v r0 = run_extractre_loop locs' idx v r0) /\
  (forall l locs' a b idx (v : bytes) r0, (0 <= a <= b)%Z -> (b <= Z.of_nat (length v))%Z ->
     run_extractre_loop (Some l :: locs') ((a, b) :: idx) v r0 =
     run_extractre_loop locs' idx v (set_field r0 l (firstn (Z.to_nat (b - a)) (skipn (Z.to_nat a) v)))).
Proof.
  intros O loc pat locs r. unfold run_extractre. fold (getf r loc). split; [intros ->; reflexivity|].
  split; [intros idx ->; reflexivity|]. split; [reflexivity|]. split; [apply extractre_loop_skip|apply extractre_loop_set].
Qed.

Lemma bytes_cmp_eq : forall a b, bytes_cmp a b = Eq <-> a = b.
Proof.
  induction a as [|x a IH]; intros [|y b]; cbn [bytes_cmp]; split; intro H; try reflexivity; try discriminate.
  - destruct (x ?= y) eqn:E; try discriminate. apply N.compare_eq_iff in E. apply IH in H. subst. reflexivity.
  - inversion H; subst. rewrite N.compare_refl. apply IH. reflexivity.
Qed.

(* what a label has accumulated (count, length) *)
Fixpoint cnt_sum (cs : counters) (label : bytes) : Z * Z :=
  match cs with
  | [] => (0, 0)%Z
  | (l, (c, n)) :: cs' =>
    let (c', n') := cnt_sum cs' label in
    if bytes_eqb l label then (c + c', n + n')%Z else (c', n')
  end.

Lemma cnt_sum_add : forall cs label dc dl q,
  cnt_sum (cnt_add cs label dc dl) q =
  (let (c, n) := cnt_sum cs q in if bytes_eqb label q then (c + dc, n + dl)%Z else (c, n)).
Proof.
  induction cs as [|[l [c n]] cs IH]; intros label dc dl q.
  - cbn [cnt_add cnt_sum]. destruct (bytes_eqb label q); f_equal; lia.
  - cbn [cnt_add]. destruct (bytes_cmp label l) eqn:E.
    + apply bytes_cmp_eq in E. subst l. cbn [cnt_sum]. destruct (cnt_sum cs q) as [c' n'].
      destruct (bytes_eqb label q); [f_equal; lia|reflexivity].
    + cbn [cnt_sum]. destruct (cnt_sum cs q) as [c' n'].
      destruct (bytes_eqb label q); destruct (bytes_eqb l q); f_equal; lia.
    + cbn [cnt_sum]. rewrite IH. destruct (cnt_sum cs q) as [c' n'].
      destruct (bytes_eqb label q); destruct (bytes_eqb l q); f_equal; lia.
Qed.

(* a matched record adds (1, RawLength) to the dropped label or to "!"+label, never to both, and
   to nothing else; which one says whether the record passed *)
Lemma drop_accounting_lemma : forall m rate label matched dropped cs rawlen t' cs' b,
  run_drop_matched m rate label matched dropped cs rawlen = (t', cs', b) ->
  let hit := if b then 33 :: label else label in
  forall q, cnt_sum cs' q =
    (let (c, n) := cnt_sum cs q in if bytes_eqb hit q then (c + 1, n + rawlen)%Z else (c, n)).
Proof.
  intros m rate label matched dropped cs rawlen t' cs' b H hit q. unfold run_drop_matched in H.
  destruct (rate =? 100)%Z; [|destruct ((matched >? 0) && (100 * dropped / matched <? rate))%Z];
    inversion H; subst; unfold hit; apply cnt_sum_add.
Qed.

(* two fields of one addFields do not interfere: different destinations, neither template reads the other's *)
Definition fields_indep (p q : nat * list part) : Prop :=
  p = q \/ (fst p <> fst q /\ tpl_reads (fst p) (snd q) = false /\ tpl_reads (fst q) (snd p) = false).

Definition all_indep (ps : list (nat * list part)) : Prop :=
  forall p q, In p ps -> In q ps -> fields_indep p q.

Lemma all_indep_tail : forall p ps, all_indep (p :: ps) -> all_indep ps.
Proof. intros p ps H a b Ha Hb. apply H; right; assumption. Qed.

Lemma all_indep_perm : forall ps ps', Permutation ps ps' -> all_indep ps -> all_indep ps'.
Proof.
  intros ps ps' Hp H a b Ha Hb. apply H; eapply Permutation_in; try eassumption; apply Permutation_sym; assumption.
Qed.

(* the order of the fields of one addFields is irrelevant when they do not interfere *)
Lemma addfields_perm_lemma : forall ps ps', Permutation ps ps' -> all_indep ps ->
  forall r, run_addfields ps r = run_addfields ps' r.
Proof.
  intros ps ps' Hp. induction Hp as [|x l l' Hp IH|x y l|l l' l'' Hp1 IH1 Hp2 IH2]; intros Hind r.
  - reflexivity.
  - rewrite (addfields_seq_lemma x l), (addfields_seq_lemma x l').
    destruct (run_addfields [x] r); try reflexivity. apply IH. eapply all_indep_tail. eassumption.
  - destruct x as [d1 t1], y as [d2 t2].
    destruct (Hind (d2, t2) (d1, t1) ltac:(left; reflexivity) ltac:(right; left; reflexivity)) as [Heq|(Hd & H1 & H2)].
    + inversion Heq; subst. reflexivity.
    + cbn [fst snd] in *. apply addfields_swap_lemma; assumption.
  - rewrite IH1 by assumption. apply IH2. eapply all_indep_perm; eassumption.
Qed.

Lemma insert_pair_perm : forall p l, Permutation (insert_pair p l) (p :: l).
Proof.
  intros p. induction l as [|q l IH]; cbn [insert_pair]; [apply Permutation_refl|].
  destruct (bytes_cmp (fst p) (fst q)); try apply Permutation_refl.
  eapply Permutation_trans; [apply perm_skip; exact IH|apply perm_swap].
Qed.

(* the order in which the loader visits the fields is a permutation of the configured one *)
Lemma sort_pairs_perm : forall l, Permutation (sort_pairs l) l.
Proof.
  induction l as [|p l IH]; [apply Permutation_refl|]. unfold sort_pairs in *. cbn [fold_right].
  eapply Permutation_trans; [apply insert_pair_perm|apply perm_skip; exact IH].
Qed.
