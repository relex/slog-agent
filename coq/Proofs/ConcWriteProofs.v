(* Proofs about concurrent writers of one queue directory (Model/ConcWrite.v): the invariant [cw_inv] of every
   interleaving ([cw_inv_step]) gives that under every schedule each target holds its old content or the complete
   data ([conc_writers_intact_lemma]) and, once its writer has made all its steps, the complete data
   ([conc_writers_complete_lemma]).  The variant in which the writers share one temporary name is refuted by a
   schedule of two writers ([shared_tmp_refuted_lemma]; [own_tmp_witness_lemma] is the same schedule with own
   names). *)
From SV Require Import Model.Common Model.FileWrite Model.ConcWrite Spec.BufferSpec Proofs.CommonFacts Proofs.FileWriteProofs.
From Coq Require Import Lia.

(* What is required of the jobs and of the temporary-name function: an ID stands for one chunk; the temporary
   name is injective on the IDs; no temporary name is an ID. *)
Definition jobs_ok (tmpf : name -> name) (js : list job) : Prop :=
  (forall n d1 d2, In (n, d1) js -> In (n, d2) js -> d1 = d2) /\
  (forall n m d1 d2, In (n, d1) js -> In (m, d2) js -> tmpf n = tmpf m -> n = m) /\
  (forall n m d1 d2, In (n, d1) js -> In (m, d2) js -> tmpf n <> m).

(* no sub-directory in the way under the IDs and their temporary names *)
Definition no_dirs (tmpf : name -> name) (js : list job) (d : dirT) : Prop :=
  forall n data, In (n, data) js -> is_dir (dir_get d n) = false /\ is_dir (dir_get d (tmpf n)) = false.

(* the invariant of every interleaving *)
Definition cw_inv (tmpf : name -> name) (js : list job) (d0 : dirT) (st : dirT * pcs) : Prop :=
  let (d, p) := st in
  forall n data, In (n, data) js ->
    is_dir (dir_get d n) = false /\ is_dir (dir_get d (tmpf n)) = false /\
    (p n = 0 \/ p n = 1 \/ p n = 2 \/ p n = 3 \/ p n = 4)%nat /\
    (p n = 1%nat -> dir_get d (tmpf n) = Some (EFile [])) /\
    (p n = 2%nat \/ p n = 3%nat -> dir_get d (tmpf n) = Some (EFile data)) /\
    (p n = 4%nat -> dir_get d n = Some (EFile data)) /\
    (dir_get d n = dir_get d0 n \/ dir_get d n = Some (EFile data)).

Lemma overlay_nil : forall data, overlay data [] = data.
Proof. intros data. unfold overlay. rewrite skipn_nil. apply app_nil_r. Qed.

Lemma pc_set_same : forall p n v, pc_set p n v n = v.
Proof. intros. unfold pc_set. rewrite name_eqb_refl. reflexivity. Qed.

Lemma pc_set_other : forall p n v m, m <> n -> pc_set p n v m = p m.
Proof.
  intros p n v m H. unfold pc_set. destruct (name_eqb m n) eqn:E; [|reflexivity].
  apply name_eqb_eq in E. contradiction.
Qed.

Lemma is_dir_file : forall c, is_dir (Some (EFile c)) = false.
Proof. reflexivity. Qed.

Ltac fin := repeat split; auto; try lia.

Lemma cw_inv_init : forall tmpf js d0, no_dirs tmpf js d0 -> cw_inv tmpf js d0 (d0, pc0).
Proof.
  intros tmpf js d0 Hnd n data Hin. destruct (Hnd n data Hin) as [A B].
  unfold pc0. fin.
Qed.

(* one system call of the job (m, dm) keeps the invariant *)
Lemma cw_inv_step : forall tmpf js d0, jobs_ok tmpf js ->
  forall st m dm, In (m, dm) js -> cw_inv tmpf js d0 st -> cw_inv tmpf js d0 (cw_step tmpf (m, dm) st).
Proof.
  intros tmpf js d0 (Hfun & Hinj & Hdisj) [d p] m dm Hm Hinv.
  destruct (Hinv m dm Hm) as (Mnd & Mtd & Mpc & M1 & M23 & M4 & Mfin).
  assert (Htm : tmpf m <> m) by (eapply Hdisj; eassumption).
  (* the other jobs: neither their ID nor their temporary name is touched *)
  assert (Hother : forall n data, In (n, data) js -> n <> m ->
            n <> tmpf m /\ tmpf n <> tmpf m /\ tmpf n <> m).
  { intros n data Hin Hne. split; [|split].
    - intros E. eapply (Hdisj m n); eauto.
    - intros E. apply Hne. eapply Hinj; eauto.
    - eapply Hdisj; eauto. }
  destruct (cw_step tmpf (m, dm) (d, p)) as [d' p'] eqn:Est. intros n data Hin.
  destruct (Hinv n data Hin) as (Nnd & Ntd & Npc & N1 & N23 & N4 & Nfin).
  (* what the call does: open, write, close, rename, or nothing *)
  unfold cw_step in Est.
  destruct Mpc as [P|[P|[P|[P|P]]]]; rewrite P in Est;
    try rewrite Mtd in Est; try rewrite (M1 P), overlay_nil in Est; try rewrite (M23 (or_intror P)), Mnd in Est;
    inversion Est; subst d' p'; clear Est;
    (destruct (name_eqb n m) eqn:E;
     [ apply name_eqb_eq in E; subst n; assert (data = dm) by (eapply Hfun; eauto); subst data;
       rewrite ?pc_set_same, ?dir_get_set_same, ?(dir_get_set_other _ (tmpf m) _ m), ?(dir_get_set_other _ m _ (tmpf m)), ?dir_get_del_same by auto
     | apply name_eqb_neq in E; destruct (Hother n data Hin E) as (O1 & O2 & O3);
       rewrite ?pc_set_other, ?dir_get_set_other, ?dir_get_del_other by auto ]);
    fin.
Qed.

Lemma cw_inv_run : forall tmpf js d0, jobs_ok tmpf js ->
  forall sched, (forall j, In j sched -> In j js) ->
  forall st, cw_inv tmpf js d0 st -> cw_inv tmpf js d0 (cw_run tmpf sched st).
Proof.
  intros tmpf js d0 Hok sched. induction sched as [|[m dm] rest IH]; intros Hs st Hinv; [exact Hinv|].
  cbn [cw_run]. apply IH.
  - intros j Hj. apply Hs. right. exact Hj.
  - apply cw_inv_step; auto. apply Hs. left. reflexivity.
Qed.

(* MAIN: any number of concurrent writes with distinct IDs, any interleaving of their system calls, at any moment
   (complete or not): under every chunk's ID there is what was there before or exactly that chunk's bytes; a write
   that has finished has succeeded and its file holds exactly its chunk's bytes; no write fails. *)
Lemma conc_writers_intact_lemma :
  forall tmpf js d0, jobs_ok tmpf js -> no_dirs tmpf js d0 ->
  forall sched, (forall j, In j sched -> In j js) ->
  forall d p, cw_run tmpf sched (d0, pc0) = (d, p) ->
  forall n data, In (n, data) js ->
    (dir_get d n = dir_get d0 n \/ dir_get d n = Some (EFile data)) /\
    (p n = 4%nat -> dir_get d n = Some (EFile data)) /\
    p n <> 9%nat.
Proof.
  intros tmpf js d0 Hok Hnd sched Hs d p Hrun n data Hin.
  pose proof (cw_inv_run tmpf js d0 Hok sched Hs (d0, pc0) (cw_inv_init tmpf js d0 Hnd)) as H.
  rewrite Hrun in H. destruct (H n data Hin) as (_ & _ & Hpc & _ & _ & H4 & Hfin).
  split; [exact Hfin|]. split; [exact H4|]. lia.
Qed.

(* how often the job with ID n is scheduled *)
Definition occ (n : name) (sched : list job) : nat :=
  length (filter (fun j : job => name_eqb (fst j) n) sched).

Lemma cw_step_pc : forall tmpf js d0 st m dm, In (m, dm) js -> cw_inv tmpf js d0 st ->
  snd (cw_step tmpf (m, dm) st) m = Nat.min 4 (S (snd st m)) /\
  forall n, n <> m -> snd (cw_step tmpf (m, dm) st) n = snd st n.
Proof.
  intros tmpf js d0 [d p] m dm Hm Hinv.
  destruct (Hinv m dm Hm) as (Mnd & Mtd & Mpc & M1 & M23 & M4 & Mfin).
  unfold cw_step.
  destruct Mpc as [P|[P|[P|[P|P]]]]; rewrite P;
    try rewrite Mtd; try rewrite (M1 P); try rewrite (M23 (or_intror P)), Mnd; cbn [snd];
    rewrite ?pc_set_same, ?P; (split; [reflexivity|intros n Hn; try apply pc_set_other; auto]).
Qed.

Lemma cw_run_pc : forall tmpf js d0, jobs_ok tmpf js ->
  forall sched, (forall j, In j sched -> In j js) ->
  forall st, cw_inv tmpf js d0 st ->
  forall n data, In (n, data) js ->
  snd (cw_run tmpf sched st) n = Nat.min 4 (snd st n + occ n sched).
Proof.
  intros tmpf js d0 Hok sched. induction sched as [|[m dm] rest IH]; intros Hs st Hinv n data Hin.
  - destruct st as [d p]. destruct (Hinv n data Hin) as (_ & _ & Hpc & _). cbn [cw_run snd]. unfold occ. cbn [filter length].
    destruct Hpc as [P|[P|[P|[P|P]]]]; rewrite P; reflexivity.
  - cbn [cw_run].
    assert (Hm : In (m, dm) js) by (apply Hs; left; reflexivity).
    pose proof (cw_inv_step tmpf js d0 Hok st m dm Hm Hinv) as Hinv'.
    rewrite (IH (fun j Hj => Hs j (or_intror Hj)) _ Hinv' n data Hin).
    destruct (cw_step_pc tmpf js d0 st m dm Hm Hinv) as [Hsame Hoth].
    unfold occ. cbn [filter fst]. destruct (name_eqb m n) eqn:E.
    + apply name_eqb_eq in E. subst m. rewrite Hsame. cbn [length]. lia.
    + apply name_eqb_neq in E. rewrite Hoth by auto. reflexivity.
Qed.

(* every write that was given its four steps is complete, has succeeded, and its file holds its own bytes *)
Lemma conc_writers_complete_lemma :
  forall tmpf js d0, jobs_ok tmpf js -> no_dirs tmpf js d0 ->
  forall sched, (forall j, In j sched -> In j js) ->
  forall d p, cw_run tmpf sched (d0, pc0) = (d, p) ->
  forall n data, In (n, data) js -> (4 <= occ n sched)%nat ->
  p n = 4%nat /\ dir_get d n = Some (EFile data).
Proof.
  intros tmpf js d0 Hok Hnd sched Hs d p Hrun n data Hin Hocc.
  pose proof (cw_run_pc tmpf js d0 Hok sched Hs (d0, pc0) (cw_inv_init tmpf js d0 Hnd) n data Hin) as Hp.
  rewrite Hrun in Hp. cbn [snd] in Hp. unfold pc0 in Hp.
  assert (P4 : p n = 4%nat) by lia. split; [exact P4|].
  destruct (conc_writers_intact_lemma tmpf js d0 Hok Hnd sched Hs d p Hrun n data Hin) as (_ & H4 & _). auto.
Qed.

(* the temporary names of the tree: id ++ ".tmp", for IDs accepted by a matcher that rejects temporary names *)
Lemma tmp_name_jobs_ok : forall matchf js, matcher_ok matchf ->
  NoDup (map fst js) -> (forall n data, In (n, data) js -> matchf n = true) -> jobs_ok tmp_name js.
Proof.
  intros matchf js [Hm _] Hnd Hmatch. split; [|split].
  - intros n d1 d2 H1 H2. injection (NoDup_map_inj fst _ _ _ Hnd H1 H2 eq_refl) as ->. reflexivity.
  - intros n m d1 d2 _ _ E. unfold tmp_name in E. eapply app_inv_tail; eauto.
  - intros n m d1 d2 H1 H2 E. pose proof (Hm n (Hmatch n d1 H1)) as F.
    rewrite E in F. rewrite (Hmatch m d2 H2) in F. discriminate.
Qed.

(* the variant with one temporary name per directory is refuted *)
Definition wit_a : job := ([97; 46; 102; 102], [65; 65; 65]).      (* "a.ff" -> "AAA" *)
Definition wit_b : job := ([98; 46; 102; 102], [66; 66; 66; 66; 66]). (* "b.ff" -> "BBBBB" *)
(* a opens, b opens (truncates the same file), a writes, b writes over it, a closes and renames: a.ff = b's bytes;
   b closes and renames: ENOENT *)
Definition wit_sched : list job := [wit_a; wit_b; wit_a; wit_b; wit_a; wit_a; wit_b; wit_b].

Lemma shared_tmp_refuted_lemma :
  exists js sched, NoDup (map fst js) /\ (forall j, In j sched -> In j js) /\
  exists n data other, In (n, data) js /\ In other js /\ fst other <> n /\
    let (d, p) := cw_run shared_tmp sched ([], pc0) in
    p n = 4%nat /\ dir_get d n = Some (EFile (snd other)) /\ snd other <> data /\
    p (fst other) = 9%nat /\ dir_get d (fst other) = None.
Proof.
  exists [wit_a; wit_b], wit_sched. split; [|split].
  - cbn. repeat constructor; cbn; intuition discriminate.
  - intros j Hj. cbn in Hj. cbn. intuition.
  - exists (fst wit_a), (snd wit_a), wit_b. split; [left; reflexivity|]. split; [right; left; reflexivity|].
    split; [discriminate|]. vm_compute. repeat split; discriminate.
Qed.

(* with the names of the tree the same jobs and the same schedule end well *)
Lemma own_tmp_witness_lemma :
  let (d, p) := cw_run tmp_name wit_sched ([], pc0) in
  dir_get d (fst wit_a) = Some (EFile (snd wit_a)) /\ dir_get d (fst wit_b) = Some (EFile (snd wit_b)) /\
  p (fst wit_a) = 4%nat /\ p (fst wit_b) = 4%nat.
Proof. vm_compute. repeat split. Qed.
