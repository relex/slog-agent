(* C06 - pipeline ids (strings.Join / strings.Split with ",": [recover_keys_roundtrip]), queue directory names
   ([queue_dir_injective]), the .id round trip and listBufferQueueIDs ([list_buffer_ids_spec]).  The mode bits at
   the end: the file type field of a mode does not depend on the permission bits ([file_type_any_perm]), so a
   directory is recognised and a regular file rejected whatever they are ([dir_mode_any_perm],
   [file_mode_any_perm]); the test stat.Mode & DT_DIR looks at the others-read bit instead
   ([original_dir_test_wrong]). *)
From SV Require Import Model.Common Model.Md5 Model.Routing Proofs.CommonFacts Proofs.MergedKeyProofs.
From Coq Require Import Lia ZifyBool ZifyN ZifyNat.
Open Scope N_scope.

Definition no_sep (sep : N) (k : bytes) : Prop := ~ In sep k.

Fixpoint count_sep (sep : N) (s : bytes) : nat :=
  match s with
  | [] => O
  | c :: r => Nat.add (if c =? sep then 1%nat else 0%nat) (count_sep sep r)
  end.

Lemma count_sep_app : forall sep a b, count_sep sep (a ++ b) = (count_sep sep a + count_sep sep b)%nat.
Proof. induction a as [|c a IH]; intros b; cbn [count_sep app]; [reflexivity|]. rewrite IH. lia. Qed.

Lemma count_sep_0 : forall sep k, count_sep sep k = O -> no_sep sep k.
Proof.
  unfold no_sep. induction k as [|c k IH]; cbn [count_sep In]; [intros _ []|].
  destruct (N.eqb_spec c sep) as [E|E]; [discriminate|]. intros H [Hc|Hin]; [exact (E Hc)|exact (IH H Hin)].
Qed.

(* a key without separator is read into the accumulator *)
Lemma split_on_acc_app : forall sep k r cur, no_sep sep k ->
  split_on_acc sep (k ++ r) cur = split_on_acc sep r (rev k ++ cur).
Proof.
  unfold no_sep. induction k as [|c k IH]; intros r cur Hk; cbn [app split_on_acc rev]; [reflexivity|].
  destruct (N.eqb_spec c sep) as [E|_]; [exfalso; apply Hk; left; exact E|].
  rewrite IH by (intros Hin; apply Hk; right; exact Hin). rewrite <- app_assoc. reflexivity.
Qed.

(* strings.Split(strings.Join(ks, sep), sep) = ks when no key contains the separator *)
Lemma split_on_join : forall sep ks, ks <> [] -> Forall (no_sep sep) ks -> split_on sep (join sep ks) = ks.
Proof.
  intros sep ks. unfold split_on. induction ks as [|k ks IH]; intros Hne Hall; [contradiction|].
  inversion Hall as [|? ? Hk Hks]; subst.
  assert (Hrev : rev_append (rev k ++ []) [] = k) by (rewrite rev_append_rev, !app_nil_r; apply rev_involutive).
  destruct ks as [|k2 ks].
  - cbn [join]. rewrite <- (app_nil_r k) at 1. rewrite split_on_acc_app by exact Hk. cbn [split_on_acc]. rewrite Hrev. reflexivity.
  - change (join sep (k :: k2 :: ks)) with (k ++ sep :: join sep (k2 :: ks)).
    rewrite split_on_acc_app by exact Hk. cbn [split_on_acc]. rewrite N.eqb_refl, Hrev. f_equal. apply IH; [discriminate|exact Hks].
Qed.

Lemma split_on_acc_length : forall sep s cur, length (split_on_acc sep s cur) = S (count_sep sep s).
Proof.
  induction s as [|c s IH]; intros cur; cbn [split_on_acc count_sep]; [reflexivity|].
  destruct (c =? sep); cbn [length]; rewrite IH; reflexivity.
Qed.

Fixpoint total_sep (sep : N) (ks : list bytes) : nat :=
  match ks with [] => O | k :: r => (count_sep sep k + total_sep sep r)%nat end.

Lemma count_sep_join : forall sep ks, ks <> [] ->
  S (count_sep sep (join sep ks)) = (length ks + total_sep sep ks)%nat.
Proof.
  induction ks as [|k ks IH]; intros Hne; [contradiction|]. destruct ks as [|k2 ks].
  - cbn. lia.
  - change (join sep (k :: k2 :: ks)) with (k ++ sep :: join sep (k2 :: ks)).
    rewrite count_sep_app. cbn [count_sep]. rewrite N.eqb_refl.
    assert (H := IH ltac:(discriminate)). cbn [length total_sep] in *. lia.
Qed.

Lemma total_sep_0 : forall sep ks, total_sep sep ks = O -> Forall (no_sep sep) ks.
Proof.
  induction ks as [|k ks IH]; intros H; constructor; cbn [total_sep] in H.
  - apply count_sep_0. lia.
  - apply IH. lia.
Qed.

Definition no_comma (ks : list bytes) : Prop := Forall (no_sep comma) ks.

Lemma recover_keys_length : forall n id ks, recover_keys n id = Some ks -> length ks = n.
Proof.
  intros n id ks H. unfold recover_keys in H.
  destruct (Nat.eqb (length (split_on comma id)) n) eqn:E; [|discriminate]. inversion H; subst. apply Nat.eqb_eq. exact E.
Qed.

Lemma recover_keys_roundtrip : forall ks, ks <> [] -> no_comma ks ->
  recover_keys (length ks) (pipeline_id ks) = Some ks.
Proof.
  intros ks Hne Hnc. unfold recover_keys, pipeline_id. rewrite split_on_join by assumption.
  rewrite Nat.eqb_refl. reflexivity.
Qed.

(* the arity filter lets the id of ks pass only if no key value contains a comma *)
Lemma recover_keys_pass : forall ks, length (split_on comma (pipeline_id ks)) = length ks -> no_comma ks.
Proof.
  intros ks E. unfold pipeline_id, split_on in E. rewrite split_on_acc_length in E.
  destruct ks as [|k ks]; [discriminate E|].
  pose proof (count_sep_join comma (k :: ks) ltac:(discriminate)) as Hc. apply total_sep_0. lia.
Qed.

(* recovery never attaches a queue to a foreign key set: whatever the key values contain, if the id
   written by the key tuple ks passes the arity filter then it splits back into exactly ks *)
Lemma recover_keys_never_foreign : forall ks ks',
  recover_keys (length ks) (pipeline_id ks) = Some ks' -> ks' = ks.
Proof.
  intros ks ks' H. unfold recover_keys in H.
  destruct (Nat.eqb_spec (length (split_on comma (pipeline_id ks))) (length ks)) as [E|_]; [|discriminate].
  inversion H; subst ks'; clear H.
  apply split_on_join; [intros ->; discriminate E|exact (recover_keys_pass _ E)].
Qed.

(* an id with a comma inside a key value never passes the filter *)
Lemma recover_keys_comma_dropped : forall ks, ks <> [] -> ~ no_comma ks ->
  recover_keys (length ks) (pipeline_id ks) = None.
Proof.
  intros ks _ Hc. unfold recover_keys.
  destruct (Nat.eqb_spec (length (split_on comma (pipeline_id ks))) (length ks)) as [E|_]; [|reflexivity].
  destruct Hc. exact (recover_keys_pass _ E).
Qed.

Lemma pipeline_id_injective_no_comma : forall ks ks',
  length ks = length ks' -> no_comma ks -> no_comma ks' -> pipeline_id ks = pipeline_id ks' -> ks = ks'.
Proof.
  intros ks ks' Hlen H1 H2 Heq. destruct ks as [|k ks]; destruct ks' as [|k' ks']; try discriminate; [reflexivity|].
  unfold pipeline_id in Heq.
  rewrite <- (split_on_join comma (k :: ks)) by (try discriminate; assumption).
  rewrite <- (split_on_join comma (k' :: ks')) by (try discriminate; assumption).
  rewrite Heq. reflexivity.
Qed.

(* the id is empty only for the single empty key (or no key at all) *)
Lemma pipeline_id_nonempty : forall ks, ks <> [] -> ks <> [[]] -> pipeline_id ks <> [].
Proof.
  intros ks H1 H2 H. unfold pipeline_id in H. destruct ks as [|k [|k2 ks]]; try contradiction.
  - cbn in H. subst. contradiction.
  - change (join comma (k :: k2 :: ks)) with (k ++ comma :: join comma (k2 :: ks)) in H.
    apply app_eq_nil in H. destruct H as [_ H]. discriminate.
Qed.

Lemma sanitize_length : forall s, length (sanitize s) = length s.
Proof. intros. unfold sanitize. apply map_length. Qed.

Section Dirs.
  Variable md5hex : bytes -> bytes.
  Hypothesis md5hex_len : forall s, length (md5hex s) = 32%nat.

  Lemma tail8_length : forall s, length (tail8 (md5hex s)) = 8%nat.
  Proof. intros s. unfold tail8. rewrite skipn_length, md5hex_len. reflexivity. Qed.

  Lemma queue_dir_name_some : forall id, id <> [] ->
    queue_dir_name md5hex id = Some (sanitize id ++ [46] ++ tail8 (md5hex id)).
  Proof. intros [|c id] H; [contradiction|reflexivity]. Qed.

  Lemma dir_name_eq : forall id id',
    sanitize id ++ [46] ++ tail8 (md5hex id) = sanitize id' ++ [46] ++ tail8 (md5hex id') ->
    sanitize id = sanitize id' /\ tail8 (md5hex id) = tail8 (md5hex id').
  Proof.
    intros id id' E. assert (Hl : length (sanitize id) = length (sanitize id')).
    { apply (f_equal (@length N)) in E. rewrite !app_length, !tail8_length in E. cbn [length] in E. lia. }
    apply app_inj_len in E; [|exact Hl]. destruct E as [Ha Hb]. injection Hb as Hb. auto.
  Qed.

  (* different non-empty ids get different directories, the md5 tail being needed only where
     sanitisation maps both ids to the same name *)
  Lemma queue_dir_injective : forall id id',
    id <> [] -> id' <> [] ->
    (sanitize id = sanitize id' -> tail8 (md5hex id) <> tail8 (md5hex id')) ->
    queue_dir_name md5hex id <> queue_dir_name md5hex id'.
  Proof.
    intros id id' H1 H2 Hh. rewrite !queue_dir_name_some by assumption. intros [= Heq].
    destruct (dir_name_eq _ _ Heq) as [Hs Ht]. exact (Hh Hs Ht).
  Qed.

  Lemma queue_dir_root_iff : forall id, queue_dir_name md5hex id = None <-> id = [].
  Proof. intros [|c id]; cbn; split; intros H; try reflexivity; discriminate. Qed.
End Dirs.

Lemma hex_length : forall s, length (hex s) = (2 * length s)%nat.
Proof. induction s as [|b s IH]; cbn [hex length]; [reflexivity|]. rewrite IH. lia. Qed.

(* the hypothesis of the Section holds for the md5 of the correspondence run *)
Lemma md5_hex_length : forall s, length (md5_hex s) = 32%nat.
Proof. intros s. unfold md5_hex, md5_digest. rewrite hex_length, !app_length. reflexivity. Qed.

Lemma In_insert_by : forall (A : Type) (key : A -> bytes) x y l, In y (insert_by key x l) <-> y = x \/ In y l.
Proof.
  induction l as [|z l IH]; cbn [insert_by].
  - cbn. intuition.
  - destruct (bytes_leb (key x) (key z)); cbn [In]; [intuition|]. rewrite IH. intuition.
Qed.

Lemma In_sort_by : forall (A : Type) (key : A -> bytes) y l, In y (sort_by key l) <-> In y l.
Proof.
  induction l as [|z l IH]; cbn [sort_by]; [reflexivity|].
  rewrite In_insert_by, IH. cbn. intuition.
Qed.

(* a queue directory that must be found at startup *)
Definition live_queue (e : fsentry) (id : bytes) : Prop :=
  is_dir_mode (fe_mode e) = true /\ fe_id e = Some id /\ id <> [] /\ (0 < fe_chunks e)%nat.

Lemma list_ids_cons : forall e es id, In id (list_ids (e :: es)) <-> live_queue e id \/ In id (list_ids es).
Proof.
  intros e es id. unfold live_queue. cbn [list_ids].
  destruct (is_dir_mode (fe_mode e)); cbn [negb]; [|intuition discriminate].
  destruct (fe_id e) as [[|c i]|]; [intuition congruence| |intuition discriminate].
  destruct (Nat.ltb_spec 0 (fe_chunks e)); cbn [In]; intuition (congruence || lia).
Qed.

Lemma list_ids_spec : forall es id, In id (list_ids es) <-> exists e, In e es /\ live_queue e id.
Proof.
  induction es as [|e es IH]; intros id.
  - split; [intros []|intros [e [[] _]]].
  - rewrite list_ids_cons, IH. split.
    + intros [H|[e' [Hin H]]]; [exists e; split; [left; reflexivity|exact H]|exists e'; split; [right; exact Hin|exact H]].
    + intros [e' [[<-|Hin] H]]; [left; exact H|right; exists e'; split; assumption].
Qed.

(* ListBufferIDs returns exactly the ids of the directories that have an id and chunks *)
Lemma list_buffer_ids_spec : forall es id, In id (list_buffer_ids es) <-> exists e, In e es /\ live_queue e id.
Proof.
  intros es id. unfold list_buffer_ids. rewrite list_ids_spec. setoid_rewrite In_sort_by. reflexivity.
Qed.

(* masking with a mask that has no bit below n looks only at the part of x above bit n *)
Lemma land_shiftl_r : forall x m n, N.land x (N.shiftl m n) = N.shiftl (N.land (N.shiftr x n) m) n.
Proof.
  intros x m n. apply N.bits_inj. intros i. rewrite N.land_spec. destruct (N.lt_ge_cases i n) as [Hi|Hi].
  - rewrite !N.shiftl_spec_low by exact Hi. apply andb_false_r.
  - rewrite !N.shiftl_spec_high' by exact Hi. rewrite N.land_spec, N.shiftr_spec', N.sub_add by exact Hi. reflexivity.
Qed.

(* the file type field S_IFMT = 15 * 2^12 of a mode ty * 2^12 + perm with perm < 2^12 is that of ty *)
Lemma file_type_any_perm : forall ty perm, perm < 4096 ->
  N.land (ty * 4096 + perm) S_IFMT = N.shiftl (N.land ty 15) 12.
Proof.
  intros ty perm Hp. change S_IFMT with (N.shiftl 15 12). rewrite land_shiftl_r. do 2 f_equal.
  rewrite N.shiftr_div_pow2. change (2 ^ 12) with 4096. rewrite N.div_add_l by discriminate.
  rewrite N.div_small by exact Hp. apply N.add_0_r.
Qed.

(* a directory is recognised whatever its permission bits (and set-id / sticky bits) are; a regular file never is *)
Lemma dir_mode_any_perm : forall perm, perm < 4096 -> is_dir_mode (S_IFDIR + perm) = true.
Proof. intros perm Hp. unfold is_dir_mode. change S_IFDIR with (4 * 4096) at 1. rewrite file_type_any_perm by exact Hp. reflexivity. Qed.

Lemma file_mode_any_perm : forall perm, perm < 4096 -> is_dir_mode (S_IFREG + perm) = false.
Proof. intros perm Hp. unfold is_dir_mode. change S_IFREG with (8 * 4096). rewrite file_type_any_perm by exact Hp. reflexivity. Qed.

(* the test of the original code, stat.Mode & DT_DIR with DT_DIR = 4, looks at the others-read bit:
   it rejects a directory of mode 0750 and accepts a regular file of mode 0644 *)
Lemma original_dir_test_wrong :
  N.land (S_IFDIR + 488) 4 = 0 /\ N.land (S_IFREG + 420) 4 <> 0.
Proof. split; vm_compute; [reflexivity|discriminate]. Qed.
