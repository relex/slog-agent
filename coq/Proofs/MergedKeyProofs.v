(* C06 - the length-prefixed merged key (util.AppendMergedKey) is injective on ALL lists of byte strings. *)
From SV Require Import Model.Common Model.Routing Proofs.CommonFacts.
From Coq Require Import Lia ZifyBool ZifyN ZifyNat.
Ltac Zify.zify_post_hook ::= Z.div_mod_to_equations.
Open Scope N_scope.

(* uvarint is a prefix code.  fuel_ok f x: the fuel f is enough for x (a step divides x by 128 and uses one unit;
   with no fuel left x is below 128) *)
Definition fuel_ok (f : nat) (x : N) : Prop := x < 2 ^ (N.of_nat f + 7).

Lemma fuel_ok_0 : forall x, fuel_ok 0 x -> x < 128.
Proof. unfold fuel_ok. intros x H. change (2 ^ (N.of_nat 0 + 7)) with 128 in H. exact H. Qed.

(* one step; also at f = 0, where x < 128 and the quotient is 0 *)
Lemma fuel_ok_pred : forall f x, fuel_ok f x -> fuel_ok (pred f) (x / 128).
Proof.
  unfold fuel_ok. intros f x H. apply N.div_lt_upper_bound; [discriminate|]. destruct f as [|f]; cbn [pred].
  - change (2 ^ (N.of_nat 0 + 7)) with 128 in *. lia.
  - replace (N.of_nat (S f) + 7) with (N.succ (N.of_nat f + 7)) in H by lia. rewrite N.pow_succ_r' in H. lia.
Qed.

Lemma uvarint_fuel_enough : forall x, fuel_ok (N.to_nat (N.log2 x)) x.
Proof.
  intros x. unfold fuel_ok. rewrite N2Nat.id.
  destruct (N.eq_dec x 0) as [->|Hx].
  - change (N.log2 0) with 0. change (2 ^ (0 + 7)) with 128. lia.
  - assert (H : x < 2 ^ N.succ (N.log2 x)) by (apply N.log2_spec; lia).
    eapply N.lt_le_trans; [exact H|]. apply N.pow_le_mono_r; lia.
Qed.

(* used where injection would evaluate the sum in 128 + x mod 128 *)
Lemma cons_eq : forall (A : Type) (x y : A) (l l' : list A), x :: l = y :: l' -> x = y /\ l = l'.
Proof. intros A x y l l' H. injection H as H1 H2. auto. Qed.

(* with enough fuel the encoder is the loop of AppendUvarint *)
Lemma uvarint_fuel_unfold : forall f x, fuel_ok f x ->
  uvarint_fuel f x = if x <? 128 then [x] else (128 + x mod 128) :: uvarint_fuel (pred f) (x / 128).
Proof.
  intros [|f] x H; cbn [uvarint_fuel pred]; [|reflexivity].
  apply fuel_ok_0 in H. destruct (N.ltb_spec x 128); [reflexivity|lia].
Qed.

(* two encodings followed by anything: equal streams give equal numbers and equal rests.  The first bytes tell
   whether the encodings go on (>= 128) and agree modulo 128; the rests encode the quotients. *)
Lemma uvarint_fuel_prefix_free :
  forall f g a b r r', fuel_ok f a -> fuel_ok g b ->
    uvarint_fuel f a ++ r = uvarint_fuel g b ++ r' -> a = b /\ r = r'.
Proof.
  induction f as [|f IH]; intros g a b r r' Ha Hb Heq;
    rewrite (uvarint_fuel_unfold _ _ Ha), (uvarint_fuel_unfold _ _ Hb) in Heq;
    destruct (N.ltb_spec a 128) as [Ha8|Ha8], (N.ltb_spec b 128) as [Hb8|Hb8]; cbn [app] in Heq;
    apply cons_eq in Heq; destruct Heq as [H1 H2]; try (subst; auto; fail).
  1-2, 4-5: exfalso; lia.
  - apply fuel_ok_0 in Ha. lia.
  - destruct (IH (pred g) (a / 128) (b / 128) r r') as [Hq Hr];
      [exact (fuel_ok_pred _ _ Ha)|exact (fuel_ok_pred _ _ Hb)|exact H2|].
    split; [lia|exact Hr].
Qed.

Lemma uvarint_prefix_free :
  forall a b r r', uvarint a ++ r = uvarint b ++ r' -> a = b /\ r = r'.
Proof.
  intros a b r r'. unfold uvarint.
  apply uvarint_fuel_prefix_free; apply uvarint_fuel_enough.
Qed.

Lemma uvarint_nonempty : forall x, uvarint x <> [].
Proof. intros x. unfold uvarint. destruct (N.to_nat (N.log2 x)); cbn [uvarint_fuel]; [discriminate|]. destruct (x <? 128); discriminate. Qed.

Definition enc_key (k : bytes) : bytes := uvarint (N.of_nat (length k)) ++ k.

Lemma append_merged_key_spec : forall ks buf, append_merged_key buf ks = buf ++ flat_map enc_key ks.
Proof.
  induction ks as [|k ks IH]; intros buf; cbn [append_merged_key flat_map].
  - rewrite app_nil_r. reflexivity.
  - rewrite IH. unfold enc_key. rewrite <- !app_assoc. reflexivity.
Qed.

Lemma merged_key_spec : forall ks, merged_key ks = flat_map enc_key ks.
Proof. intros ks. unfold merged_key. rewrite append_merged_key_spec. reflexivity. Qed.

Lemma enc_key_prefix_free : forall k k' r r', enc_key k ++ r = enc_key k' ++ r' -> k = k' /\ r = r'.
Proof.
  intros k k' r r' H. unfold enc_key in H. rewrite <- !app_assoc in H.
  apply uvarint_prefix_free in H. destruct H as [Hl H].
  apply app_inj_len in H; [exact H|lia].
Qed.

Lemma enc_key_nonempty : forall k, enc_key k <> [].
Proof.
  intros k H. unfold enc_key in H. apply app_eq_nil in H. destruct H as [H _].
  exact (uvarint_nonempty _ H).
Qed.

(* the main lemma: injective on all lists, whatever their lengths *)
Lemma merged_key_injective_lemma : forall ks ks', merged_key ks = merged_key ks' -> ks = ks'.
Proof.
  intros ks ks'. rewrite !merged_key_spec. revert ks'.
  induction ks as [|k ks IH]; intros [|k' ks'] H; cbn [flat_map] in H.
  - reflexivity.
  - symmetry in H. apply app_eq_nil in H. destruct H as [H _]. exfalso. exact (enc_key_nonempty _ H).
  - apply app_eq_nil in H. destruct H as [H _]. exfalso. exact (enc_key_nonempty _ H).
  - apply enc_key_prefix_free in H. destruct H as [-> H]. f_equal. apply IH. exact H.
Qed.

Lemma merged_key_distinct_lemma :
  forall ks ks', length ks = length ks' -> ks <> ks' -> merged_key ks <> merged_key ks'.
Proof. intros ks ks' _ Hne H. apply Hne. apply merged_key_injective_lemma. exact H. Qed.

(* the original code: plain concatenation; two tuples of the same arity collide *)
Lemma concat_key_collides :
  exists ks ks', length ks = length ks' /\ ks <> ks' /\ concat_key [] ks = concat_key [] ks'.
Proof.
  exists [[97; 98]; [99]], [[97]; [98; 99]].
  split; [reflexivity|]. split; [discriminate|]. reflexivity.
Qed.

Lemma concat_key_collides_empty :
  exists ks ks', length ks = length ks' /\ ks <> ks' /\ concat_key [] ks = concat_key [] ks'.
Proof. exact concat_key_collides. Qed.

(* the length-prefixed key separates the pair of concat_key_collides, and a pair that differs only in where the
   empty value stands *)
Lemma merged_key_separates_witnesses :
  merged_key [[97; 98]; [99]] <> merged_key [[97]; [98; 99]] /\ merged_key [[]; [120]] <> merged_key [[120]; []].
Proof. split; vm_compute; discriminate. Qed.
