(* C16 - proofs about Model/Config.v, with fq the repaired loader: verify never panics; verify = Ok gives
   construct = Ok p with pipeline_safe p, and a safe pipeline sends no record to a panic site; every
   reference site of a verified file is valid (Spec/ConfigSpec.v); the repairs only turn acceptances
   into errors; the sites that name the same field do not collide. *)
From SV Require Import Model.Common Model.ConfigTemplate Model.ConfigExtractor Model.Config Spec.ConfigSpec
  Proofs.CommonFacts Proofs.ConfigTemplateProofs Proofs.ConfigExtractorProofs Proofs.ConfigEquations.
From Coq Require Import Lia ZifyBool ZifyN ZifyNat.
(* ZifyBool sets this hook to its case split on every boolean, which no lia below needs and which is slow; this replaces it *)
Ltac Zify.zify_post_hook ::= Z.div_mod_to_equations.
Open Scope Z_scope.

Scheme transform_ind2 := Induction for transform Sort Prop
  with tlist_ind2 := Induction for tlist Sort Prop
  with clist_ind2 := Induction for clist Sort Prop.
Combined Scheme transform_mutind from transform_ind2, tlist_ind2, clist_ind2.

Scheme rtransform_ind2 := Induction for rtransform Sort Prop
  with rtlist_ind2 := Induction for rtlist Sort Prop
  with rclist_ind2 := Induction for rclist Sort Prop.
Combined Scheme rtransform_mutind from rtransform_ind2, rtlist_ind2, rclist_ind2.

Notation fq := fixed_quirks.

(* split a hypothesis  H : a && b && ... = true  into its conjuncts: H keeps the first, H0, H1, .. count from the last *)
Ltac split_and H := repeat match type of H with _ && _ = true => let H2 := fresh H in apply andb_true_iff in H; destruct H as [H H2] end.

Lemma np_check_field : forall sch n, np (check_field sch n).
Proof. intros. unfold check_field. destruct (locate sch n); reflexivity. Qed.

Lemma np_check_fields : forall sch l, np (check_fields sch l).
Proof. induction l; simpl; [reflexivity|]. apply np_bind; [apply np_check_field|auto]. Qed.

Lemma np_check_key : forall sch n, np (check_key sch n).
Proof. intros. unfold check_key. apply np_bind; [apply np_check|intros; apply np_check_field]. Qed.

Lemma np_check_label_fields : forall l seen, np (check_label_fields l seen).
Proof.
  induction l; intros; simpl; [reflexivity|].
  apply np_bind; [apply np_check|intros]. apply np_bind; [apply np_check|auto].
Qed.

Lemma np_check_template : forall scope t, np (check_template fq scope t).
Proof. intros. unfold check_template. apply np_bind; [apply np_new_expander|intros; reflexivity]. Qed.

Lemma np_new_expander_fq : forall r t, np (new_expander (q_template_atoi_panics fq) r t).
Proof. intros. apply np_new_expander. Qed.

#[export] Hint Resolve np_check_field np_check_fields np_check_key np_check_label_fields np_check_template np_new_expander_fq : np.

Ltac np_tac := repeat (apply np_bind; [|intros]); auto with np.

Lemma np_verify_matcher : forall sch m, np (verify_matcher sch m).
Proof. induction m; simpl; [reflexivity|]. np_tac. Qed.

Lemma np_verify_match : forall sch m, np (verify_match sch m).
Proof. intros. unfold verify_match. np_tac. apply np_verify_matcher. Qed.

Lemma np_verify_addfields : forall sch l, np (verify_addfields fq sch l).
Proof. induction l as [|[k t] l IH]; simpl; [reflexivity|]. np_tac. Qed.

Lemma np_verify_captures : forall sch key l, np (verify_captures fq sch key l).
Proof.
  induction l as [|n l IH]; simpl; [reflexivity|]. apply np_bind; [|auto].
  destruct (is_nil n); auto with np.
Qed.

Lemma np_verify_special_pattern : forall pos p m, np (verify_special_pattern fq pos p m).
Proof.
  intros. unfold verify_special_pattern. simpl.
  pose proof (np_new_string_extractor_simple true pos p m) as H.
  destruct (new_string_extractor_simple true pos p m); try reflexivity. discriminate.
Qed.

#[export] Hint Resolve np_verify_matcher np_verify_match np_verify_addfields np_verify_captures np_verify_special_pattern : np.

Lemma np_verify_transforms :
  (forall t sch, np (verify_t fq sch t)) /\ (forall l sch, np (verify_tl fq sch l)) /\ (forall l sch, np (verify_cl fq sch l)).
Proof.
  apply transform_mutind; intros; simpl; try reflexivity; try (np_tac; fail).
  - (* TExtract *) np_tac. destruct re; auto with np.
Qed.

Lemma np_verify_tl : forall l sch, np (verify_tl fq sch l).
Proof. apply np_verify_transforms. Qed.
#[export] Hint Resolve np_verify_tl : np.

Lemma np_verify_rewriters : forall sch l, np (verify_rewriters sch l).
Proof.
  induction l as [|r l IH]; simpl; [reflexivity|]. apply np_bind; [|auto].
  destruct r; np_tac.
Qed.

Lemma np_verify_rewrite_fields : forall sch l, np (verify_rewrite_fields sch l).
Proof.
  induction l as [|[f rws] l IH]; simpl; [reflexivity|]. np_tac. apply np_verify_rewriters.
Qed.
#[export] Hint Resolve np_verify_rewriters np_verify_rewrite_fields : np.

Lemma np_verify_output : forall sch o, np (verify_output fq sch o).
Proof. intros sch [env hidden rw mode addr ok dur|hidden addr ok dur| |]; simpl; np_tac. Qed.

Lemma np_verify_buffer : forall b, np (verify_buffer fq b).
Proof. intros [root size| |]; simpl; np_tac. Qed.

Lemma np_verify_pairs : forall sch l seen, np (verify_pairs fq sch seen l).
Proof.
  induction l as [|p l IH]; intros; simpl; [reflexivity|]. np_tac; [apply np_verify_buffer|apply np_verify_output].
Qed.

Lemma np_verify_inputs : forall sch l, np (verify_inputs fq sch l).
Proof.
  induction l as [|i l IH]; simpl; [reflexivity|]. np_tac.
  destruct i as [addr ok levels ex|]; simpl; [|reflexivity]. np_tac.
Qed.

Lemma np_verify_orch : forall sch o, np (verify_orch fq sch o).
Proof. intros sch [keys tag|tag| |]; simpl; np_tac. Qed.

Lemma np_verify_schema : forall c, np (verify_schema c).
Proof. intro c. unfold verify_schema. np_tac. Qed.

Lemma np_verify_metric_keys : forall sch ok keys, np (verify_metric_keys fq sch ok keys).
Proof. intros. unfold verify_metric_keys. simpl. np_tac. Qed.

#[export] Hint Resolve np_verify_schema np_verify_metric_keys np_verify_inputs np_verify_orch np_verify_pairs : np.

Theorem verify_total_lemma : forall c, is_panic (verify fq c) = false.
Proof. intro c. unfold verify. fold (np (A := unit)). np_tac; simpl; auto with np. Qed.

(* verification leaves the field names it checked known; that is all the constructors ask of them *)
Lemma check_field_known : forall sch n u, check_field sch n = Ok u -> known sch n.
Proof.
  intros sch n u H. unfold check_field in H. destruct (locate sch n) eqn:E; [|discriminate].
  apply locate_spec in E. apply E.
Qed.

Lemma check_fields_known : forall sch l u, check_fields sch l = Ok u -> Forall (known sch) l.
Proof.
  induction l as [|n r IH]; intros u H; simpl in H; [constructor|]. binds H.
  constructor; [eapply check_field_known; eauto|eapply IH; eauto].
Qed.

Lemma check_key_ok : forall sch n u, check_key sch n = Ok u -> n <> [] /\ known sch n.
Proof.
  intros sch n u H. unfold check_key in H. binds H. apply check_ok in Hb. split.
  - intro E. subst. discriminate.
  - eapply check_field_known; eauto.
Qed.

Lemma check_key_known : forall sch n u, check_key sch n = Ok u -> known sch n.
Proof. intros sch n u H. apply (check_key_ok _ _ _ H). Qed.

Lemma must_locate_known : forall sch nf n, Z.of_nat (length sch) <= nf -> known sch n ->
  yields (must_locate sch n) (fun i => (Z.of_nat i <? nf) = true).
Proof.
  intros sch nf n Hnf H. destruct (locate_in _ _ H) as [i Hi]. unfold must_locate. rewrite Hi.
  apply yields_ok. apply locate_spec in Hi. lia.
Qed.

Lemma must_locate_all_known : forall sch nf names, Z.of_nat (length sch) <= nf -> Forall (known sch) names ->
  yields (must_locate_all sch names) (fun l => forallb (fun i => Z.of_nat i <? nf) l = true /\ length l = length names).
Proof.
  intros sch nf names Hnf H. induction H as [|n r Hn _ IH]; simpl; [auto|].
  eapply yields_bind; [exact (must_locate_known _ _ _ Hnf Hn)|intros i Hi].
  eapply yields_bind; [exact IH|intros l [H1 H2]]. apply yields_ok. simpl. rewrite Hi, H1, H2. auto.
Qed.

Lemma register_spec : forall reg l i reg', register reg l = (i, reg') -> (i < length reg')%nat /\ (length reg <= length reg')%nat.
Proof.
  intros reg l i reg' H. unfold register in H. destruct (locate reg l) eqn:E.
  - inversion H; subst. apply locate_spec in E. lia.
  - inversion H; subst. rewrite app_length. simpl. lia.
Qed.

(* safety is monotone in the number of counters: only drop, parseTime and redactEmail call one *)
Lemma rt_safe_mono_nc :
  (forall t nf nc nc', (nc <= nc')%nat -> rt_safe nf nc t = true -> rt_safe nf nc' t = true) /\
  (forall l nf nc nc', (nc <= nc')%nat -> rtl_safe nf nc l = true -> rtl_safe nf nc' l = true) /\
  (forall l nf nc nc', (nc <= nc')%nat -> rcl_safe nf nc l = true -> rcl_safe nf nc' l = true).
Proof.
  apply rtransform_mutind; try (intros; assumption).   (* the steps without counters or nested steps *)
  - (* RBlock *) intros steps IH nf nc nc' Hle H. seq_in H. seq. eauto.
  - (* RDrop *) intros m rate cd cr nf nc nc' Hle H. cbn [rt_safe] in *. split_and H. rewrite H. destruct cr; lia.
  - (* RIf *) intros m then_ IH nf nc nc' Hle H. seq_in H. seq. split_and H. rewrite H. eauto.
  - (* RParseTime *) intros key cnt nf nc nc' Hle H. cbn [rt_safe] in *. lia.
  - (* RRedactEmail *) intros key cnt nf nc nc' Hle H. cbn [rt_safe] in *. lia.
  - (* RSwitch *) intros cases IH nf nc nc' Hle H. seq_in H. seq. eauto.
  - (* RTCons *) intros t IHt ts IHts nf nc nc' Hle H. seq_in H. seq. split_and H. rewrite (IHt _ _ _ Hle H). eauto.
  - (* RCCons *) intros m then_ IHt cs IHcs nf nc nc' Hle H. seq_in H. seq. split_and H.
    rewrite H, (IHt _ _ _ Hle H1). simpl. eauto.
Qed.

(* the key fields the orchestration hands to the metric key check, valid and distinct as label names *)
Lemma verify_orch_keys : forall sch o keys, verify_orch fq sch o = Ok keys ->
  keys = orch_keys o /\ check_label_fields keys [] = Ok tt.
Proof.
  intros sch o keys0 H. destruct o as [keys tag|tag| |]; simpl in H; try discriminate; binds H; inversion H; subst; auto.
Qed.

Lemma labels_ok_intro : forall l, check_label_fields l [] = Ok tt -> labels_ok l = true.
Proof. intros l H. unfold labels_ok. rewrite H. reflexivity. Qed.

Lemma verify_special_pattern_ok : forall pos p m, verify_special_pattern fq pos p m = Ok tt ->
  exists ex, new_string_extractor_simple true pos p m = Ok ex.
Proof.
  intros pos p m H. unfold verify_special_pattern in H. simpl in H.
  destruct (new_string_extractor_simple true pos p m); try discriminate. eauto.
Qed.

Section Construct.
Variables (sch : list bytes) (nf : Z).
Hypothesis Hnf : Z.of_nat (length sch) <= nf.

Lemma must_locate_key : forall n u, check_key sch n = Ok u -> yields (must_locate sch n) (fun i => (Z.of_nat i <? nf) = true).
Proof. intros n u H. exact (must_locate_known _ _ _ Hnf (check_key_known _ _ _ H)). Qed.

Lemma construct_matcher_ok : forall m, verify_matcher sch m = Ok tt -> forallb mentry_decodes m = true ->
  yields (construct_matcher sch m) (fun rm => matcher_safe nf rm = true).
Proof.
  induction m as [|e r IH]; intros H Hd; simpl in H, Hd |- *; [auto|].
  binds H. split_and Hd.
  eapply yields_bind; [exact (must_locate_known _ _ _ Hnf (check_field_known _ _ _ Hb))|intros i Hi].
  eapply yields_bind; [exact (IH H Hd0)|intros rm Hrm]. apply yields_ok.
  unfold matcher_safe in *. cbn [forallb]. rewrite Hi, Hrm.
  apply check_ok in Hb0. unfold mentry_decodes in Hd. destruct (me_op e); try reflexivity; discriminate.
Qed.

Lemma verify_match_ok : forall m, verify_match sch m = Ok tt -> matcher_decodes m = true ->
  yields (construct_matcher sch m) (fun rm => matcher_safe nf rm = true).
Proof.
  intros m H Hd. unfold verify_match in H. binds H. unfold matcher_decodes in Hd. split_and Hd.
  apply construct_matcher_ok; assumption.
Qed.

Lemma construct_addfields_ok : forall fields, verify_addfields fq sch fields = Ok tt ->
  yields (construct_addfields fq sch fields)
         (fun p => forallb (fun p => (Z.of_nat (fst p) <? nf) && forallb (rpart_safe nf) (snd p)) p = true).
Proof.
  induction fields as [|[k t] r IH]; intro H; simpl in H |- *; [auto|].
  binds H. unfold check_template in Hb0. simpl in Hb0. binds Hb0.
  eapply yields_bind; [exact (must_locate_known _ _ _ Hnf (check_field_known _ _ _ Hb))|intros i Hi].
  rewrite Hb1. cbn [obind].
  eapply yields_bind; [exact (IH H)|intros p Hp]. apply yields_ok. simpl.
  rewrite Hi, Hp, (rparts_safe_mono _ nf _ Hnf (new_expander_safe _ _ _ _ Hb1)). reflexivity.
Qed.

Lemma construct_captures_ok : forall key names, verify_captures fq sch key names = Ok tt ->
  yields (construct_captures sch names)
         (fun subs => forallb (fun s => match s with Some l => Z.of_nat l <? nf | None => true end) subs = true).
Proof.
  intros key names. induction names as [|n r IH]; intro H; simpl in H |- *; [auto|].
  binds H. eapply yields_bind with (P := fun s => match s with Some l => Z.of_nat l <? nf | None => true end = true).
  - destruct (is_nil n); [auto|].
    eapply yields_bind; [exact (must_locate_known _ _ _ Hnf (check_field_known _ _ _ Hb))|auto].
  - intros s Hs. eapply yields_bind; [exact (IH H)|intros subs Hsubs]. apply yields_ok. simpl. rewrite Hs, Hsubs. reflexivity.
Qed.

(* [o] builds steps that are safe with the counters registered so far, and only adds to the registry [reg] *)
Definition built {R} (safe : Z -> nat -> R -> bool) (reg : list bytes) (o : outcome (R * list bytes)) : Prop :=
  yields o (fun '(a, reg') => safe nf (length reg') a = true /\ (length reg <= length reg')%nat).

Lemma construct_transforms_ok :
  (forall t reg, transform_decodes t = true -> verify_t fq sch t = Ok tt -> built rt_safe reg (construct_t fq sch reg t)) /\
  (forall l reg, tlist_decodes l = true -> verify_tl fq sch l = Ok tt -> built rtl_safe reg (construct_tl fq sch reg l)) /\
  (forall l reg, clist_decodes l = true -> verify_cl fq sch l = Ok tt -> built rcl_safe reg (construct_cl fq sch reg l)).
Proof.
  apply transform_mutind; unfold built.
  - (* TAddFields *) intros fields reg Hd H. veq H. binds H. ceq.
    eapply yields_bind; [exact (construct_addfields_ok _ H)|intros p Hp]. apply yields_ok. seq. auto.
  - (* TBlock *) intros steps IH reg Hd H. veq H. deq Hd. binds H. ceq.
    eapply yields_bind; [exact (IH reg Hd H)|intros [rl reg'] Hrl]. apply yields_ok. exact Hrl.
  - (* TDelFields *) intros keys reg Hd H. veq H. binds H. ceq.
    eapply yields_bind; [exact (must_locate_all_known _ _ _ Hnf (check_fields_known _ _ _ H))|intros l [Hl _]].
    apply yields_ok. seq. auto.
  - (* TDrop *) intros m pct label reg Hd H. veq H. deq Hd. binds H. split_and Hd. apply check_ok in Hb0. ceq.
    eapply yields_bind; [exact (verify_match_ok _ Hb Hd)|intros rm Hrm].
    destruct (register reg label) as [cd reg1] eqn:E1. destruct (register_spec _ _ _ _ E1) as [R1 R2].
    destruct (num_val pct <? 100) eqn:E100.
    + destruct (register reg1 (33%N :: label)) as [cr reg2] eqn:E2. destruct (register_spec _ _ _ _ E2) as [R3 R4].
      apply yields_ok. seq. rewrite Hrm. split; lia.
    + apply yields_ok. seq. rewrite Hrm. split; lia.
  - (* TExtract *) intros key pattern re reg Hd H. veq H. binds H. destruct re as [names|]; [|discriminate]. ceq.
    eapply yields_bind; [exact (construct_captures_ok _ _ H)|intros subs Hsubs].
    eapply yields_bind; [exact (must_locate_key _ _ Hb)|intros k Hk]. apply yields_ok. seq. rewrite Hk, Hsubs. auto.
  - (* TExtractSpecial *) intros pos key pattern maxlen dest reg Hd H. veq H. binds H.
    destruct (verify_special_pattern_ok _ _ _ Hb1) as [ex Hex]. apply check_ok in Hb2.
    ceq. change (negb (q_special_split_only fq)) with true. rewrite Hex. cbn [obind].
    eapply yields_bind; [exact (must_locate_key _ _ Hb)|intros k Hk].
    eapply yields_bind; [exact (must_locate_key _ _ H)|intros d Hdd]. apply yields_ok. seq.
    rewrite Hk, Hdd, (new_string_extractor_simple_safe _ _ _ _ Hex ltac:(lia)). auto.
  - (* TIf *) intros m then_ IH reg Hd H. veq H. deq Hd. binds H. split_and Hd. ceq.
    eapply yields_bind; [exact (verify_match_ok _ Hb Hd)|intros rm Hrm].
    eapply yields_bind; [exact (IH reg Hd0 H)|intros [rl reg'] [H1 H2]]. apply yields_ok. seq_in H1. seq. rewrite Hrm, H1. auto.
  - (* TMapValue *) intros key mapping default reg Hd H. veq H. binds H. ceq.
    eapply yields_bind; [exact (must_locate_key _ _ Hb)|intros k Hk]. apply yields_ok. seq. auto.
  - (* TParseTime *) intros key label reg Hd H. veq H. binds H. ceq.
    eapply yields_bind; [exact (must_locate_key _ _ Hb)|intros k Hk].
    destruct (register reg label) as [c reg'] eqn:E1. destruct (register_spec _ _ _ _ E1) as [R1 R2].
    apply yields_ok. seq. rewrite Hk. split; lia.
  - (* TRedactEmail *) intros key label reg Hd H. veq H. binds H. ceq.
    eapply yields_bind; [exact (must_locate_key _ _ Hb)|intros k Hk].
    destruct (register reg label) as [c reg'] eqn:E1. destruct (register_spec _ _ _ _ E1) as [R1 R2].
    apply yields_ok. seq. rewrite Hk. split; lia.
  - (* TReplace *) intros key pattern re_ok repl reg Hd H. veq H. binds H. apply check_ok in H. subst re_ok. ceq.
    eapply yields_bind; [exact (must_locate_key _ _ Hb)|intros k Hk]. apply yields_ok. seq. auto.
  - (* TSwitch *) intros cases IH reg Hd H. veq H. deq Hd. binds H. ceq.
    eapply yields_bind; [exact (IH reg Hd H)|intros [rl reg'] Hrl]. apply yields_ok. exact Hrl.
  - (* TTruncate *) intros key maxlen suffix reg Hd H. veq H. binds H. apply check_ok in Hb0. ceq.
    eapply yields_bind; [exact (must_locate_key _ _ Hb)|intros k Hk]. apply yields_ok. seq. rewrite Hk. split; lia.
  - (* TUnescape *) intros key reg Hd H. veq H. ceq.
    eapply yields_bind; [exact (must_locate_key _ _ H)|intros k Hk]. apply yields_ok. seq. auto.
  - (* TUnknown *) intros reg Hd H. deq Hd. discriminate.
  - (* TNil *) intros reg Hd H. ceq. apply yields_ok. seq. auto.
  - (* TCons *) intros t IHt ts IHts reg Hd H. veq H. deq Hd. binds H. split_and Hd. ceq.
    eapply yields_bind; [exact (IHt reg Hd Hb)|intros [rt reg1] [H1 H2]].
    eapply yields_bind; [exact (IHts reg1 Hd0 H)|intros [rl reg2] [H3 H4]]. apply yields_ok. seq_in H1. seq_in H3. seq.
    rewrite H3, (proj1 rt_safe_mono_nc _ _ _ _ H4 H1). split; [reflexivity|lia].
  - (* CNil *) intros reg Hd H. ceq. apply yields_ok. seq. auto.
  - (* CCons *) intros m then_ IHt cs IHcs reg Hd H. veq H. deq Hd. binds H. split_and Hd. ceq.
    eapply yields_bind; [exact (verify_match_ok _ Hb Hd)|intros rm Hrm].
    eapply yields_bind; [exact (IHt reg Hd1 Hb1)|intros [rl reg1] [H1 H2]].
    eapply yields_bind; [exact (IHcs reg1 Hd0 H)|intros [rc reg2] [H3 H4]]. apply yields_ok. seq_in H1. seq_in H3. seq.
    rewrite Hrm, H3, (proj1 (proj2 rt_safe_mono_nc) _ _ _ _ H4 H1). split; [reflexivity|lia].
Qed.

Lemma construct_tl_ok : forall l, tlist_decodes l = true -> verify_tl fq sch l = Ok tt ->
  yields (construct_tl fq sch [] l) (fun '(rl, reg) => rtl_safe nf (length reg) rl = true).
Proof.
  intros l Hd H. destruct (proj1 (proj2 construct_transforms_ok) l [] Hd H) as [[rl reg] [E [Hr _]]]. exists (rl, reg). auto.
Qed.

Lemma construct_rewriters_ok : forall l, verify_rewriters sch l = Ok tt ->
  yields (construct_rewriters sch l) (fun ch => chain_safe nf ch = true /\ is_nil ch = is_nil l).
Proof.
  induction l as [|r rest IH]; intro H; simpl in H |- *; [auto|].
  binds H. eapply yields_bind; [exact (IH H)|intros tail [H2 H3]]. rewrite H3.
  destruct r as [|field| |]; simpl in Hb.
  - apply check_ok in Hb. destruct (is_nil rest); [auto|discriminate].
  - binds Hb. apply check_ok in Hb0. destruct (is_nil rest) eqn:E; [discriminate|].
    eapply yields_bind; [exact (must_locate_key _ _ Hb)|intros i Hi]. apply yields_ok. simpl. rewrite Hi, H2, H3. auto.
  - apply check_ok in Hb. destruct (is_nil rest); [auto|discriminate].
  - discriminate.
Qed.

Lemma verify_rewrite_fields_in : forall l, verify_rewrite_fields sch l = Ok tt ->
  forall fr, In fr l -> check_field sch (fst fr) = Ok tt /\ verify_rewriters sch (snd fr) = Ok tt.
Proof.
  induction l as [|[f rws] l IH]; intros H fr Hin; simpl in H, Hin; [tauto|]. binds H.
  destruct Hin as [E|Hin]; [subst; simpl; auto|]. apply IH; assumption.
Qed.

Lemma construct_chains_ok : forall rewrites names, verify_rewrite_fields sch rewrites = Ok tt ->
  yields (construct_chains sch rewrites names) (fun chains => forallb (chain_safe nf) chains = true).
Proof.
  intros rewrites names Hv. induction names as [|n r IH]; simpl; [auto|].
  eapply yields_bind with (P := fun ch => chain_safe nf ch = true).
  - destruct (find _ rewrites) as [fr|] eqn:E; [|auto].
    apply find_some in E. destruct (construct_rewriters_ok _ (proj2 (verify_rewrite_fields_in _ Hv fr (proj1 E)))) as [ch [C1 [C2 _]]].
    exists ch. auto.
  - intros ch C2. eapply yields_bind; [exact IH|intros chains H2]. apply yields_ok. simpl. rewrite C2, H2. reflexivity.
Qed.

Lemma construct_output_ok : forall o, verify_output fq sch o = Ok tt ->
  yields (construct_output sch o) (fun s => serializer_safe nf s = true).
Proof.
  intros o H. destruct o as [env hidden rewrites mode addr ok dur|hidden addr ok dur| |]; simpl in H |- *; try discriminate.
  - binds H. binds Hb0. apply check_ok in Hb3.
    destruct (must_locate_all_known sch (Z.of_nat (length sch)) env ltac:(lia) (check_fields_known _ _ _ Hb6)) as [envl [E1 [E2 _]]].
    rewrite E1. cbn [obind]. eapply yields_bind; [exact (construct_chains_ok _ sch Hb1)|intros chains C2].
    rewrite Hb3. apply yields_ok. simpl. rewrite E2, C2. lia.
  - binds H. apply check_ok in Hb1. subst ok. apply yields_ok. simpl. lia.
Qed.

Lemma construct_outputs_ok : forall l seen, verify_pairs fq sch seen l = Ok tt ->
  yields (construct_outputs sch l) (fun outs => forallb (serializer_safe nf) outs = true /\ length outs = length l).
Proof.
  induction l as [|p r IH]; intros seen H; simpl in H |- *; [auto|].
  binds H. unfold verify_pair in Hb0. simpl in Hb0. binds Hb0. binds Hb1. apply check_ok in Hb1.
  destruct (p_buffer p); try discriminate. cbn [obind].
  eapply yields_bind; [exact (construct_output_ok _ Hb0)|intros s S2].
  eapply yields_bind; [exact (IH _ H)|intros outs [H2 H3]]. apply yields_ok. simpl. rewrite S2, H2, H3. auto.
Qed.

Lemma check_label_fields_ok : forall names seen, check_label_fields names seen = Ok tt ->
  Forall (fun n => label_name_ok n = true) names.
Proof.
  induction names as [|n r IH]; intros seen H; simpl in H; [constructor|]. binds H.
  apply check_ok in Hb. constructor; [assumption|]. eapply IH; eauto.
Qed.

Lemma construct_orch_ok : forall o keys, verify_orch fq sch o = Ok keys ->
  yields (construct_orch fq sch o) (fun ro => orch_safe nf ro = true).
Proof.
  intros o keys0 H. destruct o as [keys tag|tag| |]; simpl in H |- *; try discriminate; [|auto].
  binds H. destruct (must_locate_all_known _ _ _ Hnf (check_fields_known _ _ _ Hb0)) as [locs [L1 [L2 L3]]].
  unfold check_template in Hb3. simpl in Hb3. binds Hb3.
  rewrite L1, Hb4. apply yields_ok. simpl. rewrite L2, L3. apply (new_expander_safe _ _ _ _ Hb4).
Qed.

Lemma construct_inputs_ok : forall l, forallb input_decodes l = true -> verify_inputs fq sch l = Ok tt ->
  yields (construct_inputs fq sch l) (fun ins => forallb (fun i => rtl_safe nf (snd i) (fst i)) ins = true).
Proof.
  induction l as [|i r IH]; intros Hd H; simpl in H, Hd |- *; [auto|].
  binds H. split_and Hd.
  destruct i as [addr ok levels ex|]; simpl in Hb, Hd; [|discriminate]. binds Hb.
  unfold construct_input. rewrite Hb3. cbn [obind].
  eapply yields_bind with (P := fun i => rtl_safe nf (snd i) (fst i) = true).
  - eapply yields_bind; [exact (construct_tl_ok _ Hd Hb)|intros [rl reg'] C2]. apply yields_ok. exact C2.
  - intros i C2. eapply yields_bind; [exact (IH Hd0 H)|intros ins H2]. apply yields_ok. simpl. rewrite C2, H2. reflexivity.
Qed.

End Construct.

Lemma fset_ok : forall (f : fields) i v, (i < length f)%nat -> yields (fset f i v) (fun f' => length f' = length f).
Proof.
  induction f as [|a f IH]; intros i v H; simpl in *; [lia|].
  destruct i as [|i]; [auto|].
  eapply yields_bind; [apply IH; lia|intros f' H']. apply yields_ok. simpl in *. lia.
Qed.

Lemma ccall_ok : forall nc i, (i < nc)%nat -> ccall nc i = Ok tt.
Proof. intros nc i H. unfold ccall. destruct (Nat.ltb i nc) eqn:E; [reflexivity|]. apply Nat.ltb_ge in E. lia. Qed.

Lemma slice_z_length : forall v a b r, slice_z v a b = Ok r -> (length r <= length v)%nat.
Proof.
  intros v a b r H. unfold slice_z in H. destruct (_ && _ && _); [|discriminate]. inversion H; subst.
  rewrite firstn_length. etransitivity; [apply Nat.le_min_r|]. rewrite skipn_length. lia.
Qed.

Section RunSafe.
Variable x : externals.
Hypothesis Hx : ext_wf x.
Variable nf : Z.

Lemma run_matcher_ok : forall m f, matcher_safe nf m = true -> nf <= Z.of_nat (length f) ->
  yields (run_matcher x m f) (fun _ => True).
Proof.
  intros m f. induction m as [|[[loc op] expr] r IH]; intros H Hlen; simpl in H |- *; [auto|].
  unfold matcher_safe in H. split_and H.
  eapply yields_bind; [apply fget_ok; lia|intros v _].
  eapply yields_bind with (P := fun _ => True); [destruct op; simpl; auto; discriminate|intros b _].
  destruct b; [apply IH; assumption|auto].
Qed.

Lemma run_addfields_ok : forall pairs f,
  forallb (fun p => (Z.of_nat (fst p) <? nf) && forallb (rpart_safe nf) (snd p)) pairs = true ->
  nf <= Z.of_nat (length f) -> yields (run_addfields pairs f) (fun f' => length f' = length f).
Proof.
  induction pairs as [|[dst parts] r IH]; intros f H Hlen; simpl in H |- *; [auto|]. split_and H.
  eapply yields_bind; [exact (expand_ok f parts (rparts_safe_mono _ _ _ Hlen H1))|intros v _].
  eapply yields_bind with (P := fun f' => length f' = length f).
  - destruct (is_nil v); [auto|apply fset_ok; lia].
  - intros f' F. rewrite <- F. apply IH; [assumption|lia].
Qed.

Lemma run_delfields_ok : forall locs f, forallb (fun l => Z.of_nat l <? nf) locs = true ->
  nf <= Z.of_nat (length f) -> yields (run_delfields locs f) (fun f' => length f' = length f).
Proof.
  induction locs as [|l r IH]; intros f H Hlen; simpl in H |- *; [auto|]. split_and H.
  eapply yields_bind; [apply fset_ok; lia|intros f' F]. simpl in F. rewrite <- F. apply IH; [assumption|lia].
Qed.

Lemma run_captures_ok : forall idxs v subs i f,
  forallb (fun s => match s with Some l => Z.of_nat l <? nf | None => true end) subs = true ->
  nf <= Z.of_nat (length f) ->
  (forall j, (i <= j < i + length subs)%nat -> submatch_ok (length v) idxs j) ->
  yields (run_captures subs i idxs v f) (fun f' => length f' = length f).
Proof.
  intros idxs v subs. induction subs as [|s r IH]; intros i f H Hlen Hsub; [simpl; auto|].
  cbn [forallb] in H. split_and H.
  eapply yields_bind with (P := fun f' => length f' = length f).
  - destruct s as [loc|]; [|auto].
    destruct (Hsub i ltac:(simpl; lia)) as [a [b [Ea [Eb Hab]]]].
    unfold zidx. rewrite Ea, Eb. cbn [obind].
    destruct ((a <? 0) || (b <? 0)) eqn:Eneg; [auto|].
    eapply yields_bind; [apply slice_z_ok; lia|intros sub _]. apply fset_ok. lia.
  - intros f1 F. rewrite <- F. apply IH; [assumption|lia|]. intros j Hj. apply Hsub. simpl. lia.
Qed.

(* [o] passes or drops the record without a panic and keeps the number of its fields *)
Definition runs (f : fields) (o : outcome (fields * bool)) : Prop := yields o (fun r => length (fst r) = length f).

Lemma run_transforms_ok :
  (forall t nc f, rt_safe nf nc t = true -> nf <= Z.of_nat (length f) -> runs f (run_t x nc t f)) /\
  (forall l nc f, rtl_safe nf nc l = true -> nf <= Z.of_nat (length f) -> runs f (run_tl x nc l f)) /\
  (forall l nc f, rcl_safe nf nc l = true -> nf <= Z.of_nat (length f) -> runs f (run_cl x nc l f)).
Proof.
  apply rtransform_mutind; unfold runs.
  - (* RAddFields *) intros pairs nc f H Hlen. seq_in H. req.
    eapply yields_bind; [exact (run_addfields_ok _ _ H Hlen)|auto].
  - (* RBlock *) intros steps IH nc f H Hlen. seq_in H. req. auto.
  - (* RDelFields *) intros locs nc f H Hlen. seq_in H. req.
    eapply yields_bind; [exact (run_delfields_ok _ _ H Hlen)|auto].
  - (* RDrop *) intros m rate cd cr nc f H Hlen. seq_in H. req. split_and H.
    eapply yields_bind; [exact (run_matcher_ok _ _ H Hlen)|intros b _].
    destruct b; cbn [negb]; [|auto].
    destruct (rate =? 100) eqn:E100.
    + rewrite (ccall_ok nc cd ltac:(lia)). cbn [obind]. auto.
    + destruct (x_drop_choice x rate f).
      * rewrite (ccall_ok nc cd ltac:(lia)). cbn [obind]. auto.
      * destruct cr as [i|]; [|discriminate]. rewrite (ccall_ok nc i ltac:(lia)). cbn [obind]. auto.
  - (* RExtract *) intros key pattern subs nc f H Hlen. seq_in H. req. split_and H.
    eapply yields_bind; [apply fget_ok; lia|intros v _].
    destruct (x_regex_find x pattern (length subs) v) as [idxs|] eqn:Er; [|auto].
    eapply yields_bind; [apply (run_captures_ok idxs v subs 0%nat f H0 Hlen)|auto].
    intros j Hj. eapply (proj1 Hx); [eassumption|lia].
  - (* RExtractSpecial *) intros src dst ex nc f H Hlen. seq_in H. req. split_and H.
    eapply yields_bind; [apply fget_ok; lia|intros v _].
    destruct (is_nil v); [auto|].
    eapply yields_bind; [exact (extract_total ex v H0)|intros [label rest] _].
    destruct (Nat.eqb (length rest) (length v)); [auto|].
    eapply yields_bind; [apply fset_ok; lia|intros f1 F1]. simpl in F1.
    eapply yields_bind; [apply fset_ok; lia|intros f2 F2]. apply yields_ok. simpl in *. lia.
  - (* RIf *) intros m then_ IH nc f H Hlen. seq_in H. req. split_and H.
    eapply yields_bind; [exact (run_matcher_ok _ _ H Hlen)|intros b _]. destruct b; auto.
  - (* RMapValue *) intros key mapping default nc f H Hlen. seq_in H. req.
    eapply yields_bind; [apply fget_ok; lia|intros v _].
    destruct (is_nil v); [auto|]. eapply yields_bind; [apply fset_ok; lia|auto].
  - (* RParseTime *) intros key cnt nc f H Hlen. seq_in H. req. split_and H.
    eapply yields_bind; [apply fget_ok; lia|intros v _].
    destruct (is_nil v); [auto|]. destruct (x_time_ok x v); [auto|].
    rewrite (ccall_ok nc cnt ltac:(lia)). cbn [obind]. auto.
  - (* RRedactEmail *) intros key cnt nc f H Hlen. seq_in H. req. split_and H.
    eapply yields_bind; [apply fget_ok; lia|intros v _].
    destruct (is_nil v); [auto|]. destruct (x_redact x v) as [v'|]; [|auto].
    eapply yields_bind; [apply fset_ok; lia|intros f1 F1]. rewrite (ccall_ok nc cnt ltac:(lia)). cbn [obind]. auto.
  - (* RReplace *) intros key pattern repl nc f H Hlen. seq_in H. req.
    eapply yields_bind; [apply fget_ok; lia|intros v _].
    destruct (is_nil v); [auto|]. eapply yields_bind; [apply fset_ok; lia|auto].
  - (* RSwitch *) intros cases IH nc f H Hlen. seq_in H. req. auto.
  - (* RTruncate *) intros key maxlen suffix nc f H Hlen. seq_in H. req. split_and H.
    eapply yields_bind; [apply fget_ok; lia|intros v _].
    destruct (Z.of_nat (length v) >? maxlen + Z.of_nat (length suffix)) eqn:E; [|auto].
    destruct (slice_z_ok v 0 maxlen) as [head [Hh _]]; try lia. rewrite Hh. cbn [obind].
    (* CleanUTF8 returns a prefix of v[:maxlen], so the cut is inside v *)
    pose proof (slice_z_length _ _ _ _ Hh) as Hhl. pose proof (proj2 Hx head) as Hc.
    destruct (Nat.ltb (length v) (x_clean_len x head)) eqn:El; [apply Nat.ltb_lt in El; lia|].
    eapply yields_bind; [apply fset_ok; lia|auto].
  - (* RUnescape *) intros key nc f H Hlen. seq_in H. req.
    eapply yields_bind; [apply fget_ok; lia|intros v _].
    destruct (is_nil v); [auto|]. eapply yields_bind; [apply fset_ok; lia|auto].
  - (* RTNil *) intros nc f H Hlen. req. auto.
  - (* RTCons *) intros t IHt ts IHts nc f H Hlen. seq_in H. req. split_and H.
    eapply yields_bind; [exact (IHt nc f H Hlen)|intros [f1 b] F1]. simpl in F1.
    destruct b; [|auto]. rewrite <- F1. apply IHts; [assumption|lia].
  - (* RCNil *) intros nc f H Hlen. req. auto.
  - (* RCCons *) intros m then_ IHt cs IHcs nc f H Hlen. seq_in H. req. split_and H.
    eapply yields_bind; [exact (run_matcher_ok _ _ H Hlen)|intros b _]. destruct b; auto.
Qed.

Lemma get_all_ok : forall n locs (f : fields), forallb (fun l => Z.of_nat l <? n) locs = true -> n <= Z.of_nat (length f) ->
  yields (get_all locs f) (fun vs => length vs = length locs).
Proof.
  intros n locs f. induction locs as [|l r IH]; intros H Hlen; simpl in H |- *; [auto|]. split_and H.
  eapply yields_bind; [apply fget_ok; lia|intros v _].
  eapply yields_bind; [exact (IH H0 Hlen)|intros vs G]. apply yields_ok. simpl in *. lia.
Qed.

Lemma run_chain_ok : forall ch (f : fields), chain_safe nf ch = true -> nf <= Z.of_nat (length f) -> run_chain ch f = Ok tt.
Proof.
  intros ch f. induction ch as [|r rest IH]; intros H Hlen; simpl in H |- *; [reflexivity|].
  destruct r as [| |loc]; try reflexivity. split_and H.
  destruct (fget_ok f loc ltac:(lia)) as [v [Hv _]]. rewrite Hv. cbn [obind].
  destruct rest; [discriminate|]. apply IH; assumption.
Qed.

Lemma run_chains_ok : forall chains (f : fields), forallb (chain_safe nf) chains = true -> nf <= Z.of_nat (length f) ->
  run_chains chains f = Ok tt.
Proof.
  intros chains f. induction chains as [|ch r IH]; intros H Hlen; simpl in H |- *; [reflexivity|].
  split_and H. rewrite (run_chain_ok _ _ H Hlen). auto.
Qed.

Lemma run_serializer_ok : forall s (f : fields), serializer_safe nf s = true -> nf <= Z.of_nat (length f) ->
  run_serializer s f = Ok tt.
Proof.
  intros s f H Hlen. destruct s as [nmask env chains|nmask]; simpl in H |- *; split_and H; unfold take_fields;
    (destruct (Nat.leb nmask (length f)) eqn:E; [apply Nat.leb_le in E|apply Nat.leb_gt in E; lia]); [|reflexivity].
  cbn [obind]. rewrite (run_chains_ok _ _ H0 Hlen). cbn [obind].
  destruct (get_all_ok (Z.of_nat nmask) env (firstn nmask f) H1) as [vs [G _]]; [rewrite firstn_length; lia|].
  rewrite G. reflexivity.
Qed.

Lemma run_serializers_ok : forall l (f : fields), forallb (serializer_safe nf) l = true -> nf <= Z.of_nat (length f) ->
  run_serializers l f = Ok tt.
Proof.
  intros l f. induction l as [|s r IH]; intros H Hlen; simpl in H |- *; [reflexivity|].
  split_and H. rewrite (run_serializer_ok _ _ H Hlen). auto.
Qed.

Lemma run_orch_ok : forall o (f : fields), orch_safe nf o = true -> nf <= Z.of_nat (length f) -> run_orch o f = Ok tt.
Proof.
  intros o f H Hlen. destruct o as [locs tag|]; simpl in H |- *; [|reflexivity]. split_and H.
  destruct (get_all_ok nf locs f H Hlen) as [keys [G1 G2]]. rewrite G1. cbn [obind].
  destruct (expand_ok keys tag) as [v [Hv _]]; [rewrite G2; assumption|]. rewrite Hv. reflexivity.
Qed.

End RunSafe.

Theorem safe_pipeline_runs : forall x, ext_wf x -> forall p i f, pipeline_safe p = true -> Z.of_nat (length f) = pl_nfields p ->
  run_record x p i f = Ok tt.
Proof.
  intros x Hx p i f H Hlen. unfold pipeline_safe in H. split_and H. unfold run_record.
  destruct (nth_error (pl_inputs p) i) as [[ex nc_in]|] eqn:Ei; [|reflexivity].
  assert (Hex : rtl_safe (pl_nfields p) nc_in ex = true).
  { apply nth_error_In in Ei. rewrite forallb_forall in H. apply (H _ Ei). }
  destruct (is_nil (pl_outputs p)) eqn:Eo; [discriminate|].
  destruct (proj1 (proj2 (run_transforms_ok x Hx _)) ex nc_in f Hex ltac:(lia)) as [[f1 b] [R1 R2]]. simpl in R2.
  rewrite R1. cbn [obind]. destruct b; cbn [negb]; [|reflexivity].
  rewrite H0. rewrite (run_orch_ok _ _ f1 H5 ltac:(lia)). cbn [obind].
  destruct (get_all_ok _ _ f1 H4 ltac:(lia)) as [vs [G _]]. rewrite G. cbn [obind].
  destruct (proj1 (proj2 (run_transforms_ok x Hx _)) _ _ f1 H3 ltac:(lia)) as [[f2 b2] [S1 S2]]. simpl in S2.
  rewrite S1. cbn [obind]. destruct b2; cbn [negb]; [|reflexivity].
  apply (run_serializers_ok (pl_nfields p)); [assumption|lia].
Qed.

Theorem safe_pipeline_records_safe : forall p, pipeline_safe p = true -> records_safe p.
Proof. intros p H x Hx i f Hlen. rewrite (safe_pipeline_runs x Hx p i f H Hlen). reflexivity. Qed.

Lemma config_decodes_parts : forall c, config_decodes c = true ->
  forallb input_decodes (c_inputs c) = true /\ tlist_decodes (c_transforms c) = true.
Proof. intros c H. unfold config_decodes in H. split_and H. auto. Qed.

(* an accepted file passed every line of verify (run.ParseConfigFile), in that order; the key fields handed on
   by verify_orch are orch_keys, and the metric key check stands here as its four checks *)
Lemma verify_inv : forall c, verify fq c = Ok tt ->
  config_decodes c = true /\
  verify_schema c = Ok tt /\
  verify_inputs fq (c_fields c) (c_inputs c) = Ok tt /\
  verify_orch fq (c_fields c) (c_orch c) = Ok (orch_keys (c_orch c)) /\
  (check (negb (is_nil (c_metric_keys c))) err_empty = Ok tt /\
   check_fields (c_fields c) (c_metric_keys c) = Ok tt /\
   check_label_fields (c_metric_keys c) [] = Ok tt /\
   existsb (fun k => mem k (orch_keys (c_orch c))) (c_metric_keys c) = false) /\
  verify_tl fq (c_fields c) (c_transforms c) = Ok tt /\
  is_nil (c_pairs c) = false /\
  verify_pairs fq (c_fields c) [] (c_pairs c) = Ok tt.
Proof.
  intros c H. unfold verify, verify_metric_keys in H. simpl in H. binds H. binds Hb3.
  destruct (verify_orch_keys _ _ _ Hb2) as [E _]. subst ub2.
  apply check_ok in Hb, Hb5, Hb3. apply negb_true_iff in Hb5, Hb3. auto 12.
Qed.

Theorem verify_ok_construct_ok_lemma : forall c, verify fq c = Ok tt ->
  exists p, construct fq c = Ok p /\ pipeline_safe p = true /\ records_safe p.
Proof.
  intros c H.
  destruct (verify_inv c H) as (Hdec & Hschema & Hinputs & Horch & (_ & Hmf & Hml & Hmd) & Htf & Hne & Hpairs).
  destruct (config_decodes_parts c Hdec) as [Hdi Hdt].
  assert (Hnf : Z.of_nat (length (c_fields c)) <= num_val (c_maxfields c)).
  { unfold verify_schema in Hschema. binds Hschema. apply check_ok in Hb1. lia. }
  destruct (construct_inputs_ok _ _ Hnf _ Hdi Hinputs) as [ins [I1 I2]].
  destruct (construct_orch_ok _ _ Hnf _ _ Horch) as [ro [O1 O2]].
  pose proof (labels_ok_intro _ (proj2 (verify_orch_keys _ _ _ Horch))) as O4. pose proof (labels_ok_intro _ Hml) as M4.
  destruct (must_locate_all_known _ _ _ Hnf (check_fields_known _ _ _ Hmf)) as [mlocs [M1 [M2 _]]].
  destruct (construct_tl_ok _ _ Hnf _ Hdt Htf) as [[rts reg] [T1 T2]].
  destruct (construct_outputs_ok _ _ Hnf _ _ Hpairs) as [outs [P1 [P2 P3]]].
  enough (exists p, construct fq c = Ok p /\ pipeline_safe p = true) as [p [H1 H2]] by eauto using safe_pipeline_records_safe.
  unfold construct. rewrite I1, M1, O1, P1, T1. cbn [obind]. rewrite M4. simpl.
  eexists. split; [reflexivity|].
  unfold pipeline_safe. simpl. rewrite I2, O2, M2, T2, P2, O4, Hmd. simpl.
  destruct outs; [destruct (c_pairs c); simpl in *; discriminate|reflexivity].
Qed.

Lemma label_name_chars : forall n, label_name_ok n = true -> label_chars n.
Proof. intros n H. unfold label_name_ok in H. unfold label_chars. rewrite forallb_forall in H. apply Forall_forall. assumption. Qed.

Lemma key_fields_valid : forall sch keys, check_fields sch keys = Ok tt -> check_label_fields keys [] = Ok tt ->
  Forall (ref_valid sch) (map RefKeyField keys).
Proof.
  intros sch keys H1 H2. apply check_fields_known in H1. apply check_label_fields_ok in H2.
  induction keys as [|k r IH]; simpl; [constructor|]. inversion H1; subst. inversion H2; subst.
  constructor; [simpl; split; [assumption|apply label_name_chars; assumption]|apply IH; assumption].
Qed.

Section Sites.
Variable sch : list bytes.

(* which check of verify establishes which kind of reference site *)
Lemma valid_field : forall n u, check_field sch n = Ok u -> ref_valid sch (RefField n).
Proof. exact (check_field_known sch). Qed.

Lemma valid_key : forall n u, check_key sch n = Ok u -> ref_valid sch (RefField n).
Proof. exact (check_key_known sch). Qed.

Lemma valid_nonempty : forall A (l : list A) w e u, check (negb (is_nil l)) e = Ok u -> ref_valid sch (RefNonEmpty w (is_nil l)).
Proof. intros A [|a l] w e u H; [discriminate|reflexivity]. Qed.

Lemma valid_steps : forall l w u, check (match l with TNil => false | _ => true end) err_empty = Ok u ->
  ref_valid sch (RefNonEmpty w (tl_empty l)).
Proof. intros [|t ts] w u H; [discriminate|reflexivity]. Qed.

Lemma valid_percent : forall n u, check ((1 <=? num_val n) && (num_val n <=? 100)) err_range = Ok u ->
  ref_valid sch (RefPercent n).
Proof. intros [z|] u H; [|discriminate]. apply check_ok in H. exists z. simpl in H. split; [reflexivity|lia]. Qed.

Lemma valid_positive : forall n u, check (0 <? num_val n) err_range = Ok u -> ref_valid sch (RefPositive n).
Proof. intros [z|] u H; [|discriminate]. apply check_ok in H. exists z. simpl in H. split; [reflexivity|lia]. Qed.

Lemma valid_quantity : forall b u, check (negb (big_val b =? 0)%N) err_empty = Ok u -> ref_valid sch (RefQuantity b).
Proof. intros [n|] u H; [|discriminate]. apply check_ok in H. exists n. simpl in H. split; [reflexivity|lia]. Qed.

Lemma valid_regex : forall b e u, check b e = Ok u -> ref_valid sch (RefRegex b).
Proof. exact check_ok. Qed.

Lemma valid_address : forall b e u, check b e = Ok u -> ref_valid sch (RefAddress b).
Proof. exact check_ok. Qed.

Lemma valid_mode : forall m u, check (mode_known m) err_mode = Ok u -> ref_valid sch (RefMode m).
Proof.
  intros m u H. apply check_ok in H. unfold mode_known in H. simpl.
  repeat (apply orb_true_iff in H; destruct H as [H|H]); apply bytes_eqb_eq in H; auto.
Qed.

Lemma valid_template : forall scope t u, check_template fq scope t = Ok u -> ref_valid sch (RefTemplate scope t).
Proof. intros scope t u H. unfold check_template in H. binds H. exact (new_expander_valid _ _ _ Hb). Qed.

Hint Resolve valid_field valid_key valid_nonempty valid_steps valid_percent valid_positive valid_quantity
  valid_regex valid_address valid_mode valid_template Forall_nil : sites.

(* a list of sites written out, each closed by its entry above *)
Ltac sites := repeat apply Forall_cons; eauto with sites.

Lemma refs_matcher_valid : forall m, verify_match sch m = Ok tt -> matcher_decodes m = true ->
  Forall (ref_valid sch) (refs_matcher m).
Proof.
  intros m H Hd. unfold verify_match in H. binds H. unfold matcher_decodes in Hd. split_and Hd.
  unfold refs_matcher. constructor; [eauto with sites|]. clear Hb Hd0.
  induction m as [|e r IH]; simpl in *; [constructor|]. binds H. split_and Hd.
  constructor; [eauto with sites|]. constructor; [|apply IH; assumption].
  simpl. apply check_ok in Hb0. unfold mentry_decodes in Hd.
  split; intro E; rewrite E in *; discriminate.
Qed.

Lemma refs_addfields_valid : forall fields, verify_addfields fq sch fields = Ok tt ->
  Forall (ref_valid sch) (flat_map (fun kt => [RefField (fst kt); RefTemplate sch (snd kt)]) fields).
Proof.
  intros fields. induction fields as [|[k t] r IH]; intro H; simpl in *; [constructor|]. binds H. sites.
Qed.

Lemma verify_captures_known : forall key names, verify_captures fq sch key names = Ok tt ->
  Forall (known sch) (filter (fun n => negb (is_nil n)) names).
Proof.
  intros key names. induction names as [|n r IH]; intro H; simpl in *; [constructor|]. binds H.
  destruct (is_nil n); simpl; [apply IH; assumption|]. constructor; [eapply check_field_known; eauto|apply IH; assumption].
Qed.

Lemma transform_refs_valid :
  (forall t, transform_decodes t = true -> verify_t fq sch t = Ok tt -> Forall (ref_valid sch) (refs_t sch t)) /\
  (forall l, tlist_decodes l = true -> verify_tl fq sch l = Ok tt -> Forall (ref_valid sch) (refs_tl sch l)) /\
  (forall l, clist_decodes l = true -> verify_cl fq sch l = Ok tt -> Forall (ref_valid sch) (refs_cl sch l)).
Proof.
  apply transform_mutind.
  - (* TAddFields *) intros fields Hd H. veq H. binds H. feq. constructor; [eauto with sites|]. apply refs_addfields_valid. assumption.
  - (* TBlock *) intros steps IH Hd H. veq H. deq Hd. binds H. feq. constructor; [eauto with sites|]. apply IH; assumption.
  - (* TDelFields *) intros keys Hd H. veq H. binds H. feq.
    constructor; [eauto with sites|]. apply Forall_map. exact (check_fields_known _ _ _ H).
  - (* TDrop *) intros m pct label Hd H. veq H. deq Hd. binds H. split_and Hd. feq.
    apply Forall_app. split; [apply refs_matcher_valid; assumption|sites].
  - (* TExtract *) intros key pattern re Hd H. veq H. binds H. feq. destruct re as [names|]; [|discriminate].
    apply Forall_app. split; [sites; reflexivity|]. apply Forall_map. exact (verify_captures_known _ _ H).
  - (* TExtractSpecial *) intros pos key pattern maxlen dest Hd H. veq H. binds H. feq.
    destruct (verify_special_pattern_ok _ _ _ Hb1) as [ex Hex]. sites. exact (special_pattern_valid_of_ok _ _ _ _ Hex).
  - (* TIf *) intros m then_ IH Hd H. veq H. deq Hd. binds H. split_and Hd. feq.
    apply Forall_app. split; [apply refs_matcher_valid; assumption|]. constructor; [eauto with sites|]. apply IH; assumption.
  - (* TMapValue *) intros key mapping default Hd H. veq H. binds H. feq. sites.
  - (* TParseTime *) intros key label Hd H. veq H. binds H. feq. sites.
  - (* TRedactEmail *) intros key label Hd H. veq H. binds H. feq. sites.
  - (* TReplace *) intros key pattern re_ok repl Hd H. veq H. binds H. feq. sites.
  - (* TSwitch *) intros cases IH Hd H. veq H. deq Hd. binds H. feq.
    constructor; [simpl; apply check_ok in Hb; destruct cases; [discriminate|reflexivity]|]. apply IH; assumption.
  - (* TTruncate *) intros key maxlen suffix Hd H. veq H. binds H. feq. sites.
  - (* TUnescape *) intros key Hd H. veq H. feq. sites.
  - (* TUnknown *) intros Hd H. deq Hd. discriminate.
  - (* TNil *) intros Hd H. feq. constructor.
  - (* TCons *) intros t IHt ts IHts Hd H. veq H. deq Hd. binds H. split_and Hd. feq.
    apply Forall_app. split; [apply IHt; assumption|apply IHts; assumption].
  - (* CNil *) intros Hd H. feq. constructor.
  - (* CCons *) intros m then_ IHt cs IHcs Hd H. veq H. deq Hd. binds H. split_and Hd. feq.
    apply Forall_app. split; [apply refs_matcher_valid; assumption|]. constructor; [eauto with sites|].
    apply Forall_app. split; [apply IHt; assumption|apply IHcs; assumption].
Qed.

Lemma verify_rewriters_valid : forall l, verify_rewriters sch l = Ok tt ->
  rewriters_valid sch l /\ Forall (ref_valid sch) (flat_map (fun r => match r with RwInline f => [RefField f] | _ => [] end) l).
Proof.
  intros l. induction l as [|r rest IH]; intro H; simpl in H.
  - split; [left; reflexivity|constructor].
  - binds H. destruct (IH H) as [V1 V2].
    destruct r as [|field| |]; simpl in Hb.
    + apply check_ok in Hb. destruct rest; [|discriminate]. split; [|constructor].
      right. exists [], RwCopy. auto.
    + binds Hb. apply check_ok in Hb0. destruct (check_key_ok _ _ _ Hb) as [Hne Hi].
      split; [|simpl; constructor; assumption].
      destruct V1 as [E|[inl [last [E [Hl Hf]]]]]; [subst; discriminate|].
      right. exists (field :: inl), last. subst rest. split; [reflexivity|]. split; [assumption|].
      constructor; [split; assumption|assumption].
    + apply check_ok in Hb. destruct rest; [|discriminate]. split; [|constructor].
      right. exists [], RwUnescape. auto.
    + discriminate.
Qed.

Lemma refs_output_valid : forall o, verify_output fq sch o = Ok tt -> Forall (ref_valid sch) (refs_output o).
Proof.
  intros o H. destruct o as [env hidden rewrites mode addr ok dur|hidden addr ok dur| |]; simpl in H; try discriminate;
    binds H; unfold refs_output.
  - binds Hb0. constructor; [eauto with sites|].
    apply Forall_app. split; [apply Forall_map; exact (check_fields_known _ _ _ Hb6)|].
    apply Forall_app. split; [apply Forall_map; exact (check_fields_known _ _ _ Hb0)|].
    apply Forall_app. split; [|sites].
    apply Forall_flat_map, Forall_forall. intros fr Hin.
    destruct (verify_rewrite_fields_in _ _ Hb1 fr Hin) as [F1 F2]. destruct (verify_rewriters_valid _ F2) as [V1 V2].
    constructor; [eauto with sites|]. constructor; [exact V1|exact V2].
  - apply Forall_app. split; [apply Forall_map; exact (check_fields_known _ _ _ Hb)|sites].
Qed.

Lemma refs_buffer_valid : forall b, verify_buffer fq b = Ok tt -> Forall (ref_valid sch) (refs_buffer b).
Proof. intros [root size| |] H; simpl in *; try discriminate. binds H. sites. Qed.

Lemma refs_pairs_valid : forall l seen, verify_pairs fq sch seen l = Ok tt ->
  Forall (ref_valid sch) (flat_map (fun p => refs_buffer (p_buffer p) ++ refs_output (p_output p)) l).
Proof.
  intros l. induction l as [|p r IH]; intros seen H; simpl in *; [constructor|]. binds H.
  unfold verify_pair in Hb0. binds Hb0.
  apply Forall_app. split; [|eapply IH; eauto].
  apply Forall_app. split; [apply refs_buffer_valid; assumption|apply refs_output_valid; assumption].
Qed.

Lemma refs_inputs_valid : forall l, forallb input_decodes l = true -> verify_inputs fq sch l = Ok tt ->
  Forall (ref_valid sch) (flat_map (refs_input sch) l).
Proof.
  intros l. induction l as [|i r IH]; intros Hd H; simpl in *; [constructor|]. binds H. split_and Hd.
  apply Forall_app. split; [|apply IH; assumption].
  destruct i as [addr ok levels ex|]; simpl in Hb, Hd; [|discriminate]. binds Hb. unfold refs_input.
  unfold syslog_parser_check in Hb3. binds Hb3. apply check_ok in Hb1. apply check_ok in Hb4.
  apply Forall_app. split; [sites|].
  - destruct levels; [discriminate|]. apply Nat.eqb_eq. exact Hb4.
  - apply Forall_app. split; [apply Forall_map; exact (check_fields_known _ _ _ Hb3)|]. apply transform_refs_valid; assumption.
Qed.

Lemma refs_orch_valid : forall o keys, verify_orch fq sch o = Ok keys -> Forall (ref_valid sch) (refs_orch o).
Proof.
  intros o keys0 H. destruct o as [keys tag|tag| |]; simpl in H; try discriminate; binds H; unfold refs_orch; [|sites].
  constructor; [eauto with sites|]. apply Forall_app. split; [apply key_fields_valid; assumption|sites].
Qed.

End Sites.

Theorem sites_complete_lemma : forall c, verify fq c = Ok tt -> Forall (ref_valid (c_fields c)) (refs c).
Proof.
  intros c H.
  destruct (verify_inv c H) as (Hdec & _ & Hinputs & Horch & (Hmne & Hmf & Hml & _) & Htf & Hne & Hpairs).
  destruct (config_decodes_parts c Hdec) as [Hdi Hdt].
  unfold refs.
  apply Forall_app. split; [apply refs_inputs_valid; assumption|].
  apply Forall_app. split; [eapply refs_orch_valid; eauto|].
  constructor; [eapply valid_nonempty; eauto|].
  apply Forall_app. split; [apply key_fields_valid; assumption|].
  apply Forall_app. split; [apply transform_refs_valid; assumption|].
  constructor; [exact Hne|]. eapply refs_pairs_valid; eauto.
Qed.

(* what the correspondence check prints for the model is never a panic verdict *)
Theorem verdict_never_panics_lemma : forall c, is_vpanic (snd (verdict fq c)) = false.
Proof.
  intro c. unfold verdict. destruct (verify fq c) as [u|e|s] eqn:E.
  - destruct u. destruct (verify_ok_construct_ok_lemma c E) as [p [H1 [H2 _]]]. rewrite H1, H2. reflexivity.
  - reflexivity.
  - pose proof (verify_total_lemma c) as T. rewrite E in T. discriminate.
Qed.

(* the repaired loader is the most restrictive variant: whatever it accepts, the loader with any of the
   defects switched back on accepts too; the fixes turn acceptances into errors, never the other way round *)
Notation oq := original_quirks.

Section Relax.
Variable q : quirks.

Lemma slice_bound_relax : forall ap s d z, slice_bound false s d = Ok z -> slice_bound ap s d = Ok z.
Proof.
  intros [|] s d z H; [|assumption]. destruct s as [|c s]; simpl in *; [assumption|].
  destruct (atoi (c :: s)); [assumption|discriminate].
Qed.

Lemma expander_parts_relax : forall ap resolve ps r,
  expander_parts false resolve ps = Ok r -> expander_parts ap resolve ps = Ok r.
Proof.
  intros ap resolve ps. induction ps as [|p ps IH]; intros r H; simpl in *; [assumption|].
  destruct p as [s|name|body|].
  - binds H. rewrite (IH _ Hb). assumption.
  - destruct (resolve name); [|discriminate]. binds H. rewrite (IH _ Hb). assumption.
  - destruct (parse_vexpr body) as [[name bounds]|]; [|discriminate].
    destruct (resolve name); [|discriminate]. destruct bounds as [[a b]|]; binds H.
    + rewrite (slice_bound_relax ap _ _ _ Hb), (slice_bound_relax ap _ _ _ Hb0). cbn [obind]. rewrite (IH _ Hb1). assumption.
    + rewrite (IH _ Hb). assumption.
  - auto.
Qed.

Lemma check_template_relax : forall scope t, check_template fq scope t = Ok tt -> check_template q scope t = Ok tt.
Proof.
  intros scope t H. unfold check_template in *. binds H. unfold new_expander in *.
  destruct (has_dollar2 t); [discriminate|]. binds Hb. rewrite (expander_parts_relax _ _ _ _ Hb0). cbn [obind].
  destruct (has_skip _); [discriminate|]. reflexivity.
Qed.

Lemma verify_addfields_relax : forall sch l, verify_addfields fq sch l = Ok tt -> verify_addfields q sch l = Ok tt.
Proof.
  induction l as [|[k t] l IH]; intro H; simpl in *; [assumption|]. binds H.
  rewrite Hb. cbn [obind]. rewrite (check_template_relax _ _ Hb0). cbn [obind]. auto.
Qed.

Lemma verify_captures_relax : forall sch key names, check_field sch key = Ok tt ->
  verify_captures fq sch key names = Ok tt -> verify_captures q sch key names = Ok tt.
Proof.
  intros sch key names Hk. induction names as [|n r IH]; intro H; simpl in *; [assumption|]. binds H.
  destruct (q_extract_checks_key q); [rewrite Hk|rewrite Hb]; cbn [obind]; auto.
Qed.

Lemma verify_special_pattern_relax : forall pos p m,
  verify_special_pattern fq pos p m = Ok tt -> verify_special_pattern q pos p m = Ok tt.
Proof.
  intros pos p m H. unfold verify_special_pattern in *. destruct (q_special_split_only q); [|assumption].
  unfold new_string_extractor_simple in H. destruct (split_pattern p) as [parts|e|s]; simpl in H; try discriminate. reflexivity.
Qed.

Lemma verify_transforms_relax :
  (forall t sch, verify_t fq sch t = Ok tt -> verify_t q sch t = Ok tt) /\
  (forall l sch, verify_tl fq sch l = Ok tt -> verify_tl q sch l = Ok tt) /\
  (forall l sch, verify_cl fq sch l = Ok tt -> verify_cl q sch l = Ok tt).
Proof.
  apply transform_mutind; try (intros; assumption).   (* the steps no repair touches verify alike *)
  - (* TAddFields *) intros fields sch H. veq H. cbn [verify_t]. binds H. rewrite Hb. cbn [obind]. apply verify_addfields_relax. assumption.
  - (* TBlock *) intros steps IH sch H. veq H. rewrite verify_t_block. binds H. rewrite Hb. cbn [obind]. auto.
  - (* TExtract *) intros key pattern re sch H. veq H. cbn [verify_t]. binds H. rewrite Hb, Hb0. cbn [obind].
    destruct re as [names|]; [|discriminate]. apply verify_captures_relax; [|assumption].
    unfold check_key in Hb. binds Hb. assumption.
  - (* TExtractSpecial *) intros pos key pattern maxlen dest sch H. veq H. cbn [verify_t]. binds H.
    rewrite Hb, Hb0, (verify_special_pattern_relax _ _ _ Hb1), Hb2. cbn [obind]. assumption.
  - (* TIf *) intros m then_ IH sch H. veq H. rewrite verify_t_if. binds H. rewrite Hb, Hb0. cbn [obind]. auto.
  - (* TSwitch *) intros cases IH sch H. veq H. rewrite verify_t_switch. binds H. rewrite Hb. cbn [obind]. auto.
  - (* TCons *) intros t IHt ts IHts sch H. veq H. rewrite verify_tl_cons. binds H. rewrite (IHt _ Hb). cbn [obind]. auto.
  - (* CCons *) intros m then_ IHt cs IHcs sch H. veq H. rewrite verify_cl_cons. binds H.
    rewrite Hb, Hb0, (IHt _ Hb1). cbn [obind]. auto.
Qed.

Ltac rw_ok := repeat match goal with H : ?x = Ok _ |- context [?x] => rewrite H; cbn [obind] end.

Lemma verify_pairs_relax : forall sch l seen, verify_pairs fq sch seen l = Ok tt -> verify_pairs q sch seen l = Ok tt.
Proof.
  intros sch l. induction l as [|p r IH]; intros seen H; simpl in *; [assumption|]. binds H.
  rewrite Hb. cbn [obind]. rewrite (IH _ H).
  unfold verify_pair in *. simpl in Hb0. binds Hb0. binds Hb1. apply check_ok in Hb1. apply check_ok in Hb3.
  assert (Hbuf : verify_buffer q (p_buffer p) = Ok tt).
  { destruct (p_buffer p); simpl in *; try discriminate; assumption. }
  assert (Hout : verify_output q sch (p_output p) = Ok tt).
  { destruct (p_output p) as [env hidden rw mode addr ok dur|hidden addr ok dur| |]; simpl in *; try discriminate; binds Hb0.
    - destruct (q_fluentd_fields_unchecked q); rw_ok; reflexivity.
    - destruct (q_datadog_hidden_unchecked q), (q_datadog_url_unchecked q); rw_ok; reflexivity. }
  rewrite Hbuf, Hout. destruct (q_nil_pair_parts q); [|rewrite Hb1, Hb3]; reflexivity.
Qed.

Lemma verify_inputs_relax : forall sch l, verify_inputs fq sch l = Ok tt -> verify_inputs q sch l = Ok tt.
Proof.
  intros sch l. induction l as [|i r IH]; intro H; simpl in *; [assumption|]. binds H. rewrite (IH H).
  destruct i as [addr ok levels ex|]; simpl in *; [|discriminate]. binds Hb.
  rewrite Hb0, Hb1, Hb2, Hb3, (proj1 (proj2 verify_transforms_relax) _ _ Hb). reflexivity.
Qed.

Lemma verify_orch_relax : forall sch o keys, verify_orch fq sch o = Ok keys -> verify_orch q sch o = Ok keys.
Proof.
  intros sch o keys0 H. destruct o as [keys tag|tag| |]; simpl in *; try discriminate; binds H;
    match goal with Ht : check_template fq _ _ = Ok tt |- _ => apply check_template_relax in Ht end;
    destruct (q_labels_unchecked q); rw_ok; reflexivity.
Qed.

Theorem verify_relax : forall c, verify fq c = Ok tt -> verify q c = Ok tt.
Proof.
  intros c H.
  destruct (verify_inv c H) as (Hdec & Hschema & Hinputs & Horch & (Hmne & Hmf & Hml & Hmd) & Htf & Hne & Hpairs).
  unfold verify, verify_metric_keys.
  rewrite Hdec, Hschema, (verify_inputs_relax _ _ Hinputs), (verify_orch_relax _ _ _ Horch). cbn [check obind].
  rewrite Hmne, Hmf, Hmd, (proj1 (proj2 verify_transforms_relax) _ _ Htf), Hne, (verify_pairs_relax _ _ _ Hpairs).
  cbn [negb check obind]. destruct (q_labels_unchecked q), (q_no_outputs_accepted q); rewrite ?Hml; reflexivity.
Qed.

End Relax.

Theorem fixes_only_restrict_lemma : forall c, verify fq c = Ok tt -> verify oq c = Ok tt.
Proof. exact (verify_relax oq). Qed.

(* a field named at two sites: the key fields are pairwise distinct across orchestration keys and metricKeys
   (they become the label names key_<field> of one metric), pair names and schema fields are distinct, and the
   rewriter chain of EVERY rewriteFields entry is well formed - whether the field is hidden, an environment
   field or visible (NewEventSerializer builds all of them) *)

Lemma mem_In : forall x l, mem x l = true <-> In x l.
Proof.
  intros x l. unfold mem. rewrite existsb_exists. split.
  - intros [y [H1 H2]]. apply bytes_eqb_eq in H2. subst. assumption.
  - intro H. exists x. split; [assumption|apply bytes_eqb_refl].
Qed.

Lemma NoDup_app_intro : forall (a b : list bytes), NoDup a -> NoDup b -> (forall x, In x a -> ~ In x b) -> NoDup (a ++ b).
Proof.
  induction a as [|x a IH]; intros b Ha Hb Hd; simpl; [assumption|].
  inversion Ha; subst. constructor.
  - intro Hin. apply in_app_or in Hin. destruct Hin as [Hin|Hin]; [contradiction|]. apply (Hd x); [left; reflexivity|assumption].
  - apply IH; auto. intros y Hy. apply Hd. right. assumption.
Qed.

(* one step of a scan that refuses a name seen before *)
Lemma nodup_seen_cons : forall (n : bytes) r seen, negb (mem n seen) = true ->
  NoDup r /\ (forall m, In m r -> ~ In m (n :: seen)) ->
  NoDup (n :: r) /\ (forall m, In m (n :: r) -> ~ In m seen).
Proof.
  intros n r seen Hn [N1 N2].
  assert (Hs : ~ In n seen). { intro Hin. apply mem_In in Hin. rewrite Hin in Hn. discriminate. }
  split.
  - constructor; [|assumption]. intro Hin. apply (N2 n Hin). left. reflexivity.
  - intros m [E|Hin]; [subst; assumption|]. intro Hm. apply (N2 m Hin). right. assumption.
Qed.

Lemma check_label_fields_nodup : forall names seen, check_label_fields names seen = Ok tt ->
  NoDup names /\ (forall n, In n names -> ~ In n seen).
Proof.
  induction names as [|n r IH]; intros seen H; simpl in H; [split; [constructor|intros ? []]|].
  binds H. apply check_ok in Hb0. apply nodup_seen_cons; auto.
Qed.

Lemma schema_names_nodup : forall names seen, schema_names_ok names seen = true ->
  NoDup names /\ (forall n, In n names -> ~ In n seen).
Proof.
  induction names as [|n r IH]; intros seen H; simpl in H; [split; [constructor|intros ? []]|].
  split_and H. apply nodup_seen_cons; auto.
Qed.

Lemma verify_pairs_names : forall sch l seen, verify_pairs fq sch seen l = Ok tt ->
  (NoDup (map p_name l) /\ (forall n, In n (map p_name l) -> ~ In n seen)) /\
  (forall p, In p l -> verify_output fq sch (p_output p) = Ok tt).
Proof.
  intros sch l. induction l as [|p r IH]; intros seen H; simpl in H |- *.
  - repeat split; [constructor|intros ? []|intros ? []].
  - binds H. apply check_ok in Hb. destruct (IH _ H) as [N N3].
    unfold verify_pair in Hb0. binds Hb0.
    split; [apply nodup_seen_cons; assumption|]. intros p' [E|Hin]; [subst; assumption|auto].
Qed.

Theorem interacting_sites_lemma : forall c, verify fq c = Ok tt ->
  NoDup (orch_keys (c_orch c) ++ c_metric_keys c) /\
  NoDup (map p_name (c_pairs c)) /\
  NoDup (c_fields c) /\
  (forall p env hidden rewrites mode addr ok dur, In p (c_pairs c) ->
     p_output p = OFluentd env hidden rewrites mode addr ok dur ->
     forall fr, In fr rewrites -> known (c_fields c) (fst fr) /\ rewriters_valid (c_fields c) (snd fr)).
Proof.
  intros c H. destruct (verify_inv c H) as (_ & Hschema & _ & Horch & (_ & _ & Hml & Hmd) & _ & _ & Hpairs).
  destruct (check_label_fields_nodup _ _ (proj2 (verify_orch_keys _ _ _ Horch))) as [Nk _].
  destruct (check_label_fields_nodup _ _ Hml) as [Nm _].
  destruct (verify_pairs_names _ _ _ Hpairs) as [[Np _] Hout].
  split; [|split; [assumption|split]].
  - apply NoDup_app_intro; try assumption. intros x Hx Hm. apply not_true_iff_false in Hmd. apply Hmd.
    apply existsb_exists. exists x. split; [assumption|apply mem_In; assumption].
  - unfold verify_schema in Hschema. binds Hschema. apply check_ok in Hschema.
    apply (schema_names_nodup _ _ Hschema).
  - intros p env hidden rewrites mode addr ok dur Hin Eo fr Hfr.
    pose proof (Hout p Hin) as Ho. rewrite Eo in Ho. simpl in Ho. binds Ho.
    match goal with Hr : verify_rewrite_fields _ rewrites = Ok tt |- _ =>
      destruct (verify_rewrite_fields_in _ _ Hr fr Hfr) as [F1 F2] end.
    split; [eapply check_field_known; eauto|apply (verify_rewriters_valid _ _ F2)].
Qed.
